(* A tiny object heap: the MUTABLE objects of the implementation (Python dicts and the objects built from them)
   are modelled explicitly, so that "this call does not modify that object" is a statement with content.
   An object is a dict whose cells hold an immutable JSON value or a reference to another object. *)
From Coq Require Import List NArith Lia.
From PV Require Import Base.Str Base.Value.
Import ListNotations.
Local Open Scope N_scope.

Definition oid := N.
Inductive cell := CVal (v : value) | CRef (o : oid).
Definition obj := list (str * cell).            (* a Python dict: first binding of a key wins *)
Definition heap := list (oid * obj).            (* newest binding of an id wins *)

(* ids 1..3 are reserved for the library-level defaults (see Api.v) *)
Definition RESERVED : N := 3.

Fixpoint h_get (h : heap) (o : oid) : option obj :=
  match h with
  | [] => None
  | (o', ob) :: r => if N.eqb o o' then Some ob else h_get r o
  end.
Definition h_put (h : heap) (o : oid) (ob : obj) : heap := (o, ob) :: h.
Definition h_obj (h : heap) (o : oid) : obj := match h_get h o with Some ob => ob | None => [] end.

Definition cell_hi (c : cell) : N := match c with CRef r => r | CVal _ => 0 end.
Fixpoint obj_hi (ob : obj) : N :=
  match ob with [] => 0 | (_, c) :: r => N.max (cell_hi c) (obj_hi r) end.
(* highest id in use: reserved ids, ids of objects, ids mentioned inside objects *)
Fixpoint hi (h : heap) : N :=
  match h with [] => RESERVED | (o, ob) :: r => N.max (N.max o (obj_hi ob)) (hi r) end.
Definition fresh (h : heap) : oid := N.succ (hi h).
Definition h_alloc (h : heap) (ob : obj) : heap * oid := (h_put h (fresh h) ob, fresh h).

Definition o_del (k : str) (ob : obj) : obj := filter (fun kc => negb (str_eqb k (fst kc))) ob.
Definition o_set (k : str) (c : cell) (ob : obj) : obj := (k, c) :: o_del k ob.
(* dict.update: bindings of src replace those of dst *)
Definition o_update (dst src : obj) : obj := src ++ filter (fun kc => negb (mem_str (fst kc) (keys src))) dst.

Definition h_copy (h : heap) (o : oid) : heap * oid := h_alloc h (h_obj h o).       (* dict(d): shallow, fresh id *)
Definition h_alias (h : heap) (o : oid) : heap * oid := (h, o).                      (* x = d *)
Definition h_update (h : heap) (dst : oid) (src : obj) : heap := h_put h dst (o_update (h_obj h dst) src).
Definition h_pop (h : heap) (o : oid) (k : str) : heap * option cell :=
  (h_put h o (o_del k (h_obj h o)), lookup k (h_obj h o)).
Definition h_set (h : heap) (o : oid) (k : str) (c : cell) : heap := h_put h o (o_set k c (h_obj h o)).
Definition h_getk (h : heap) (o : oid) (k : str) : option cell := lookup k (h_obj h o).

(* model_dump / deepcopy: fresh ids for everything reachable, down to depth n (deeper references are cut) *)
Fixpoint h_deepcopy (n : nat) (h : heap) (o : oid) {struct n} : heap * oid :=
  match n with
  | O => h_alloc h []
  | S n' =>
      let '(h', ob') :=
        (fix go (h : heap) (ob : obj) {struct ob} : heap * obj :=
           match ob with
           | [] => (h, [])
           | (k, CVal v) :: r => let '(h1, r') := go h r in (h1, (k, CVal v) :: r')
           | (k, CRef t) :: r =>
               let '(h1, t') := h_deepcopy n' h t in
               let '(h2, r') := go h1 r in (h2, (k, CRef t') :: r')
           end) h (h_obj h o) in
      h_alloc h' ob'
  end.

(* deep snapshot of an object as a JSON value (what model_dump / canonical JSON of a dict shows), depth n *)
Fixpoint snap (n : nat) (h : heap) (o : oid) {struct n} : value :=
  match n with
  | O => VDict []
  | S n' => VDict (map (fun kc => (fst kc, match snd kc with CVal v => v | CRef t => snap n' h t end)) (h_obj h o))
  end.
Definition snap_obj (n : nat) (h : heap) (ob : obj) : list (str * value) :=
  map (fun kc => (fst kc, match snd kc with CVal v => v | CRef t => snap n h t end)) ob.
Lemma snap_S n h o : snap (S n) h o = VDict (snap_obj n h (h_obj h o)).
Proof. reflexivity. Qed.

(* reachability through reference cells *)
Inductive reach (h : heap) : oid -> oid -> Prop :=
| reach_refl o : reach h o o
| reach_step o k r o' : In (k, CRef r) (h_obj h o) -> reach h r o' -> reach h o o'.

(* frame: h' agrees with h on every id <= b, and no id went out of use *)
Definition frame (b : N) (h h' : heap) : Prop :=
  (forall o, o <= b -> h_get h' o = h_get h o) /\ hi h <= hi h'.

Lemma frame_refl b h : frame b h h.
Proof. split; [reflexivity | lia]. Qed.
Lemma frame_trans b h1 h2 h3 : frame b h1 h2 -> frame b h2 h3 -> frame b h1 h3.
Proof. intros [A1 B1] [A2 B2]. split; [intros o Ho; rewrite A2, A1; auto | lia]. Qed.
Lemma frame_weaken b b' h h' : b' <= b -> frame b h h' -> frame b' h h'.
Proof. intros Hb [A B]. split; [intros o Ho; apply A; lia | exact B]. Qed.
Lemma frame_obj b h h' o : frame b h h' -> o <= b -> h_obj h' o = h_obj h o.
Proof. intros [A _] Ho. unfold h_obj. rewrite A; auto. Qed.

Lemma hi_reserved h : RESERVED <= hi h.
Proof. induction h as [|[o ob] r IH]; simpl; lia. Qed.
Lemma h_get_hi h o ob : h_get h o = Some ob -> o <= hi h /\ obj_hi ob <= hi h.
Proof.
  induction h as [|[o' ob'] r IH]; simpl; [discriminate|].
  destruct (N.eqb o o') eqn:E.
  - apply N.eqb_eq in E. subst. intros H. inv H. lia.
  - intros H. specialize (IH H). lia.
Qed.
(* reading is unaffected by allocation: an id above [hi] names nothing *)
Lemma h_get_above h o : hi h < o -> h_get h o = None.
Proof. intros H. destruct (h_get h o) eqn:E; [|reflexivity]. apply h_get_hi in E. lia. Qed.
Lemma fresh_unused h : h_get h (fresh h) = None.
Proof. apply h_get_above. unfold fresh. lia. Qed.
Lemma obj_hi_in k r ob : In (k, CRef r) ob -> r <= obj_hi ob.
Proof.
  induction ob as [|[k' c] ob IH]; simpl; [tauto|]. intros [H|H]; [inv H; simpl; lia|]. specialize (IH H). lia.
Qed.
Lemma obj_hi_bound ob m : (forall k r, In (k, CRef r) ob -> r <= m) -> obj_hi ob <= m.
Proof.
  induction ob as [|[k c] ob IH]; simpl; intros H; [lia|].
  assert (obj_hi ob <= m) by (apply IH; intros k' r' Hin; eapply H; right; exact Hin).
  destruct c as [v|t]; simpl; [lia|]. specialize (H k t (or_introl eq_refl)). lia.
Qed.
Lemma h_obj_hi h o : obj_hi (h_obj h o) <= hi h.
Proof. unfold h_obj. destruct (h_get h o) eqn:E; [apply h_get_hi in E; lia | simpl; lia]. Qed.
Lemma ref_below h o k r : In (k, CRef r) (h_obj h o) -> r <= hi h.
Proof. intros H. apply obj_hi_in in H. pose proof (h_obj_hi h o). lia. Qed.

Lemma h_get_put_same h o ob : h_get (h_put h o ob) o = Some ob.
Proof. simpl. rewrite N.eqb_refl. reflexivity. Qed.
Lemma h_get_put_other h o ob o' : o' <> o -> h_get (h_put h o ob) o' = h_get h o'.
Proof. intros H. simpl. destruct (N.eqb o' o) eqn:E; [apply N.eqb_eq in E; contradiction | reflexivity]. Qed.
Lemma h_obj_put_same h o ob : h_obj (h_put h o ob) o = ob.
Proof. unfold h_obj. rewrite h_get_put_same. reflexivity. Qed.
Lemma hi_put h o ob : hi (h_put h o ob) = N.max (N.max o (obj_hi ob)) (hi h).
Proof. reflexivity. Qed.

(* writing to an id above b leaves every object up to b unchanged *)
Lemma frame_put b h o ob : b < o -> frame b h (h_put h o ob).
Proof.
  intros Hb. split; [|rewrite hi_put; lia].
  intros o' Ho. apply h_get_put_other. lia.
Qed.
Lemma frame_pop b h o k : b < o -> frame b h (fst (h_pop h o k)).
Proof. apply frame_put. Qed.
Lemma alloc_fresh h ob : hi h < snd (h_alloc h ob).
Proof. simpl. unfold fresh. lia. Qed.
Lemma alloc_get h ob : h_obj (fst (h_alloc h ob)) (snd (h_alloc h ob)) = ob.
Proof. apply h_obj_put_same. Qed.
Lemma alloc_hi h ob : snd (h_alloc h ob) <= hi (fst (h_alloc h ob)).
Proof. simpl. lia. Qed.

(* h' GROWS from h: every object of h is untouched and no id went out of use.  A preorder that is kept by
   allocation and by every write to an id above [hi h] -- the objects a call allocated itself. *)
Definition grows (h h' : heap) : Prop := frame (hi h) h h'.
Lemma grows_refl h : grows h h.
Proof. apply frame_refl. Qed.
Lemma grows_hi h h' : grows h h' -> hi h <= hi h'.
Proof. intros [_ H]. exact H. Qed.
Lemma grows_trans h1 h2 h3 : grows h1 h2 -> grows h2 h3 -> grows h1 h3.
Proof. intros G1 G2. eapply frame_trans; [exact G1|]. eapply frame_weaken; [apply (grows_hi _ _ G1) | exact G2]. Qed.
Lemma grows_put h0 h o ob : grows h0 h -> hi h0 < o -> grows h0 (h_put h o ob).
Proof. intros G Ho. eapply frame_trans; [exact G | apply frame_put; exact Ho]. Qed.
Lemma grows_obj h h' o : grows h h' -> o <= hi h -> h_obj h' o = h_obj h o.
Proof. apply frame_obj. Qed.
Lemma grows_keeps h h' o ob : grows h h' -> h_get h o = Some ob -> h_get h' o = Some ob.
Proof. intros [G _] H. rewrite G; [exact H|]. apply h_get_hi in H. lia. Qed.
Lemma fresh_above h0 h : grows h0 h -> hi h0 < fresh h.
Proof. intros G. apply grows_hi in G. unfold fresh. lia. Qed.
Lemma alloc_spec h0 h ob h' o : grows h0 h -> h_alloc h ob = (h', o) ->
  grows h0 h' /\ hi h < o /\ o <= hi h' /\ h_obj h' o = ob.
Proof.
  intros G E. inv E. split; [apply grows_put; [exact G | apply (fresh_above _ _ G)]|].
  split; [apply (fresh_above h h), grows_refl|]. split; [rewrite hi_put; lia | apply h_obj_put_same].
Qed.

(* snapshots of old objects do not change *)
Lemma snap_obj_ext n h h' ob : (forall t, t <= hi h -> snap n h' t = snap n h t) -> obj_hi ob <= hi h ->
  snap_obj n h' ob = snap_obj n h ob.
Proof.
  intros S Hb. apply map_ext_in. intros [k c] Hin. simpl. destruct c as [v|t]; [reflexivity|].
  f_equal. apply S. apply obj_hi_in in Hin. lia.
Qed.
Lemma grows_snap n : forall h h' o, grows h h' -> o <= hi h -> snap n h' o = snap n h o.
Proof.
  induction n as [|n IH]; intros h h' o G Ho; [reflexivity|].
  rewrite !snap_S, (grows_obj _ _ _ G Ho). f_equal. apply snap_obj_ext; [intros t; apply IH, G | apply h_obj_hi].
Qed.
Lemma grows_snap_obj n h h' ob : grows h h' -> obj_hi ob <= hi h -> snap_obj n h' ob = snap_obj n h ob.
Proof. intros G. apply snap_obj_ext. intros t. apply grows_snap, G. Qed.

(* objects above b whose references all point above b: "fresh objects only point to fresh objects" *)
Definition closed_above (b : N) (h : heap) : Prop :=
  forall o k r, b < o -> In (k, CRef r) (h_obj h o) -> b < r.
Lemma reach_above b h o o' : closed_above b h -> b < o -> reach h o o' -> b < o'.
Proof. intros C Ho R. induction R as [|o k r o' Hin R IH]; [exact Ho|]. apply IH. eapply C; eauto. Qed.
Lemma reach_below h o o' : o <= hi h -> reach h o o' -> o' <= hi h.
Proof. intros Ho R. induction R as [|o k r o' Hin R IH]; [exact Ho|]. apply IH. eapply ref_below; eauto. Qed.
Lemma reach_grows h h' o o' : grows h h' -> o <= hi h -> reach h' o o' -> reach h o o'.
Proof.
  intros G Ho R. induction R as [|o k r o' Hin R IH]; [constructor|].
  rewrite (grows_obj _ _ _ G Ho) in Hin. econstructor; [exact Hin|]. apply IH. eapply ref_below; eauto.
Qed.
(* an object from which only ids above [hi h] are reachable in h' shares nothing with the objects of h *)
Lemma new_disjoint h h' r : grows h h' -> (forall o', reach h' r o' -> hi h < o') ->
  (forall o', reach h' r o' -> h_get h o' = None) /\
  (forall m o', m <= hi h -> reach h m o' \/ reach h' m o' -> ~ reach h' r o').
Proof.
  intros G Only. split; [intros o' R; apply h_get_above, Only, R|].
  intros m o' Hm Rm Rr. apply Only in Rr.
  assert (R : reach h m o') by (destruct Rm as [Rm|Rm]; [exact Rm | exact (reach_grows _ _ _ _ G Hm Rm)]).
  apply (reach_below _ _ _ Hm) in R. lia.
Qed.

Lemma closed_above_put b h o ob : closed_above b h -> (forall k r, In (k, CRef r) ob -> b < r) -> closed_above b (h_put h o ob).
Proof.
  intros C Hob o' k r Ho' Hin. unfold h_obj in Hin. destruct (N.eq_dec o' o) as [->|Hne].
  - rewrite h_get_put_same in Hin. eapply Hob; eauto.
  - rewrite h_get_put_other in Hin by exact Hne. eapply C; eauto.
Qed.
Lemma closed_above_hi h : closed_above (hi h) h.
Proof. intros o k r Ho Hin. unfold h_obj in Hin. rewrite h_get_above in Hin by exact Ho. destruct Hin. Qed.

(* deep copy: allocates only; the copy is fresh, closed, and has the same snapshot.  The bound [b] is a parameter and not
   [hi h]: in dc_go the cells copied later must be closed above the OUTER bound, and closed_above (hi h1) h2 does not give
   closed_above (hi h) h2 *)
Section DeepCopy.
Variable b : N.
Definition dc_go (n' : nat) :=
  fix go (h : heap) (ob : obj) {struct ob} : heap * obj :=
    match ob with
    | [] => (h, [])
    | (k, CVal v) :: r => let '(h1, r') := go h r in (h1, (k, CVal v) :: r')
    | (k, CRef t) :: r =>
        let '(h1, t') := h_deepcopy n' h t in
        let '(h2, r') := go h1 r in (h2, (k, CRef t') :: r')
    end.
Lemma h_deepcopy_S n' h o : h_deepcopy (S n') h o = let '(h', ob') := dc_go n' h (h_obj h o) in h_alloc h' ob'.
Proof. reflexivity. Qed.

Definition dc_ok (n : nat) : Prop := forall h o h' o',
  b <= hi h -> closed_above b h -> h_deepcopy n h o = (h', o') ->
  grows h h' /\ hi h < o' /\ o' <= hi h' /\ closed_above b h' /\ snap n h' o' = snap n h o.

Lemma dc_go_ok n' : dc_ok n' -> forall ob h h' ob',
  b <= hi h -> closed_above b h -> dc_go n' h ob = (h', ob') ->
  grows h h' /\ closed_above b h' /\ (forall k r, In (k, CRef r) ob' -> hi h < r /\ r <= hi h') /\
  (obj_hi ob <= hi h -> snap_obj n' h' ob' = snap_obj n' h ob).
Proof.
  intros IHn. induction ob as [|[k c] r IH]; intros h h' ob' Hb C E.
  - simpl in E. inv E. split; [apply grows_refl|]. split; [exact C|]. split; [intros k r []|]. reflexivity.
  - destruct c as [v|t]; simpl in E.
    + destruct (dc_go n' h r) as [h1 r'] eqn:E1. inv E.
      destruct (IH _ _ _ Hb C E1) as (G & C' & R & S).
      split; [exact G|]. split; [exact C'|]. split.
      * intros k' r0 [H|H]; [inv H | apply (R _ _ H)].
      * intros Hh. simpl in Hh. simpl. f_equal. apply S. lia.
    + destruct (h_deepcopy n' h t) as [h1 t'] eqn:E0.
      destruct (dc_go n' h1 r) as [h2 r'] eqn:E1. inv E.
      destruct (IHn _ _ _ _ Hb C E0) as (G0 & Hf & Hle & C0 & S0).
      pose proof (grows_hi _ _ G0) as M0.
      destruct (IH h1 _ _ ltac:(lia) C0 E1) as (G1 & C1 & R1 & S1).
      pose proof (grows_hi _ _ G1) as M1.
      split; [exact (grows_trans _ _ _ G0 G1)|]. split; [exact C1|]. split.
      * intros k' r0 [H|H]; [inv H; lia | destruct (R1 _ _ H); lia].
      * intros Hh. simpl in Hh. simpl. f_equal.
        -- f_equal. rewrite (grows_snap n' h1 h' t' G1 Hle). apply S0.
        -- rewrite S1 by lia. apply grows_snap_obj; [exact G0 | lia].
Qed.

Lemma h_deepcopy_ok n : dc_ok n.
Proof.
  induction n as [|n IHn]; intros h o h' o' Hb C E.
  - destruct (alloc_spec h h [] h' o' (grows_refl h) E) as (G & Hf & Hle & _). inv E.
    split; [exact G|]. split; [exact Hf|]. split; [exact Hle|].
    split; [apply closed_above_put; [exact C | intros k r []]|]. reflexivity.
  - rewrite h_deepcopy_S in E. destruct (dc_go n h (h_obj h o)) as [h1 ob1] eqn:E1.
    destruct (dc_go_ok n IHn _ _ _ _ Hb C E1) as (G1 & C1 & R & S). pose proof (grows_hi _ _ G1) as M1.
    destruct (alloc_spec h1 h1 ob1 h' o' (grows_refl h1) E) as (G & Hf & Hle & Oo).
    split; [exact (grows_trans _ _ _ G1 G)|]. split; [lia|]. split; [exact Hle|].
    split. { inv E. apply closed_above_put; [exact C1|]. intros k r Hin. destruct (R _ _ Hin). lia. }
    rewrite !snap_S, Oo. f_equal.
    rewrite <- S by apply h_obj_hi.
    apply grows_snap_obj; [exact G|]. apply obj_hi_bound. intros k r Hin. apply (R _ _ Hin).
Qed.
End DeepCopy.

(* the usual instance: b = hi h *)
Lemma h_deepcopy_fresh n h o h' o' : h_deepcopy n h o = (h', o') ->
  grows h h' /\ hi h < o' /\ o' <= hi h' /\ closed_above (hi h) h' /\ snap n h' o' = snap n h o.
Proof. intros E. eapply (h_deepcopy_ok (hi h)); [lia | apply closed_above_hi | exact E]. Qed.
