(* Laws over whole HISTORIES (lists of calls) for the repaired flags, from the one-step specification of Facts.v.
   [run_spec] is the one induction over a valid history; [edit_point] reduces deletion, duplication and permutation
   to list manipulation.  Calls name objects by concrete id: why the edit laws of Properties/C06.v carry a side
   condition on the calls after the edit point is said there. *)
From Coq Require Import List Lia Permutation.
From PV Require Import Base.Value Purity.Heap Purity.Api Purity.Facts.
Import ListNotations.
Local Open Scope N_scope.

(* every call names objects that exist when it runs (initial ones or results of earlier calls) *)
Fixpoint valid_run (sm : sem) (s : state) (cs : list call) : Prop :=
  match cs with
  | [] => True
  | c :: r => within (hp s) c /\ valid_run sm (fst (api_step REPAIRED sm s c)) r
  end.

Definition run_state (sm : sem) (s : state) (cs : list call) : state := fst (api_run REPAIRED sm s cs).
Definition run_vals (sm : sem) (s : state) (cs : list call) : list value := map rval (snd (api_run REPAIRED sm s cs)).
Definition drop_nth {A} (n : nat) (l : list A) : list A := firstn n l ++ skipn (S n) l.

Lemma run_state_cons sm s c cs : run_state sm s (c :: cs) = run_state sm (fst (api_step REPAIRED sm s c)) cs.
Proof. unfold run_state. simpl. destruct (api_step REPAIRED sm s c) as [s1 x]. simpl. destruct (api_run REPAIRED sm s1 cs). reflexivity. Qed.
Lemma run_vals_cons sm s c cs :
  run_vals sm s (c :: cs) = rval (snd (api_step REPAIRED sm s c)) :: run_vals sm (fst (api_step REPAIRED sm s c)) cs.
Proof. unfold run_vals. simpl. destruct (api_step REPAIRED sm s c) as [s1 x]. simpl. destruct (api_run REPAIRED sm s1 cs). reflexivity. Qed.
Lemma run_state_app sm a b : forall s, run_state sm s (a ++ b) = run_state sm (run_state sm s a) b.
Proof. induction a as [|c a IH]; intros s; [reflexivity|]. cbn [app]. rewrite !run_state_cons. apply IH. Qed.
Lemma run_vals_app sm a b : forall s, run_vals sm s (a ++ b) = run_vals sm s a ++ run_vals sm (run_state sm s a) b.
Proof. induction a as [|c a IH]; intros s; [reflexivity|]. cbn [app]. rewrite !run_vals_cons, run_state_cons, IH. reflexivity. Qed.
Lemma run_vals_length sm : forall cs s, length (run_vals sm s cs) = length cs.
Proof. induction cs as [|c cs IH]; intros s; [reflexivity|]. rewrite run_vals_cons. simpl. f_equal. apply IH. Qed.

(* no history, valid or not, touches an object of its initial heap *)
Lemma run_grows sm : forall cs s, grows (hp s) (hp (run_state sm s cs)).
Proof.
  induction cs as [|c cs IH]; intros s; [apply grows_refl|].
  rewrite run_state_cons. exact (grows_trans _ _ _ (step_grows sm s c) (IH _)).
Qed.

(* a valid history from a state that grew from h0: the final state grew from h0, keeps the cache invariant, and each
   call that names objects of h0 only returned what it reads off h0 *)
Lemma run_spec sm h0 : forall cs s, grows h0 (hp s) -> cache_ok s -> valid_run sm s cs ->
  cache_ok (run_state sm s cs) /\
  Forall2 (fun c v => within h0 c -> v = pure_val sm h0 c) cs (run_vals sm s cs).
Proof.
  induction cs as [|c cs IH]; intros s G Hc Hv; [split; [exact Hc | constructor]|].
  destruct Hv as [Hw Hv]. rewrite run_state_cons, run_vals_cons.
  destruct (IH _ (grows_trans _ _ _ G (step_grows sm s c)) (step_cache_ok sm s c Hc Hw) Hv) as (Hc' & V).
  split; [exact Hc'|]. constructor; [|exact V].
  intros Hw0. rewrite (step_val sm s c Hc Hw). apply pure_val_grows; assumption.
Qed.
Lemma within_valid sm h0 cs : Forall (within h0) cs -> forall s, grows h0 (hp s) -> valid_run sm s cs.
Proof.
  induction 1 as [|c cs Hw _ IH]; intros s G; [exact I|].
  split; [exact (within_grows _ _ _ G Hw) | exact (IH _ (grows_trans _ _ _ G (step_grows sm s c)))].
Qed.

Lemma Forall2_nth_error {A B} (R : A -> B -> Prop) l l' : Forall2 R l l' ->
  forall k a, nth_error l k = Some a -> exists b, nth_error l' k = Some b /\ R a b.
Proof. induction 1 as [|x y l l' Hxy _ IH]; intros [|k] a E; simpl in E; try discriminate; [inv E; simpl; eauto | exact (IH k a E)]. Qed.
Lemma Forall2_map {A B} (Q : A -> Prop) (f : A -> B) l l' :
  Forall2 (fun a b => Q a -> b = f a) l l' -> Forall Q l -> l' = map f l.
Proof. induction 1 as [|x y l l' Hxy _ IH]; intros HQ; [reflexivity|]. inv HQ. simpl. f_equal; auto. Qed.

(* a history whose calls name objects of its initial state only *)
Lemma suffix_vals sm s post : cache_ok s -> Forall (within (hp s)) post ->
  run_vals sm s post = map (pure_val sm (hp s)) post.
Proof.
  intros Hc Hw. refine (Forall2_map _ _ _ _ _ Hw).
  apply (run_spec sm (hp s) post s (grows_refl _) Hc), (within_valid sm _ _ Hw), grows_refl.
Qed.
(* the results of [pre ++ post] when the calls of [post] name objects of the edit point only: those of [pre], then
   what each call of [post] reads off the state reached by [pre] *)
Lemma edit_point sm s pre post : cache_ok s -> valid_run sm s pre -> Forall (within (hp (run_state sm s pre))) post ->
  run_vals sm s (pre ++ post) = run_vals sm s pre ++ map (pure_val sm (hp (run_state sm s pre))) post.
Proof.
  intros Hc Hv Hw. rewrite run_vals_app. f_equal. apply suffix_vals; [|exact Hw].
  apply (run_spec sm (hp s) pre s (grows_refl _) Hc Hv).
Qed.

Lemma drop_nth_app {A} (a : list A) x b : drop_nth (length a) (a ++ x :: b) = a ++ b.
Proof. unfold drop_nth. induction a as [|y a IH]; simpl; [reflexivity | f_equal; exact IH]. Qed.

Lemma combine_map_perm {A B} (f : A -> B) (l l' : list A) :
  Permutation l l' -> Permutation (combine l (map f l)) (combine l' (map f l')).
Proof.
  intros P. assert (E : forall l, combine l (map f l) = map (fun a => (a, f a)) l).
  { induction l0 as [|a l0 IH]; simpl; [reflexivity | rewrite IH; reflexivity]. }
  rewrite !E. apply Permutation_map. exact P.
Qed.

Lemma combine_app' {A B} : forall (a a' : list A) (b b' : list B), length a = length b ->
  combine (a ++ a') (b ++ b') = combine a b ++ combine a' b'.
Proof.
  induction a as [|x a IH]; intros a' b b' L; destruct b as [|y b]; simpl in *; try discriminate; [reflexivity|].
  f_equal. apply IH. lia.
Qed.

