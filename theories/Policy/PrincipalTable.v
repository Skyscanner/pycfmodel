(* The generated field table of the live class `Principal` (gen/PrincipalFields.v, rewritten from the
   source on every run) is exactly what the model enumerates.  Re-proved by the kernel on every run. *)
From Coq Require Import List.
From PV Require Import Policy.Policy.
From PVGen Require PrincipalFields.
Import ListNotations.

(* exactly the four fields AWS, CanonicalUser, Federated, Service, in this order, each optional (default None) *)
Theorem principal_table_ok :
  PrincipalFields.PRINCIPAL_FIELDS_TABLE = map (fun k => (k, true)) PRINCIPAL_FIELDS.
Proof. vm_compute. reflexivity. Qed.

Theorem principal_table_names : map fst PrincipalFields.PRINCIPAL_FIELDS_TABLE = PRINCIPAL_FIELDS.
Proof. vm_compute. reflexivity. Qed.

Theorem principal_table_all_optional : forall k o, In (k, o) PrincipalFields.PRINCIPAL_FIELDS_TABLE -> o = true.
Proof.
  intros k o H.
  assert (forallb (fun p => snd p) PrincipalFields.PRINCIPAL_FIELDS_TABLE = true) as F by (vm_compute; reflexivity).
  rewrite forallb_forall in F. exact (F (k, o) H).
Qed.

(* no other key is accepted in the object form (extra = forbid), so the four fields are all there is *)
Theorem principal_table_closed : PrincipalFields.PRINCIPAL_EXTRA_FORBID = true.
Proof. vm_compute. reflexivity. Qed.

(* the Statement class has exactly two principal-typed slots *)
Theorem statement_principal_slots : PrincipalFields.STATEMENT_PRINCIPAL_SLOTS = [K_Principal; K_NotPrincipal].
Proof. vm_compute. reflexivity. Qed.
