(* Facts about the policy model of Policy/Policy.v: validation of the Effect, the enumeration of principals, and the
   document queries, which read the Allow statements only ([allowed], [same_allowed_same_answers]). *)
From Coq Require Import List Bool ZArith.
From PV Require Import Base.Str Base.ListFacts Base.Value Policy.Policy.
Import ListNotations.

(* capitalising gives a word of the form Upper-then-lower exactly for the strings that equal it up to letter case *)
Lemma capitalize_eq T tr s :
  (65 <= T <= 90)%N -> lower tr = tr ->
  (capitalize s = T :: tr <-> lower s = lower (T :: tr)).
Proof.
  intros HT Htr. destruct s as [|c r]; simpl.
  - split; discriminate.
  - fold (lower r). fold (lower tr). rewrite Htr.
    split; intros H; injection H as H0 H1; (f_equal; [apply (upper_lower_cp T c HT); exact H0 | exact H1]).
Qed.

Lemma capitalize_name e s : capitalize s = name e <-> lower s = lower (name e).
Proof.
  destruct e; cbn [name]; unfold K_Allow, K_Deny; apply capitalize_eq;
    try (vm_compute; split; discriminate); reflexivity.
Qed.

(* the three outcomes of validation, each with what it says about the input *)
Lemma effect_norm_cases s :
  match effect_norm s with
  | Ok e => lower s = lower (name e)
  | Err k => k = EValidation /\ lower s <> lower K_Allow /\ lower s <> lower K_Deny
  end.
Proof.
  unfold effect_norm.
  destruct (str_eqb (capitalize s) (name Allow)) eqn:EA; [apply capitalize_name, str_eqb_spec, EA|].
  destruct (str_eqb (capitalize s) (name Deny)) eqn:ED; [apply capitalize_name, str_eqb_spec, ED|].
  apply str_eqb_neq in EA, ED. split; [reflexivity|].
  split; intros C; [apply EA | apply ED]; apply capitalize_name, C.
Qed.

Theorem effect_norm_spec s e : effect_norm s = Ok e <-> lower s = lower (name e).
Proof.
  pose proof (effect_norm_cases s) as H. destruct (effect_norm s) as [e'|k].
  - split; [intros [= <-]; exact H|]. intros H'. rewrite H' in H.
    destruct e, e'; try reflexivity; vm_compute in H; discriminate H.
  - destruct H as (_ & HA & HD). split; [discriminate|]. intros H'. destruct e; contradiction.
Qed.

(* the stored form is the canonical spelling: "Allow" or "Deny", equal to the input up to letter case,
   and storing it again changes nothing *)
Theorem effect_store_spec s t :
  effect_store s = Ok t <->
  (t = K_Allow \/ t = K_Deny) /\ lower s = lower t.
Proof.
  unfold effect_store. split.
  - intros H. destruct (effect_norm s) as [e|] eqn:E; cbn [bind] in H; [|discriminate].
    inversion H; subst t. apply effect_norm_spec in E. split; [destruct e; [left|right]; reflexivity | exact E].
  - intros [[->| ->] H].
    + apply (effect_norm_spec s Allow) in H. rewrite H. reflexivity.
    + apply (effect_norm_spec s Deny) in H. rewrite H. reflexivity.
Qed.

Theorem effect_store_idem s t : effect_store s = Ok t -> effect_store t = Ok t.
Proof.
  intros H. apply effect_store_spec in H. destruct H as [[->| ->] _]; vm_compute; reflexivity.
Qed.

Lemma is_allow_spec e : is_allow e = true <-> e = Allow.
Proof. destruct e; vm_compute; split; congruence. Qed.

(* declarative reading: what it means for a Principal / NotPrincipal element to name p *)
Inductive field_names : value -> value -> Prop :=
| FN_str s : field_names (VStr s) (VStr s)                         (* the value itself, a string *)
| FN_list l p : In p l -> field_names (VList l) p.                 (* a member of the list value *)

Inductive elem_names : value -> value -> Prop :=
| EN_str s : elem_names (VStr s) (VStr s)                          (* "Principal": "x" *)
| EN_list l p : In p l -> elem_names (VList l) p                   (* "Principal": ["x", ...] *)
| EN_obj d k fv p :                                                (* "Principal": {"AWS"|...: fv} *)
    In k PRINCIPAL_FIELDS -> lookup k d = Some fv -> field_names fv p -> elem_names (VDict d) p.

Definition named_in (st : stmt) (p : value) : Prop :=
  elem_names (principal st) p \/ elem_names (not_principal st) p.

Lemma field_items_spec fv p : In p (field_items fv) <-> field_names fv p.
Proof.
  split.
  - destruct fv; simpl; try tauto.
    + intros [<-|[]]. constructor.
    + intros H. constructor. exact H.
  - intros H. destruct H; simpl; auto.
Qed.

Lemma elem_items_spec e p : In p (elem_items e) <-> elem_names e p.
Proof.
  split.
  - destruct e; cbn [elem_items In]; try tauto.
    + intros [<-|[]]. constructor.
    + intros H. constructor. exact H.
    + intros H. apply in_flat_map in H. destruct H as (k & Hk & Hp).
      destruct (lookup k d) as [fv|] eqn:L; [|destruct Hp].
      eapply EN_obj; [exact Hk | exact L | apply field_items_spec; exact Hp].
  - intros H. destruct H as [s|l p H|d k fv p Hk L F]; cbn [elem_items In]; auto.
    apply in_flat_map. exists k. split; [exact Hk|]. rewrite L. apply field_items_spec. exact F.
Qed.

(* order: everything of Principal before everything of NotPrincipal; inside an object, field order *)
Theorem principals_order st :
  principals st = elem_items (principal st) ++ elem_items (not_principal st).
Proof. reflexivity. Qed.

Lemma In_strings l s : In s (strings l) <-> In (VStr s) l.
Proof.
  unfold strings. rewrite in_flat_map. split.
  - intros (v & Hv & Hs). destruct v; simpl in Hs; try contradiction. destruct Hs as [<-|[]]. exact Hv.
  - intros H. exists (VStr s). split; [exact H | left; reflexivity].
Qed.

Definition is_string (p : value) : Prop := exists s, p = VStr s.

Lemma negb_mem_str s l : negb (mem_str s l) = true <-> ~ In s l.
Proof. rewrite negb_true_iff, <- not_true_iff_false, mem_str_In. reflexivity. Qed.

Theorem non_whitelisted_spec wl st s :
  In s (non_whitelisted wl st) <-> In (VStr s) (principals st) /\ ~ In s wl.
Proof. unfold non_whitelisted. rewrite filter_In, In_strings, negb_mem_str. reflexivity. Qed.

Theorem actions_with_spec m st s :
  In s (actions_with m st) <-> In (VStr s) (action_list st) /\ m s = true.
Proof. unfold actions_with. rewrite filter_In, In_strings. tauto. Qed.

(* order and multiplicity are those of the enumeration (the statement-level results are lists, not sets) *)
Theorem non_whitelisted_is_filter wl st :
  non_whitelisted wl st = filter (fun s => negb (mem_str s wl)) (strings (principals st)).
Proof. reflexivity. Qed.

(* the document queries read the Allow statements only *)
Lemma In_allowed st l : In st (allowed l) <-> In st l /\ effect_of st = Allow.
Proof. unfold allowed. rewrite filter_In, is_allow_spec. tauto. Qed.

(* what a per-statement answer [q] contributes to a document-level answer: that of the Allow statements *)
Lemma In_flat_map_allowed {X} (q : stmt -> list X) l x :
  In x (flat_map q (allowed l)) <-> exists st, In st l /\ effect_of st = Allow /\ In x (q st).
Proof.
  rewrite in_flat_map. split; intros (st & H); exists st; rewrite In_allowed in *; tauto.
Qed.

Section AllowOnly.
  Variable expanded : stmt -> list str.

  Theorem allowed_actions_spec l a :
    In a (allowed_actions expanded l) <->
    exists st, In st l /\ effect_of st = Allow /\ In a (expanded st).
  Proof. apply In_flat_map_allowed. Qed.
End AllowOnly.

Lemma nonempty_ex {A} (l : list A) : nonempty l = true <-> exists x, In x l.
Proof.
  destruct l as [|x l]; simpl; split; try discriminate.
  - intros [x []].
  - intros _. exists x. left; reflexivity.
  - reflexivity.
Qed.

(* a statement-level string query answers something exactly when some enumerated string passes *)
Lemma nonempty_filter_strings m l :
  nonempty (filter m (strings l)) = true <-> exists s, In (VStr s) l /\ m s = true.
Proof. rewrite nonempty_ex. setoid_rewrite filter_In. setoid_rewrite In_strings. reflexivity. Qed.

Lemma allowed_idem l : allowed (allowed l) = allowed l.
Proof. unfold allowed. rewrite filter_filter. apply filter_ext. intros st. apply andb_diag. Qed.

Lemma allowed_insert_deny l1 l2 d : effect_of d = Deny -> allowed (l1 ++ d :: l2) = allowed (l1 ++ l2).
Proof. intros H. unfold allowed. rewrite !filter_app. cbn [filter]. rewrite H. reflexivity. Qed.

Lemma allowed_actions_with_via_allowed m l : allowed_actions_with m l = allowed_actions_with m (allowed l).
Proof.
  unfold allowed_actions_with, allowed. rewrite filter_filter. apply filter_ext. intros st.
  destruct (is_allow (effect_of st)), (nonempty (actions_with m st)); reflexivity.
Qed.

Lemma allowed_all_deny l : (forall st, In st l -> effect_of st = Deny) -> allowed l = [].
Proof.
  intros H. destruct (allowed l) as [|st r] eqn:E; [reflexivity|].
  assert (In st (allowed l)) as Hin by (rewrite E; left; reflexivity).
  apply In_allowed in Hin. destruct Hin as [Hin Ha]. rewrite (H st Hin) in Ha. discriminate.
Qed.

(* every query is a function of the Allow statements alone: two documents with the same Allow statements (in the
   same order) are indistinguishable *)
Theorem same_allowed_same_answers expanded l l' :
  allowed l = allowed l' ->
  allowed_actions expanded l = allowed_actions expanded l' /\
  (forall m, allowed_principals_with m l = allowed_principals_with m l') /\
  (forall wl, non_whitelisted_allowed_principals wl l = non_whitelisted_allowed_principals wl l') /\
  (forall m, allowed_actions_with m l = allowed_actions_with m l').
Proof.
  intros H. unfold allowed_actions, allowed_principals_with, non_whitelisted_allowed_principals.
  rewrite H. repeat split; try reflexivity.
  intros m. rewrite (allowed_actions_with_via_allowed m l), (allowed_actions_with_via_allowed m l'), H. reflexivity.
Qed.

(* mapM succeeds exactly when every element does (parse_doc: one bad statement rejects the document) *)
Lemma mapM_ok {A B} (f : A -> res B) l r :
  mapM f l = Ok r <-> Forall2 (fun x y => f x = Ok y) l r.
Proof.
  revert r. induction l as [|x l IH]; intros r; simpl.
  - split; [intros H; inversion H; constructor | intros H; inversion H; reflexivity].
  - split.
    + intros H. bind_inv. inversion H; subst. constructor; [exact E | apply IH; reflexivity].
    + intros H. inversion H as [|x' y l' ys Hxy Hrest]; subst.
      rewrite Hxy. cbn [bind]. apply IH in Hrest. rewrite Hrest. reflexivity.
Qed.
