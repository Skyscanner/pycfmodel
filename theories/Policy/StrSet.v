(* Python's sorted(set(l)) on strings: a strictly increasing (hence duplicate-free) list with the same
   members.  Used for the policy-document queries whose result is `list(set(...))` (compared as sets with
   the implementation; the model returns the canonical representative), and by Actions/Expand.v, whose [ins] and
   [nodup_sort] are [insert_u] and [sort_dedup] here. *)
From Coq Require Import List Sorted Permutation.
From PV Require Import Base.Str Base.ListFacts.
Import ListNotations.

Fixpoint insert_u (x : str) (l : list str) : list str :=
  match l with
  | [] => [x]
  | y :: r => if str_ltb x y then x :: l else if str_eqb x y then l else y :: insert_u x r
  end.
Definition sort_dedup (l : list str) : list str := fold_right insert_u [] l.

Lemma In_insert_u x l z : In z (insert_u x l) <-> z = x \/ In z l.
Proof.
  induction l as [|y r IH]; simpl; [intuition congruence|].
  destruct (str_ltb x y); [simpl; intuition congruence|].
  destruct (str_eqb x y) eqn:E; simpl; [apply str_eqb_spec in E; intuition congruence | rewrite IH; tauto].
Qed.

Lemma In_sort_dedup l z : In z (sort_dedup l) <-> In z l.
Proof.
  induction l as [|x l IH]; simpl; [tauto|].
  rewrite In_insert_u, IH. split; intros [H|H]; auto.
Qed.

Lemma insert_u_sorted x l : StronglySorted str_lt l -> StronglySorted str_lt (insert_u x l).
Proof.
  induction l as [|y r IH]; intros S; simpl.
  - constructor; constructor.
  - inversion S as [|y' r' Sr Fy]; subst.
    destruct (str_ltb x y) eqn:L.
    + constructor; [exact S|]. constructor; [exact L|].
      rewrite Forall_forall in *. intros z Hz. exact (str_ltb_trans _ _ _ L (Fy z Hz)).
    + destruct (str_eqb x y) eqn:E; [exact S|].
      constructor; [apply IH; exact Sr|].
      rewrite Forall_forall in *. intros z Hz. apply In_insert_u in Hz. destruct Hz as [->|Hz]; [|apply Fy; exact Hz].
      unfold str_lt. destruct (str_ltb y x) eqn:L'; [reflexivity|].
      pose proof (str_ltb_total _ _ L L') as C. subst y. rewrite str_eqb_refl in E. discriminate.
Qed.

Lemma sort_dedup_sorted l : StronglySorted str_lt (sort_dedup l).
Proof. induction l as [|x l IH]; simpl; [constructor | apply insert_u_sorted; exact IH]. Qed.

Lemma sorted_NoDup l : StronglySorted str_lt l -> NoDup l.
Proof. apply StronglySorted_NoDup. exact str_lt_irrefl. Qed.

Lemma sort_dedup_NoDup l : NoDup (sort_dedup l).
Proof. apply sorted_NoDup, sort_dedup_sorted. Qed.

(* a strictly increasing list is determined by its members: the canonical form of a finite set of strings *)
Lemma sorted_unique a : forall b, StronglySorted str_lt a -> StronglySorted str_lt b ->
  (forall x, In x a <-> In x b) -> a = b.
Proof.
  induction a as [|x a IH]; intros [|y b] Sa Sb H.
  - reflexivity.
  - exfalso. apply (proj2 (H y)). left; reflexivity.
  - exfalso. apply (proj1 (H x)). left; reflexivity.
  - inversion Sa as [|? ? Sa' Fa]; inversion Sb as [|? ? Sb' Fb]; subst. rewrite Forall_forall in Fa, Fb.
    assert (x = y) as ->.
    { destruct (proj1 (H x) (or_introl eq_refl)) as [E|Hx]; [congruence|].
      destruct (proj2 (H y) (or_introl eq_refl)) as [E|Hy]; [congruence|].
      destruct (str_lt_asym _ _ (Fb _ Hx) (Fa _ Hy)). }
    f_equal. apply IH; [exact Sa' | exact Sb' |]. intros z. split; intros Hz.
    + destruct (proj1 (H z) (or_intror Hz)) as [<-|Hz']; [destruct (str_lt_irrefl _ (Fa _ Hz)) | exact Hz'].
    + destruct (proj2 (H z) (or_intror Hz)) as [<-|Hz']; [destruct (str_lt_irrefl _ (Fb _ Hz)) | exact Hz'].
Qed.

Lemma sort_dedup_ext l l' : (forall x, In x l <-> In x l') -> sort_dedup l = sort_dedup l'.
Proof.
  intros H. apply sorted_unique; try apply sort_dedup_sorted.
  intros x. rewrite !In_sort_dedup. apply H.
Qed.

Lemma sort_dedup_perm l l' : Permutation l l' -> sort_dedup l = sort_dedup l'.
Proof. intros P. apply sort_dedup_ext, Permutation_same_set, P. Qed.

Lemma sort_dedup_idem l : sort_dedup (sort_dedup l) = sort_dedup l.
Proof. apply sort_dedup_ext. intros x. apply In_sort_dedup. Qed.
