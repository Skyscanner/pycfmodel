(* The queries of Policy/Policy.v that do not look at the Effect: get_resource_list, resources_with, get_action_list,
   PolicyDocument.statements_with (as a filter, and as the list of positions it selects: [positions_from]) and
   get_iam_actions; the field updates [set_effect] ... [set_resources] in which "does not depend on" is stated. *)
From Coq Require Import List ZArith Lia Sorted.
From PV Require Import Base.Str Base.Value Policy.StrSet Policy.Policy Policy.PolicyFacts.
Import ListNotations.

(* declarative reading: r is the string / a member of the list found under Resource or under NotResource *)
Definition resource_named (st : stmt) (r : value) : Prop :=
  field_names (resource st) r \/ field_names (not_resource st) r.

Theorem resource_list_complete st r : In r (resource_list st) <-> resource_named st r.
Proof. unfold resource_list, resource_named. rewrite in_app_iff, !field_items_spec. tauto. Qed.

(* a function object inside a list is enumerated (it is a member like any other) *)
Theorem resource_list_keeps_member_objects st l d :
  resource st = VList l -> In (VDict d) l -> In (VDict d) (resource_list st).
Proof. intros E H. apply resource_list_complete. left. rewrite E. constructor. exact H. Qed.

(* order and multiplicity are those of the enumeration *)
Theorem resources_with_is_filter m st : resources_with m st = filter m (strings (resource_list st)).
Proof. reflexivity. Qed.

Lemma strings_app l1 l2 : strings (l1 ++ l2) = strings l1 ++ strings l2.
Proof. unfold strings. apply flat_map_app. Qed.

(* explicit updates of a statement, field by field *)
Definition set_effect (e : effect) (st : stmt) : stmt :=
  {| sid := sid st; effect_of := e; principal := principal st; not_principal := not_principal st;
     action := action st; not_action := not_action st; resource := resource st; not_resource := not_resource st |}.
Definition set_principals (p np : value) (st : stmt) : stmt :=
  {| sid := sid st; effect_of := effect_of st; principal := p; not_principal := np;
     action := action st; not_action := not_action st; resource := resource st; not_resource := not_resource st |}.
Definition set_actions (a na : value) (st : stmt) : stmt :=
  {| sid := sid st; effect_of := effect_of st; principal := principal st; not_principal := not_principal st;
     action := a; not_action := na; resource := resource st; not_resource := not_resource st |}.
Definition set_sid (s : value) (st : stmt) : stmt :=
  {| sid := s; effect_of := effect_of st; principal := principal st; not_principal := not_principal st;
     action := action st; not_action := not_action st; resource := resource st; not_resource := not_resource st |}.
Definition set_resources (r nr : value) (st : stmt) : stmt :=
  {| sid := sid st; effect_of := effect_of st; principal := principal st; not_principal := not_principal st;
     action := action st; not_action := not_action st; resource := r; not_resource := nr |}.

(* get_action_list(include_action, include_not_action): the default call is the Action part followed by the NotAction part *)
Theorem action_list_split st :
  action_list st = action_list_of true false st ++ action_list_of false true st.
Proof. unfold action_list_of, action_list. rewrite app_nil_r. reflexivity. Qed.

Theorem statements_with_cons m st l :
  statements_with m (st :: l) =
    (if nonempty (resources_with m st) then [st] else []) ++ statements_with m l.
Proof. unfold statements_with. cbn [filter]. destruct (nonempty _); reflexivity. Qed.

Theorem statements_with_NoDup m l : NoDup l -> NoDup (statements_with m l).
Proof. intros H. unfold statements_with. apply NoDup_filter. exact H. Qed.

(* statements_with answers the sub-sequence of the document at strictly increasing positions.
   Position p (counted from i) is reported exactly when the member found there passes *)
Lemma positions_from_In {A} (f : A -> bool) l : forall i p,
  In p (positions_from f i l) <-> i <= p /\ exists x, nth_error l (p - i) = Some x /\ f x = true.
Proof.
  induction l as [|x l IH]; intros i p; cbn [positions_from].
  - split; [intros [] | intros (_ & y & H & _)]. destruct (p - i); discriminate.
  - rewrite in_app_iff, IH. split.
    + intros [H|(Hp & y & H1 & H2)].
      * destruct (f x) eqn:E; [|destruct H]. destruct H as [<-|[]]. split; [lia|]. exists x. rewrite Nat.sub_diag. auto.
      * split; [lia|]. exists y. replace (p - i) with (S (p - S i)) by lia. auto.
    + intros (Hp & y & H1 & H2). destruct (Nat.eq_dec p i) as [->|Hne].
      * left. rewrite Nat.sub_diag in H1. injection H1 as ->. rewrite H2. left; reflexivity.
      * right. split; [lia|]. exists y. replace (p - i) with (S (p - S i)) in H1 by lia. auto.
Qed.

Lemma positions_from_bounds {A} (f : A -> bool) l i p : In p (positions_from f i l) -> i <= p < i + length l.
Proof.
  intros H. apply positions_from_In in H. destruct H as (Hp & x & H & _).
  assert (nth_error l (p - i) <> None) as Hn by congruence. apply nth_error_Some in Hn. lia.
Qed.

Lemma positions_from_sorted {A} (f : A -> bool) l : forall i, StronglySorted lt (positions_from f i l).
Proof.
  induction l as [|x l IH]; intros i; cbn [positions_from]; [constructor|].
  destruct (f x); cbn [app]; [|apply IH].
  constructor; [apply IH|]. apply Forall_forall. intros p H. apply positions_from_bounds in H. lia.
Qed.

Lemma positions_from_nth {A} (f : A -> bool) l : forall i,
  map (fun p => nth_error l (p - i)) (positions_from f i l) = map Some (filter f l).
Proof.
  induction l as [|x l IH]; intros i; cbn [positions_from filter map]; [reflexivity|].
  assert (E : map (fun p => nth_error (x :: l) (p - i)) (positions_from f (S i) l) = map Some (filter f l)).
  { rewrite <- (IH (S i)). apply map_ext_in. intros p Hp. apply positions_from_bounds in Hp.
    replace (p - i) with (S (p - S i)) by lia. reflexivity. }
  rewrite map_app, E. destruct (f x); cbn [map app]; rewrite ?Nat.sub_diag; reflexivity.
Qed.

Lemma positions_from_map {A B} (g : B -> bool) (f : A -> B) (h : A -> bool) l :
  (forall x, g (f x) = h x) -> forall i, positions_from g i (map f l) = positions_from h i l.
Proof. intros E. induction l as [|x l IH]; intros i; cbn [map positions_from]; [reflexivity|]. rewrite E, IH. reflexivity. Qed.

Lemma filter_map_comm {A B} (g : B -> bool) (f : A -> B) l :
  filter g (map f l) = map f (filter (fun x => g (f x)) l).
Proof.
  induction l as [|x l IH]; cbn [map filter]; [reflexivity|]. destruct (g (f x)); cbn [map]; rewrite IH; reflexivity.
Qed.

(* PolicyDocument.get_iam_actions: no Effect gate either *)
Section Iam.
  Variable expanded : stmt -> list str.

  Theorem iam_actions_spec l a :
    In a (iam_actions expanded l) <->
    exists st, In st l /\ In a (expanded st) /\ starts_with K_iam_colon a = true.
  Proof.
    unfold iam_actions. rewrite In_sort_dedup, filter_In, in_flat_map. split.
    - intros ((st & H1 & H2) & H3). exists st. tauto.
    - intros (st & H1 & H2 & H3). split; [exists st; tauto | exact H3].
  Qed.

  (* contrast with get_allowed_actions on the same document: what a Deny statement adds to get_iam_actions it does
     not add to get_allowed_actions *)
  Theorem iam_actions_vs_allowed_actions l a :
    In a (allowed_actions expanded l) -> starts_with K_iam_colon a = true -> In a (iam_actions expanded l).
  Proof.
    intros H Hp. apply allowed_actions_spec in H. destruct H as (st & H1 & _ & H2).
    apply iam_actions_spec. exists st. tauto.
  Qed.
End Iam.
