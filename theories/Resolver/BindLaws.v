(* Definitions and lemmas for the algebraic laws of parameter binding (stated in Properties/C04.v from "ALGEBRAIC LAWS" on):
   [render_param], what [ref_value] does to a present value; [undeclared], with [bind_params] = undeclared supplied keys ++ own
   bindings ++ library defaults; and the vocabulary of the credential decision table -- [cred_src] (where the text of a credential
   field comes from), [entry_of] / [md_of] / [login_of] (the resolved Metadata and LoginProfile built from sources),
   [field_reported] / [entry_reported] / [password_reported] (the verdicts).  The table theorems themselves are C04_hc_resource_table
   and C04_hc_user_table; here are the two lemmas they rest on ([auth_ok_entry], [any_bad_entries]). *)
From Coq Require Import List Bool NArith ZArith Lia.
From PV Require Import Base.Str Base.Value Resolver.Consts Resolver.Template Resolver.ParamFacts Resolver.Creds Resolver.FnAlgebra.
Import ListNotations.
Local Open Scope N_scope.

Lemma field_not_null k d v : field k d = Some v -> v <> VNull.
Proof. unfold field. destruct d as [ | b | z | t | tk t | bs | l | dd]; try discriminate. destruct (lookup k dd) as [[]|]; intros H; inv H; discriminate. Qed.
(* the rendering of a PRESENT value v of the parameter declared by d; [marker] is what a NoEcho parameter shows instead *)
Definition render_param (d v : value) (marker : str) : res value :=
  if is_noecho d then Ok (VStr marker)
  else if is_list_type d then
    match v with
    | VList l => Ok (VList l)
    | _ => s <- py_str v ;; Ok (VList (map VStr (split S_COMMA s)))
    end
  else s <- py_str v ;; Ok (VStr s).

(* a present value -- supplied, or else the Default -- is rendered; the NoEcho marker says which of the two it was *)
Lemma ref_value_present d p v : match p with Some x => Some x | None => field K_Default d end = Some v ->
  ref_value d p = r <- render_param d v (if p then S_NO_ECHO_WITH_VALUE else S_NO_ECHO_WITH_DEFAULT) ;; Ok (Some r).
Proof.
  intros H. unfold ref_value, render_param. rewrite H. destruct (is_noecho d); [destruct p; [|rewrite H]; reflexivity|].
  destruct (is_list_type d).
  - destruct v as [ | b | z | t | tk t | bs | l | dd]; try reflexivity; cbn [py_str bind]; try reflexivity. destruct tk; reflexivity.
  - destruct (py_str v); reflexivity.
Qed.
Lemma ref_value_supplied d v : ref_value d (Some v) = r <- render_param d v S_NO_ECHO_WITH_VALUE ;; Ok (Some r).
Proof. exact (ref_value_present d (Some v) v eq_refl). Qed.
Lemma ref_value_default d v : field K_Default d = Some v -> ref_value d None = r <- render_param d v S_NO_ECHO_WITH_DEFAULT ;; Ok (Some r).
Proof. exact (ref_value_present d None v). Qed.

Lemma ref_value_not_null d p v : ref_value d p = Ok (Some v) -> v <> VNull.
Proof.
  unfold ref_value. destruct (is_noecho d); [intros H; inv H; discriminate|].
  destruct (is_list_type d); destruct (match p with Some p0 => Some p0 | None => field K_Default d end) as [x|]; try discriminate.
  - destruct x as [ | b | z | t | tk t | bs | l | dd]; cbn [py_str bind]; try discriminate; try (intros H; inv H; discriminate).
    destruct tk; intros H; inv H; discriminate.
  - destruct (py_str x); cbn [bind]; [intros H; inv H; discriminate | discriminate].
Qed.
(* an unbound declared parameter: nothing was supplied *)
Lemma ref_value_unbound d p : ref_value d p = Ok None -> p = None.
Proof.
  destruct p as [v|]; [|reflexivity]. rewrite ref_value_supplied. destruct (render_param d v S_NO_ECHO_WITH_VALUE); discriminate.
Qed.

Lemma bind_declared_ok_each decls extra ps k d : bind_declared decls extra = Ok ps -> In (k, d) decls ->
  exists o, ref_value d (supplied k extra) = Ok o.
Proof.
  intros H Hin. assert (Hall := proj1 (bind_declared_ok_iff decls extra) (ex_intro _ ps H)).
  rewrite Forall_forall in Hall. exact (Hall (k, d) Hin).
Qed.

Definition undeclared (decls extra : list (str * value)) : list (str * value) :=
  filter (fun kv => negb (mem_str (fst kv) (keys decls))) extra.
Lemma bind_params_unfold pseudo decls extra :
  bind_params pseudo decls extra = declared <- bind_declared decls extra ;; Ok (undeclared decls extra ++ declared ++ pseudo).
Proof. reflexivity. Qed.
Lemma lookup_undeclared decls extra k : mem_str k (keys decls) = true -> lookup k (undeclared decls extra) = None.
Proof. intros H. unfold undeclared. rewrite (lookup_filter_keys k extra (fun x => negb (mem_str x (keys decls)))). rewrite H. reflexivity. Qed.

(* the own bindings are bindings of declared names *)
Lemma declared_undeclared decls extra declared ks : bind_declared decls extra = Ok declared -> incl (keys decls) ks ->
  filter (fun kv => negb (mem_str (fst kv) ks)) declared = [].
Proof.
  revert declared. induction decls as [|[k0 d0] r IH]; intros declared H Hks; cbn [bind_declared] in H.
  - inv H. reflexivity.
  - bind_inv. inv H. pose proof (IH a0 eq_refl (fun k Hk => Hks k (or_intror Hk))) as IH'. destruct a as [v|]; [|exact IH'].
    cbn [filter fst]. rewrite (proj2 (mem_str_In k0 ks) (Hks k0 (or_introl eq_refl))). exact IH'.
Qed.

(* witnesses of C04_bind_idempotent_noecho_refuted and C04_list_members_not_rendered_refuted *)
Definition dSecret : value := VDict [(K_Type, VStr [83]); (K_NoEcho, VBool true)].

Definition dNumList : value := VDict [(K_Type, VStr S_ListNumber)].

Lemma split_no_comma s : ~ In 44 s -> split S_COMMA s = [s].
Proof. intros H. exact (split_join 44 [] [s] ltac:(discriminate) (Forall_cons s H (Forall_nil _))). Qed.

(* where the text of a credential field comes from *)
Inductive cred_src :=
| CAbsent                                        (* the field is not written *)
| CLiteral (s : str)                             (* a literal text *)
| CRefNoEcho (has_default supplied : bool).      (* {"Ref": P}, P a NoEcho parameter: with/without Default, with/without a supplied value *)

(* its value in the RESOLVED model *)
Definition noecho_marker (has_default supplied : bool) : str :=
  if supplied then S_NO_ECHO_WITH_VALUE else if has_default then S_NO_ECHO_WITH_DEFAULT else S_NO_ECHO_NO_DEFAULT.
Definition cred_val (c : cred_src) : option value :=
  match c with
  | CAbsent => None
  | CLiteral s => Some (VStr s)
  | CRefNoEcho dflt sup => Some (VStr (noecho_marker dflt sup))
  end.
Definition optf (k : str) (c : cred_src) : list (str * value) := match cred_val c with Some v => [(k, v)] | None => [] end.
(* one entry of Metadata."AWS::CloudFormation::Authentication" *)
Definition entry_of (e : cred_src * cred_src * cred_src) : value :=
  let '(ak, pw, sk) := e in VDict (optf K_accessKeyId ak ++ optf K_password pw ++ optf K_secretKey sk).
Definition md_of (entries : list (str * (cred_src * cred_src * cred_src))) : value :=
  VDict [(K_CFN_AUTH, VDict (map (fun ke => (fst ke, entry_of (snd ke))) entries))].
(* LoginProfile: none, or one whose Password comes from [c] *)
Definition login_of (lp : option cred_src) : value :=
  match lp with None => VNull | Some c => VDict (optf K_Password c) end.

(* THE TABLE.  A field of an authentication entry counts unless it is absent or spells the NO_DEFAULT marker *)
Definition field_reported (c : cred_src) : bool :=
  match c with
  | CAbsent => false
  | CLiteral s => negb (str_eqb s S_NO_ECHO_NO_DEFAULT)      (* ANY other literal, the empty text included *)
  | CRefNoEcho dflt sup => dflt || sup                        (* a NoEcho parameter that has a Default or was given a value *)
  end.
Definition entry_reported (e : cred_src * cred_src * cred_src) : bool :=
  let '(ak, pw, sk) := e in field_reported ak || field_reported pw || field_reported sk.
(* the user's password counts under the same rule, except that an EMPTY literal does not *)
Definition password_reported (lp : option cred_src) : bool :=
  match lp with
  | None | Some CAbsent => false
  | Some (CLiteral s) => match s with [] => false | _ => negb (str_eqb s S_NO_ECHO_NO_DEFAULT) end
  | Some (CRefNoEcho dflt sup) => dflt || sup
  end.

Lemma marker_eqb dflt sup : str_eqb (noecho_marker dflt sup) S_NO_ECHO_NO_DEFAULT = negb (dflt || sup).
Proof. destruct dflt, sup; vm_compute; reflexivity. Qed.
Lemma cred_ok_src c : match cred_val c with None => true | Some v => veqb v MARKER end = negb (field_reported c).
Proof.
  destruct c as [|s|dflt sup]; cbn [cred_val field_reported]; [reflexivity | |].
  - unfold MARKER. cbn [veqb]. rewrite negb_involutive. reflexivity.
  - unfold MARKER. cbn [veqb]. rewrite marker_eqb. reflexivity.
Qed.
Lemma auth_ok_entry e : auth_ok (entry_of e) = Ok (negb (entry_reported e)).
Proof.
  destruct e as [[ak pw] sk]. unfold entry_of, entry_reported, auth_ok, cred_ok. rewrite !negb_orb, <- !cred_ok_src. f_equal.
  unfold optf. destruct (cred_val ak), (cred_val pw), (cred_val sk); reflexivity.
Qed.
Lemma any_bad_entries entries :
  any_bad (map (fun ke => (fst ke, entry_of (snd ke))) entries) = Ok (existsb (fun ke => entry_reported (snd ke)) entries).
Proof.
  induction entries as [|[k e] r IH]; [reflexivity|]. cbn [map fst snd any_bad existsb]. rewrite auth_ok_entry. cbn [bind].
  destruct (entry_reported e); [reflexivity | exact IH].
Qed.
