(* resolve as a query tree: the same function as [Resolve.resolve], written against the tree monad of Memo.v, so that
   the only way it can learn the value of a condition is an explicit [QAsk].  [resolve_t_run] shows that running the
   tree against any oracle is [resolve] with that oracle as its condition environment: every body the resolver can
   evaluate IS a query tree ([body_tree_run]); MemoFacts.v uses this to tie the memoising condition resolver (Memo.v) to
   Template.cond_val. *)
From Coq Require Import List Bool NArith ZArith.
From PV Require Import Base.Str Base.Value Resolver.Consts Resolver.Text Resolver.Resolve Resolver.Spec Resolver.Ext Resolver.Memo.
Import ListNotations.
Local Open Scope N_scope.

Notation "x <~ t ;; k" := (qbind t (fun x => k)) (at level 61, t at next level, right associativity).
Definition ret {A} (a : A) : qtree A := QRet (Ok a).
Definition lift {A} (r : res A) : qtree A := QRet r.
Definition ask (n : str) : qtree bool := QAsk n (fun b => QRet (Ok b)).


Section T.
Variables ps maps : list (str * value).
(* the pure helpers (do_ref, do_sub, do_find_in_map) read parameters and mappings only *)
Definition penv : env := {| params := ps; mappings := maps; conds := fun _ => Err EUndefined |}.

Fixpoint resolve_t (v : value) {struct v} : qtree value :=
  match v with
  | VList l =>
      l' <~ (fix go (l : list value) : qtree (list value) :=
               match l with
               | [] => ret []
               | x :: xs => x' <~ resolve_t x ;; xs' <~ go xs ;;
                            ret (if is_novalue x' then xs' else x' :: xs')
               end) l ;;
      ret (VList l')
  | VDict d =>
      let generic := fun _ : unit =>
        d' <~ (fix go (d : list (str * value)) : qtree (list (str * value)) :=
                 match d with
                 | [] => ret []
                 | (k, x) :: xs => x' <~ resolve_t x ;; xs' <~ go xs ;;
                                   ret (if is_novalue x' then xs' else (k, x') :: xs')
                 end) d ;;
        ret (VDict d') in
      match d with
      | [(k, body)] =>
          if str_eqb k K_Ref || str_eqb k K_ImportValue then
            b <~ resolve_t body ;; lift (do_ref penv b)
          else if str_eqb k K_Join then
            match body with
            | VList [dl; l] => d' <~ resolve_t dl ;; l' <~ resolve_t l ;; lift (do_join d' l')
            | VList _ => lift (Err EValue)
            | _ => lift (Err EUndefined)
            end
          else if str_eqb k K_Split then
            match body with
            | VList [dl; s] => d' <~ resolve_t dl ;; s' <~ resolve_t s ;; lift (do_split d' s')
            | VList _ => lift (Err EValue)
            | _ => lift (Err EUndefined)
            end
          else if str_eqb k K_Select then
            match body with
            | VList [i; l] => i' <~ resolve_t i ;; l' <~ resolve_t l ;; lift (do_select i' l')
            | VList _ => lift (Err EValue)
            | _ => lift (Err EUndefined)
            end
          else if str_eqb k K_FindInMap then
            match body with
            | VList [m; k1; k2] =>
                m' <~ resolve_t m ;; k1' <~ resolve_t k1 ;; k2' <~ resolve_t k2 ;; lift (do_find_in_map penv m' k1' k2')
            | VList _ => lift (Err EValue)
            | _ => lift (Err EUndefined)
            end
          else if str_eqb k K_Sub then
            match body with
            | VStr text => lift (do_sub penv text [])
            | VList [VStr text; vars] =>
                cv <~ resolve_t vars ;;
                match cv with VDict custom => lift (do_sub penv text custom) | _ => lift (Err EUndefined) end
            | VList [_; _] => lift (Err EUndefined)
            | VList _ => lift (Err EValue)
            | _ => lift (Err EUndefined)
            end
          else if str_eqb k K_Base64 then
            b <~ resolve_t body ;; lift (do_base64 b)
          else if str_eqb k K_GetAtt then ret (VStr S_GETATT)
          else if str_eqb k K_GetAZs then ret (VStr S_GETAZS)
          else if str_eqb k K_Condition then
            match body with
            | VStr name => b <~ ask name ;; ret (VBool b)
            | _ => lift (Err EUndefined)
            end
          else if str_eqb k K_If then
            match body with
            | VList [VStr c; t; f] => b <~ ask c ;; if b then resolve_t t else resolve_t f
            | VList [_; _; _] => lift (Err EUndefined)
            | VList _ => lift (Err EValue)
            | _ => lift (Err EUndefined)
            end
          else if str_eqb k K_And then
            match body with
            | VList parts =>
                b <~ (fix all_go (l : list value) : qtree bool :=
                        match l with
                        | [] => ret true
                        | x :: xs => r <~ resolve_t x ;; b <~ lift (ext_bool r) ;; if b then all_go xs else ret false
                        end) parts ;;
                ret (VBool b)
            | _ => lift (Err EUndefined)
            end
          else if str_eqb k K_Or then
            match body with
            | VList parts =>
                b <~ (fix any_go (l : list value) : qtree bool :=
                        match l with
                        | [] => ret false
                        | x :: xs => r <~ resolve_t x ;; b <~ lift (ext_bool r) ;; if b then ret true else any_go xs
                        end) parts ;;
                ret (VBool b)
            | _ => lift (Err EUndefined)
            end
          else if str_eqb k K_Not then
            match body with
            | VList (x :: _) => r <~ resolve_t x ;; b <~ lift (ext_bool r) ;; ret (VBool (negb b))
            | VList [] => lift (Err EIndex)
            | _ => lift (Err EUndefined)
            end
          else if str_eqb k K_Equals then
            match body with
            | VList [a; b] => a' <~ resolve_t a ;; b' <~ resolve_t b ;; r <~ lift (py_eq a' b') ;; ret (VBool r)
            | VList _ => lift (Err EValue)
            | _ => lift (Err EUndefined)
            end
          else generic tt
      | _ => generic tt
      end
  | VNull => ret VNull
  | VBool b => ret (VStr (bool_text b))
  | VInt z => ret (VStr (str_of_Z z))
  | VStr s => ret (VStr (render_str ps s))
  | VTyped _ t => ret (VStr t)
  | VBytes b => ret (VStr (b64encode b))
  end.

(* the body of a declared condition: resolve it, then pydantic's lenient bool *)
Definition body_tree (body : value) : qtree bool := r <~ resolve_t body ;; lift (ext_bool r).

Definition qlist : list value -> qtree (list value) :=
  fix go (l : list value) : qtree (list value) :=
    match l with
    | [] => ret []
    | x :: xs => x' <~ resolve_t x ;; xs' <~ go xs ;; ret (if is_novalue x' then xs' else x' :: xs')
    end.
Definition qdict : list (str * value) -> qtree (list (str * value)) :=
  fix go (d : list (str * value)) : qtree (list (str * value)) :=
    match d with
    | [] => ret []
    | (k, x) :: xs => x' <~ resolve_t x ;; xs' <~ go xs ;; ret (if is_novalue x' then xs' else (k, x') :: xs')
    end.
Definition qall : list value -> qtree bool :=
  fix all_go (l : list value) : qtree bool :=
    match l with
    | [] => ret true
    | x :: xs => r <~ resolve_t x ;; b <~ lift (ext_bool r) ;; if b then all_go xs else ret false
    end.
Definition qany : list value -> qtree bool :=
  fix any_go (l : list value) : qtree bool :=
    match l with
    | [] => ret false
    | x :: xs => r <~ resolve_t x ;; b <~ lift (ext_bool r) ;; if b then ret true else any_go xs
    end.

Lemma resolve_t_dict_generic d : is_fn_dict d = false -> resolve_t (VDict d) = (d' <~ qdict d ;; ret (VDict d')).
Proof.
  intros H. destruct d as [|[k body] [|kv2 rest]]; try reflexivity.
  cbn [resolve_t]. rewrite !(not_fn_key k _ H) by (apply mem_str_In; reflexivity). reflexivity.
Qed.

Section Run.
Variable c : str -> res bool.
(* = CondFacts.cenv ps maps c, by computation *)
Definition cenv : env := {| params := ps; mappings := maps; conds := c |}.
Definition RunAt (v : value) : Prop := qrun c (resolve_t v) = resolve cenv v.

Lemma qrun_bind_eq {A B} (t : qtree A) (f : A -> qtree B) r g :
  qrun c t = r -> (forall a, qrun c (f a) = g a) -> qrun c (qbind t f) = bind r g.
Proof. intros <- Hf. rewrite qrun_bind. destruct (qrun c t); [apply Hf | reflexivity]. Qed.

Lemma qlist_run l : Forall RunAt l -> qrun c (qlist l) = rlist cenv l.
Proof.
  induction 1 as [|x xs Hx Hxs IH]; [reflexivity|].
  rewrite rlist_cons. apply qrun_bind_eq; [exact Hx|]. intros x'. apply qrun_bind_eq; [exact IH | reflexivity].
Qed.
Lemma qdict_run d : Forall (fun kv => RunAt (snd kv)) d -> qrun c (qdict d) = rdict cenv d.
Proof.
  induction 1 as [|[k x] xs Hx Hxs IH]; [reflexivity|].
  rewrite rdict_cons. apply qrun_bind_eq; [exact Hx|]. intros x'. apply qrun_bind_eq; [exact IH | reflexivity].
Qed.
Lemma qall_run l : Forall RunAt l -> qrun c (qall l) = rall cenv l.
Proof.
  induction 1 as [|x xs Hx Hxs IH]; [reflexivity|].
  rewrite rall_cons. apply qrun_bind_eq; [exact Hx|]. intros r. apply qrun_bind_eq; [reflexivity|]. intros [|]; [exact IH | reflexivity].
Qed.
Lemma qany_run l : Forall RunAt l -> qrun c (qany l) = rany cenv l.
Proof.
  induction 1 as [|x xs Hx Hxs IH]; [reflexivity|].
  rewrite rany_cons. apply qrun_bind_eq; [exact Hx|]. intros r. apply qrun_bind_eq; [reflexivity|]. intros [|]; [reflexivity | exact IH].
Qed.

Lemma resolve_t_ill k body er : ill_call k body er -> resolve_t (VDict [(k, body)]) = lift (Err er).
Proof. intros H. ill_shapes H; reflexivity. Qed.

Theorem resolve_t_run : forall v, qrun c (resolve_t v) = resolve cenv v.
Proof.
  apply resolve_ind.
  - intros [] Hv; try contradiction; reflexivity.
  - intros l IH. apply qrun_bind_eq; [apply qlist_run, IH | reflexivity].
  - intros d Hf IH. rewrite resolve_t_dict_generic, resolve_dict_generic by assumption.
    apply qrun_bind_eq; [apply qdict_run, IH | reflexivity].
  - intros k body [-> | ->] IH; (apply qrun_bind_eq; [exact IH | reflexivity]).
  - intros dl l IH1 IH2. rewrite resolve_join. apply qrun_bind_eq; [exact IH1|]. intros d'. apply qrun_bind_eq; [exact IH2 | reflexivity].
  - intros dl s IH1 IH2. rewrite resolve_split. apply qrun_bind_eq; [exact IH1|]. intros d'. apply qrun_bind_eq; [exact IH2 | reflexivity].
  - intros i l IH1 IH2. rewrite resolve_select. apply qrun_bind_eq; [exact IH1|]. intros i'. apply qrun_bind_eq; [exact IH2 | reflexivity].
  - intros m k1 k2 IH1 IH2 IH3. rewrite resolve_find_in_map. apply qrun_bind_eq; [exact IH1|]. intros m'. apply qrun_bind_eq; [exact IH2|]. intros k1'.
    apply qrun_bind_eq; [exact IH3 | reflexivity].
  - intros text. apply (do_sub_ext penv cenv). intros k. reflexivity.
  - intros text vars IH _. rewrite resolve_sub_vars. apply qrun_bind_eq; [exact IH|]. intros []; try reflexivity. apply (do_sub_ext penv cenv). intros k. reflexivity.
  - intros body IH. rewrite resolve_base64. apply qrun_bind_eq; [exact IH | reflexivity].
  - reflexivity.
  - reflexivity.
  - reflexivity.
  - intros c0 t f IH1 IH2. rewrite resolve_if. simpl. destruct (c c0) as [[|]|]; [exact IH1 | exact IH2 | reflexivity].
  - intros parts IH. rewrite resolve_and. apply qrun_bind_eq; [apply qall_run, IH | reflexivity].
  - intros parts IH. rewrite resolve_or. apply qrun_bind_eq; [apply qany_run, IH | reflexivity].
  - intros x rest IH. rewrite resolve_not. apply qrun_bind_eq; [exact IH|]. intros r. destruct (ext_bool r); reflexivity.
  - intros a b IH1 IH2. rewrite resolve_equals. apply qrun_bind_eq; [exact IH1|]. intros a'. apply qrun_bind_eq; [exact IH2|]. intros b'.
    destruct (py_eq a' b'); reflexivity.
  - intros k body er H. rewrite (resolve_t_ill k body er H), (resolve_ill cenv k body er H). reflexivity.
Qed.

Corollary body_tree_run body : qrun c (body_tree body) = (r <- resolve cenv body ;; ext_bool r).
Proof. unfold body_tree. rewrite qrun_bind, resolve_t_run. destruct (resolve cenv body); reflexivity. Qed.
End Run.
End T.
