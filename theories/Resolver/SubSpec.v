(* Declarative specification of the Fn::Sub tokeniser, and the proof that [sub_tokens] meets it.

   The library calls   SUB_PLACEHOLDER.sub(replace, text)   with
        SUB_PLACEHOLDER = re.compile(r"\$\{(!?)([\w:]+)\}")
   i.e. Python's [re.sub]: the text is scanned left to right; at the current position, if the pattern matches
   there the match is replaced and the scan goes on right AFTER the match (matches never overlap); otherwise the
   current character is copied and the scan goes on at the next position.  The pattern never matches the
   empty string, so no empty-match rule is needed.

   That the tokens are a partition of the text ([sub_tokens_partition]) does not pin the tokeniser down: [map TText] is a
   partition too.  What pins it down is [Scan] below: WHICH pieces of the text are placeholders.

   Code points:  $ = 36   { = 123   } = 125   ! = 33.     [\w:] = [is_name_char] (Text.v), where \w is [is_word]: the ASCII
   letters, digits and "_" plus the three code points of [WORD_EXTRA].  On other non-ASCII code points Python's Unicode \w may
   hold and [is_word] does not; every statement below is about the regex with \w read as [is_word]. *)
From Coq Require Import List Bool NArith ZArith Lia.
From PV Require Import Base.Str Base.Value Resolver.Text Resolver.Resolve Resolver.SubFacts.
Import ListNotations.
Local Open Scope N_scope.

(* [Match s t rest]: the regex matches at the START of [s], the match is the source text of token [t], and
   [rest] is what follows the match.  One rule per value of the optional group (!?).
   [valid_name n] (SubFacts.v) is "[n] is one or more of [\w:]"  =  the group ([\w:]+).
   Nothing has to be said about greediness: the name is followed by "}" and "}" is not in [\w:], so the run of
   name characters that the regex can take is forced ([Match_deterministic] below). *)
Inductive Match : str -> stok -> str -> Prop :=
  (*                                             \$    \{   (!?)  ([\w:]+)  \}                                  *)
  | M_var  n rest : valid_name n -> Match (36 :: 123 ::        n ++ 125 :: rest) (TVar n)  rest
  | M_bang n rest : valid_name n -> Match (36 :: 123 :: 33 ::  n ++ 125 :: rest) (TBang n) rest.

Definition starts_placeholder (s : str) : Prop := exists t rest, Match s t rest.

(* [Scan text ts]: [ts] is what [re.sub] sees in [text], left to right. *)
Inductive Scan : str -> list stok -> Prop :=
  | Scan_nil : Scan [] []
  (* the pattern matches here: one placeholder token, go on after the match *)
  | Scan_match s t rest ts : Match s t rest -> Scan rest ts -> Scan s (t :: ts)
  (* the pattern does not match here: the character is literal text, go on at the next position *)
  | Scan_char c r ts : ~ starts_placeholder (c :: r) -> Scan r ts -> Scan (c :: r) (TText c :: ts).

(* the same thing without the inductive type, for readers of the Properties file *)
Lemma starts_placeholder_iff s :
  starts_placeholder s <->
  exists n rest, valid_name n /\ (s = 36 :: 123 :: n ++ 125 :: rest \/ s = 36 :: 123 :: 33 :: n ++ 125 :: rest).
Proof.
  split.
  - intros (t & rest & H). inv H; exists n, rest; auto.
  - intros (n & rest & Hv & [-> | ->]).
    + exists (TVar n), rest. constructor; assumption.
    + exists (TBang n), rest. constructor; assumption.
Qed.

(* [placeholder_at] decides [Match]; [sub_tokens] computes [Scan] *)

Lemma name_char_33 : is_name_char 33 = false.  Proof. reflexivity. Qed.
Lemma name_char_36 : is_name_char 36 = false.  Proof. reflexivity. Qed.
Lemma name_char_123 : is_name_char 123 = false. Proof. reflexivity. Qed.
Lemma name_char_125 : is_name_char 125 = false. Proof. reflexivity. Qed.

(* "!" is not a name character, so a valid name never starts with it: (!?) and ([\w:]+) cannot be confused *)
Lemma valid_name_no_bang n : valid_name n -> hd 0 n <> 33.
Proof.
  intros [Hne Hall] Hb. destruct n as [|c n]; [contradiction|]. simpl in Hb, Hall. subst c.
  rewrite name_char_33 in Hall. discriminate.
Qed.

Lemma Match_placeholder_at s t rest : Match s t rest -> placeholder_at s = Some (t, rest).
Proof.
  intros [n r Hv | n r [Hne Hall]]; unfold placeholder_at; replace ((36 =? 36) && (123 =? 123)) with true by reflexivity.
  - pose proof (valid_name_no_bang n Hv) as Hb. destruct Hv as [Hne Hall]. destruct n as [|c n]; [contradiction|].
    apply N.eqb_neq in Hb. cbn [app hd] in *. rewrite Hb.
    change (c :: n ++ 125 :: r) with ((c :: n) ++ 125 :: r).
    rewrite (span_all is_name_char (c :: n) 125 r Hall eq_refl). reflexivity.
  - replace (33 =? 33) with true by reflexivity. cbn [tl].
    rewrite (span_all is_name_char n 125 r Hall eq_refl). destruct n; [contradiction | reflexivity].
Qed.

Lemma placeholder_at_Match s t rest : placeholder_at s = Some (t, rest) -> Match s t rest.
Proof.
  unfold placeholder_at. destruct s as [|c0 [|c1 r]]; try discriminate.
  destruct ((c0 =? 36) && (c1 =? 123)) eqn:E01; [|discriminate].
  apply andb_true_iff in E01. destruct E01 as [E0 E1]. apply N.eqb_eq in E0, E1. subst c0 c1.
  cbv zeta.
  remember (match r with c2 :: _ => c2 =? 33 | [] => false end) as bang eqn:Hbang.
  match goal with |- context [span ?f ?x] => destruct (span f x) as [name r1] eqn:Es end.
  destruct name as [|n0 name]; [discriminate|].
  destruct r1 as [|c3 r2]; [discriminate|].
  destruct (c3 =? 125) eqn:E3; [|discriminate]. apply N.eqb_eq in E3. subst c3.
  intros H. inv H. apply span_spec in Es. destruct Es as (E & Hall & _).
  assert (Hv : valid_name (n0 :: name)) by (split; [discriminate | exact Hall]).
  destruct r as [|c2 r']; simpl in *.
  - discriminate E.
  - destruct (c2 =? 33) eqn:E2; simpl in *.
    + apply N.eqb_eq in E2. subst c2 r'. apply (M_bang (n0 :: name) rest Hv).
    + rewrite E. apply (M_var (n0 :: name) rest Hv).
Qed.

Lemma placeholder_at_None s : placeholder_at s = None <-> ~ starts_placeholder s.
Proof.
  split.
  - intros H (t & rest & HM). apply Match_placeholder_at in HM. congruence.
  - intros H. destruct (placeholder_at s) as [[t rest]|] eqn:E; [|reflexivity].
    exfalso. apply H. exists t, rest. apply placeholder_at_Match. exact E.
Qed.

(* at one position the regex can match in one way only *)
Theorem Match_deterministic s t rest t' rest' : Match s t rest -> Match s t' rest' -> t = t' /\ rest = rest'.
Proof.
  intros H H'. apply Match_placeholder_at in H, H'. rewrite H in H'. inv H'. split; reflexivity.
Qed.

Lemma Match_src s t rest : Match s t rest -> s = tok_src t ++ rest.
Proof. intros H. inv H; simpl; rewrite <- app_assoc; reflexivity. Qed.

Lemma tok_src_length t : (1 <= length (tok_src t))%nat.
Proof. destruct t; simpl; lia. Qed.

(* the fuel: every step consumes at least one character, so [length s] steps are enough *)
Lemma sub_tokens_go_scan fuel : forall s, (length s <= fuel)%nat -> Scan s (sub_tokens_go fuel s).
Proof.
  induction fuel as [|f IH]; intros s Hl.
  - destruct s; [constructor | simpl in Hl; lia].
  - cbn [sub_tokens_go]. destruct s as [|c r]; [constructor|].
    destruct (placeholder_at (c :: r)) as [[t rest]|] eqn:Ep.
    + apply placeholder_at_Match in Ep. apply Scan_match with rest; [exact Ep|].
      apply IH. apply Match_src in Ep. rewrite Ep, app_length in Hl.
      pose proof (tok_src_length t). lia.
    + apply Scan_char; [apply placeholder_at_None; exact Ep|]. apply IH. simpl in Hl. lia.
Qed.

Theorem sub_tokens_scan text : Scan text (sub_tokens text).
Proof. apply sub_tokens_go_scan. apply le_n. Qed.

Theorem Scan_deterministic text ts ts' : Scan text ts -> Scan text ts' -> ts = ts'.
Proof.
  intros H. revert ts'. induction H as [| s t rest ts HM HS IH | c r ts HN HS IH]; intros ts' H'.
  - inversion H' as [| s' t' rest' ts1 HM' HS' | ]; subst; [reflexivity|]. inversion HM'.
  - inversion H' as [| s' t' rest' ts1 HM' HS' | c' r' ts1 HN' HS']; subst.
    + inversion HM.
    + destruct (Match_deterministic _ _ _ _ _ HM HM') as [-> ->]. f_equal. apply IH. assumption.
    + exfalso. apply HN'. exists t, rest. exact HM.
  - inversion H' as [| s' t' rest' ts1 HM' HS' | c' r' ts1 HN' HS']; subst.
    + exfalso. apply HN. exists t', rest'. assumption.
    + f_equal. apply IH. assumption.
Qed.

(* the tokeniser IS the regex scan (\w read as [is_word]): sound, complete, unique *)
Theorem Scan_iff text ts : Scan text ts <-> ts = sub_tokens text.
Proof.
  split.
  - intros H. apply (Scan_deterministic text); [exact H | apply sub_tokens_scan].
  - intros ->. apply sub_tokens_scan.
Qed.

(* more fuel changes nothing *)
Corollary sub_tokens_go_fuel fuel s : (length s <= fuel)%nat -> sub_tokens_go fuel s = sub_tokens s.
Proof. intros H. apply Scan_iff. apply sub_tokens_go_scan. exact H. Qed.

(* a scan is a partition of the text: nothing is lost, duplicated or reordered *)
Lemma Scan_partition s ts : Scan s ts -> concat (map tok_src ts) = s.
Proof.
  induction 1 as [| s t rest ts HM _ IH | c r ts _ _ IH]; simpl.
  - reflexivity.
  - rewrite IH. symmetry. exact (Match_src _ _ _ HM).
  - rewrite IH. reflexivity.
Qed.
Theorem sub_tokens_partition text : concat (map tok_src (sub_tokens text)) = text.
Proof. apply Scan_partition, sub_tokens_scan. Qed.

Lemma Scan_suffix ts1 : forall s ts2, Scan s (ts1 ++ ts2) -> Scan (concat (map tok_src ts2)) ts2.
Proof.
  induction ts1 as [|t1 ts1 IH]; intros s ts2 H; simpl in *.
  - rewrite (Scan_partition _ _ H). exact H.
  - inversion H; subst; eauto.
Qed.

(* Take ANY token [t] of the tokenisation; [before] / [here] are the source text before it / from it on.
   - a TVar / TBang token sits on a genuine regex match: its source is "${" n "}" / "${!" n "}" with [n] a
     non-empty run of [\w:]                                                            (nothing is invented);
   - a TText token sits at a position where the regex does NOT match                   (nothing is missed). *)
Theorem sub_misses_nothing text ts1 t ts2 : sub_tokens text = ts1 ++ t :: ts2 ->
  let before := concat (map tok_src ts1) in
  let here := tok_src t ++ concat (map tok_src ts2) in
  text = before ++ here /\
  match t with
  | TVar n => valid_name n
  | TBang n => valid_name n
  | TText c => ~ starts_placeholder here
  end.
Proof.
  intros E. cbv zeta. symmetry in E. apply Scan_iff in E. split.
  - apply Scan_partition in E. rewrite map_app, concat_app in E. symmetry. exact E.
  - apply Scan_suffix in E. simpl in E.
    inversion E as [| s' t' rest' ts' HM' HS' | c' r' ts' HN' HS']; subst.
    + inversion HM' as [n rest Hv | n rest Hv]; subst; exact Hv.
    + simpl. exact HN'.
Qed.

(* the all-text answer is right exactly for the texts in which the regex matches nowhere *)
Lemma concat_src_text r : concat (map tok_src (map TText r)) = r.
Proof. induction r as [|c r IH]; simpl; [reflexivity | rewrite IH; reflexivity]. Qed.

Theorem sub_all_text_iff text :
  sub_tokens text = map TText text <-> (forall a u, text = a ++ u -> ~ starts_placeholder u).
Proof.
  split.
  - intros E a u -> HP. destruct u as [|c r]; [destruct HP as (t & rest & HM); inv HM|].
    rewrite map_app in E. simpl in E. apply sub_misses_nothing in E. destruct E as [_ E].
    apply E. simpl. rewrite concat_src_text. exact HP.
  - intros H. symmetry. apply Scan_iff. induction text as [|c r IH]; simpl; [constructor|].
    apply Scan_char; [apply (H [] (c :: r)); reflexivity|].
    apply IH. intros a u -> . apply (H (c :: a) u). reflexivity.
Qed.

(* every match starts with "$": a text without "$" is all literal text *)
Lemma starts_placeholder_dollar s : starts_placeholder s -> hd 0 s = 36.
Proof. intros (t & rest & H). inv H; reflexivity. Qed.

Theorem sub_no_dollar text : ~ In 36 text -> sub_tokens text = map TText text.
Proof.
  intros H. apply sub_all_text_iff. intros a u -> HP. apply H. apply in_or_app. right.
  apply starts_placeholder_dollar in HP. destruct u as [|c r]; simpl in HP; [discriminate | left; assumption].
Qed.

(* Cutting the text: when is the scan of [pre ++ x] the scan of [pre] followed by the scan of [x] ? *)

Lemma Match_app s t rest x : Match s t rest -> Match (s ++ x) t (rest ++ x).
Proof.
  intros H. inv H; simpl; rewrite <- app_assoc; simpl; constructor; assumption.
Qed.

(* no match of [pre ++ x] that starts inside [pre] reaches into [x] *)
Definition no_straddle (pre x : str) : Prop :=
  forall a u, pre = a ++ u -> u <> [] -> starts_placeholder (u ++ x) -> starts_placeholder u.

Lemma Scan_app pre x ts tx : Scan pre ts -> no_straddle pre x -> Scan x tx -> Scan (pre ++ x) (ts ++ tx).
Proof.
  intros H. induction H as [| s t rest ts HM HS IH | c r ts HN HS IH]; intros Hns Hx; simpl.
  - exact Hx.
  - apply Scan_match with (rest ++ x); [apply Match_app; exact HM|].
    apply IH; [|exact Hx]. intros a u -> Hu HP.
    apply (Hns (tok_src t ++ a) u); [|exact Hu|exact HP].
    rewrite (Match_src _ _ _ HM), app_assoc. reflexivity.
  - apply Scan_char.
    + intros HP. apply HN. apply (Hns [] (c :: r)); [reflexivity | discriminate | exact HP].
    + apply IH; [|exact Hx]. intros a u -> Hu HP. apply (Hns (c :: a) u); [reflexivity | exact Hu | exact HP].
Qed.

Theorem sub_tokens_app pre x : no_straddle pre x -> sub_tokens (pre ++ x) = sub_tokens pre ++ sub_tokens x.
Proof.
  intros H. symmetry. apply Scan_iff. apply Scan_app; [apply sub_tokens_scan | exact H | apply sub_tokens_scan].
Qed.

(* [u] is the beginning of a placeholder that is still open:  "$",  "${" + name characters,  "${!" + name characters *)
Definition open_tail (u : str) : Prop :=
  u = [36] \/ exists m, forallb is_name_char m = true /\ (u = 36 :: 123 :: m \/ u = 36 :: 123 :: 33 :: m).
(* [c] can be the next character of an open placeholder *)
Definition continues (c : N) : Prop := c = 123 \/ c = 33 \/ c = 125 \/ is_name_char c = true.

(* where does the cut fall in   name "}" rest  ? *)
Lemma run_cut n : forall u y rest, u ++ y = n ++ 125 :: rest ->
  (exists rest', u = n ++ 125 :: rest' /\ rest = rest' ++ y) \/ (exists m, n = u ++ m /\ y = m ++ 125 :: rest).
Proof.
  induction n as [|a n IH]; intros u y rest E; simpl in E.
  - destruct u as [|z u]; simpl in E.
    + right. exists []. split; [reflexivity | exact E].
    + inv E. left. exists u. split; reflexivity.
  - destruct u as [|z u]; simpl in E.
    + right. exists (a :: n). split; [reflexivity | exact E].
    + inv E. destruct (IH _ _ _ H1) as [(rest' & -> & ->) | (m & -> & ->)].
      * left. exists rest'. split; reflexivity.
      * right. exists m. split; reflexivity.
Qed.

Lemma hd_continues m rest : forallb is_name_char m = true ->
  exists c y', m ++ 125 :: rest = c :: y' /\ continues c.
Proof.
  intros H. destruct m as [|c m]; simpl in *.
  - exists 125, rest. split; [reflexivity|]. right; right; left; reflexivity.
  - apply andb_true_iff in H. destruct H as [Hc _]. exists c, (m ++ 125 :: rest).
    split; [reflexivity|]. right; right; right; exact Hc.
Qed.

(* a match of [u ++ y] starting at the first character of a non-empty [u] either lies inside [u], or [u] is an
   open placeholder and [y] continues it *)
Lemma straddle_inv u y : u <> [] -> starts_placeholder (u ++ y) ->
  starts_placeholder u \/ (open_tail u /\ exists c y', y = c :: y' /\ continues c).
Proof.
  intros Hu (t & rest & HM). remember (u ++ y) as s eqn:Es. destruct HM as [n rest [Hne Hall] | n rest [Hne Hall]].
  - destruct u as [|u0 u]; [contradiction|]. simpl in Es. injection Es as E0 E1. subst u0.
    destruct u as [|u1 u]; simpl in E1.
    + right. split; [left; reflexivity|]. exists 123, (n ++ 125 :: rest). split; [auto | left; reflexivity].
    + injection E1 as E1 E2. subst u1. symmetry in E2.
      destruct (run_cut _ _ _ _ E2) as [(rest' & -> & ->) | (m & -> & ->)].
      * left. exists (TVar n), rest'. constructor. split; assumption.
      * right. rewrite forallb_app in Hall. apply andb_true_iff in Hall. destruct Hall as [Hu' Hm].
        split; [right; exists u; auto|]. apply hd_continues. exact Hm.
  - destruct u as [|u0 u]; [contradiction|]. simpl in Es. injection Es as E0 E1. subst u0.
    destruct u as [|u1 u]; simpl in E1.
    + right. split; [left; reflexivity|]. exists 123, (33 :: n ++ 125 :: rest). split; [auto | left; reflexivity].
    + injection E1 as E1 E2. subst u1. destruct u as [|u2 u]; simpl in E2.
      * right. split; [right; exists []; auto|]. exists 33, (n ++ 125 :: rest).
        split; [auto | right; left; reflexivity].
      * injection E2 as E2 E3. subst u2. symmetry in E3.
        destruct (run_cut _ _ _ _ E3) as [(rest' & -> & ->) | (m & -> & ->)].
        -- left. exists (TBang n), rest'. constructor. split; assumption.
        -- right. rewrite forallb_app in Hall. apply andb_true_iff in Hall. destruct Hall as [Hu' Hm].
           split; [right; exists u; auto|]. apply hd_continues. exact Hm.
Qed.

(* sufficient condition on [pre] alone: it leaves no placeholder open *)
Definition closed (pre : str) : Prop := forall a u, pre = a ++ u -> ~ open_tail u.

Lemma no_straddle_closed pre x : closed pre -> no_straddle pre x.
Proof.
  intros Hc a u E Hu HP. destruct (straddle_inv u x Hu HP) as [H | [H _]]; [exact H|].
  exfalso. exact (Hc a u E H).
Qed.

(* sufficient condition on [x] alone: it is empty or starts with a character that cannot continue a placeholder *)
Lemma no_straddle_head pre x : match x with [] => True | c :: _ => ~ continues c end -> no_straddle pre x.
Proof.
  intros Hx a u E Hu HP. destruct (straddle_inv u x Hu HP) as [H | [_ (c & y' & -> & Hc)]]; [exact H|].
  exfalso. exact (Hx Hc).
Qed.

Lemma open_tail_dollar u : open_tail u -> hd 0 u = 36.
Proof. intros [-> | (m & _ & [-> | ->])]; reflexivity. Qed.

(* the simplest closed texts: no "$" at all ... *)
Lemma closed_no_dollar pre : ~ In 36 pre -> closed pre.
Proof.
  intros H a u -> Ho. apply H. apply in_or_app. right. apply open_tail_dollar in Ho.
  destruct u as [|c r]; simpl in Ho; [discriminate | left; assumption].
Qed.

(* ... or a last character that cannot be inside a placeholder (a blank, "}", "-", "/", ...) *)
Lemma forallb_last (f : N -> bool) m c : forallb f (m ++ [c]) = true -> f c = true.
Proof. rewrite forallb_app. simpl. intros H. apply andb_true_iff in H. destruct H as [_ H]. rewrite andb_true_r in H. exact H. Qed.

Lemma closed_last p c : c <> 36 -> ~ continues c -> closed (p ++ [c]).
Proof.
  intros H36 Hc a u E Ho.
  assert (Hu : u <> []) by (intros ->; apply open_tail_dollar in Ho; discriminate).
  destruct (exists_last Hu) as (u' & z & ->). rewrite app_assoc in E. apply app_inj_tail in E. destruct E as [_ <-].
  destruct Ho as [E | (m & Hm & [E | E])].
  - destruct u' as [|? [|? ?]]; inv E. congruence.
  - destruct u' as [|x0 [|x1 u']]; simpl in E; try (inv E; fail).
    + inv E. apply Hc. left; reflexivity.
    + inv E. apply Hc. right; right; right. apply (forallb_last _ u'). exact Hm.
  - destruct u' as [|x0 [|x1 [|x2 u']]]; simpl in E; try (inv E; fail).
    + inv E. apply Hc. right; left; reflexivity.
    + inv E. apply Hc. right; right; right. apply (forallb_last _ u'). exact Hm.
Qed.

Lemma dollar_not_continues : ~ continues 36.
Proof. intros [H | [H | [H | H]]]; discriminate. Qed.

Lemma sub_tokens_match s t rest : Match s t rest -> sub_tokens s = t :: sub_tokens rest.
Proof. intros H. symmetry. apply Scan_iff. apply Scan_match with rest; [exact H | apply sub_tokens_scan]. Qed.

(* pre "${" n "}" post   and   pre "${!" n "}" post.  No side condition on [pre] is needed: a match that started inside [pre]
   cannot swallow the "$" of the placeholder, because "$" can only be the FIRST character of a match. *)
Theorem sub_finds_match pre s t rest : Match s t rest ->
  sub_tokens (pre ++ s) = sub_tokens pre ++ t :: sub_tokens rest.
Proof.
  intros H. rewrite sub_tokens_app, (sub_tokens_match _ _ _ H); [reflexivity|].
  apply no_straddle_head. inv H; exact dollar_not_continues.
Qed.

Lemma render_toks_app e custom ts1 : forall ts2 a b,
  render_toks e custom ts1 = Ok a -> render_toks e custom ts2 = Ok b ->
  render_toks e custom (ts1 ++ ts2) = Ok (a ++ b).
Proof.
  induction ts1 as [|t ts1 IH]; intros ts2 a b H1 H2; simpl in *.
  - inv H1. exact H2.
  - bind_inv. inv H1. rewrite (IH _ _ _ eq_refl H2). simpl. rewrite app_assoc. reflexivity.
Qed.

Lemma render_toks_text e custom r : render_toks e custom (map TText r) = Ok r.
Proof. induction r as [|c r IH]; simpl; [reflexivity | rewrite IH; reflexivity]. Qed.

(* a text in which the regex matches nowhere -- for one, a text without "$" -- is returned unchanged *)
Lemma do_sub_all_text e text custom : sub_tokens text = map TText text -> do_sub e text custom = Ok (VStr text).
Proof. intros E. apply do_sub_render. rewrite E. apply render_toks_text. Qed.

(* pre "${" n "}" post   -->   (pre substituted) (value of n, once, verbatim) (post substituted)
   pre "${!" n "}" post  -->   (pre substituted) "${" n "}" (post substituted) *)
Theorem do_sub_match e custom pre s t post a b c : Match s t post ->
  do_sub e pre custom = Ok (VStr a) -> render_tok e custom t = Ok b -> do_sub e post custom = Ok (VStr c) ->
  do_sub e (pre ++ s) custom = Ok (VStr (a ++ b ++ c)).
Proof.
  intros HM Ha Hb Hc. apply do_sub_render in Ha, Hc. apply do_sub_render.
  rewrite (sub_finds_match _ _ _ _ HM). apply render_toks_app; [exact Ha|].
  simpl. rewrite Hb, Hc. reflexivity.
Qed.

(* no re-scan: "${n}" alone resolves to the rendered value of n VERBATIM, whatever that value contains *)
Corollary sub_no_rescan e custom n s : valid_name n ->
  render_var e custom n = Ok s -> do_sub e (36 :: 123 :: n ++ [125]) custom = Ok (VStr s).
Proof.
  intros Hv Hr. rewrite <- (app_nil_r s).
  exact (do_sub_match e custom [] _ _ [] [] s [] (M_var n [] Hv) eq_refl Hr eq_refl).
Qed.

(* "x${A}y${!A}z" with A = "1"  -->  "x1y${A}z" *)
Example do_sub_witness :
  do_sub {| params := [([65], VStr [49])]; mappings := []; conds := fun _ => Ok false |}
         [120;36;123;65;125;121;36;123;33;65;125;122] []
  = Ok (VStr [120;49;121;36;123;65;125;122]).
Proof. vm_compute. reflexivity. Qed.
