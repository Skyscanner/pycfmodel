(* Parameter binding: what [bind_declared] reads and when it succeeds, the precedence of the merged table, the NoEcho markers and the
   non-interference lemmas behind C04; [set_key] / [keep_key]. *)
From Coq Require Import List Bool NArith ZArith Lia.
From PV Require Import Base.Str Base.ListFacts Base.Value Resolver.Consts Resolver.Template.
Import ListNotations.
Local Open Scope N_scope.

Lemma bind_declared_lookup decls extra ps : bind_declared decls extra = Ok ps -> NoDup (keys decls) ->
  forall k, lookup k ps = match lookup k decls with
                          | None => None
                          | Some d => match ref_value d (supplied k extra) with Ok (Some v) => Some v | _ => None end
                          end.
Proof.
  revert ps; induction decls as [|[k0 d0] r IH]; intros ps H Hnd k; simpl in H.
  - inv H. reflexivity.
  - inv Hnd. bind_inv. inv H. simpl. destruct (str_eqb k k0) eqn:Ek.
    + apply str_eqb_spec in Ek. subst k0. rewrite E. destruct a as [v|]; simpl.
      * rewrite str_eqb_refl. reflexivity.
      * rewrite (IH a0 eq_refl H3 k). destruct (lookup k r) eqn:El; [|reflexivity].
        exfalso. apply H2. exact (In_keys k v r (lookup_In k r v El)).
    + destruct a as [v|]; simpl; [rewrite Ek|]; apply (IH a0 eq_refl H3 k).
Qed.
(* bind_declared reads [extra] only through the value supplied for each declared name *)
Lemma bind_declared_ext decls e1 e2 :
  (forall k d, In (k, d) decls -> ref_value d (supplied k e1) = ref_value d (supplied k e2)) ->
  bind_declared decls e1 = bind_declared decls e2.
Proof.
  induction decls as [|[k0 d0] r IH]; intros H; [reflexivity|]. cbn [bind_declared].
  rewrite (H k0 d0 (or_introl eq_refl)). rewrite IH; [reflexivity|]. intros k d Hin. apply H. right. exact Hin.
Qed.
(* it succeeds iff every declared parameter has a reference value (or none), i.e. no rendering raises *)
Lemma bind_declared_ok_iff decls extra : (exists ps, bind_declared decls extra = Ok ps) <->
  Forall (fun kd => exists o, ref_value (snd kd) (supplied (fst kd) extra) = Ok o) decls.
Proof.
  induction decls as [|[k d] r IH]; cbn [bind_declared].
  - split; [constructor | intros _; eexists; reflexivity].
  - split.
    + intros [ps H]. bind_inv. constructor; [eexists; eassumption | apply IH; eexists; reflexivity].
    + intros H. inv H. destruct H2 as [o Ho]. cbn [fst snd] in Ho. rewrite Ho. apply IH in H3. destruct H3 as [ps Hps].
      rewrite Hps. eexists; reflexivity.
Qed.

Theorem bind_params_precedence pseudo decls extra ps : bind_params pseudo decls extra = Ok ps -> NoDup (keys decls) ->
  forall k, lookup k ps =
    match lookup k decls with
    | None => match lookup k extra with Some v => Some v | None => lookup k pseudo end
    | Some d => match ref_value d (supplied k extra) with Ok (Some v) => Some v | _ => lookup k pseudo end
    end.
Proof.
  unfold bind_params. intros H Hnd k. bind_inv. inv H.
  rewrite !lookup_app, (lookup_filter_keys k extra (fun x => negb (mem_str x (keys decls)))), mem_keys.
  rewrite (bind_declared_lookup decls extra a E Hnd k).
  destruct (lookup k decls) as [d|]; cbn [negb].
  - destruct (ref_value d (supplied k extra)) as [[v|]|]; reflexivity.
  - destruct (lookup k extra); reflexivity.
Qed.

Theorem ref_value_noecho d provided : is_noecho d = true ->
  ref_value d provided = Ok (Some (VStr (match provided, field K_Default d with
                                         | Some _, _ => S_NO_ECHO_WITH_VALUE
                                         | None, Some _ => S_NO_ECHO_WITH_DEFAULT
                                         | None, None => S_NO_ECHO_NO_DEFAULT
                                         end))).
Proof. intros H. unfold ref_value. rewrite H. reflexivity. Qed.
Corollary ref_value_noecho_blind d p1 p2 : is_noecho d = true -> ref_value d (Some p1) = ref_value d (Some p2).
Proof. intros H. rewrite !ref_value_noecho by assumption. reflexivity. Qed.

(* non-interference: the value supplied for a NoEcho parameter cannot influence the resolved model at all *)
Definition with_secret (s : str) (v : value) (extra : list (str * value)) : list (str * value) := (s, v) :: extra.

Lemma supplied_cons_eq k v extra : v <> VNull -> supplied k ((k, v) :: extra) = Some v.
Proof. intros H. unfold supplied. cbn [lookup]. rewrite str_eqb_refl. destruct v; try reflexivity. contradiction. Qed.
Lemma supplied_cons_neq k k' v extra : str_eqb k k' = false -> supplied k ((k', v) :: extra) = supplied k extra.
Proof. intros H. unfold supplied. cbn [lookup]. rewrite H. reflexivity. Qed.

Lemma bind_declared_secret decls extra s d v1 v2 :
  lookup s decls = Some d -> is_noecho d = true -> v1 <> VNull -> v2 <> VNull -> NoDup (keys decls) ->
  bind_declared decls (with_secret s v1 extra) = bind_declared decls (with_secret s v2 extra).
Proof.
  intros Hl Hn H1 H2 Hnd. apply bind_declared_ext. intros k d0 Hin. unfold with_secret. destruct (str_eqb k s) eqn:Ek.
  - apply str_eqb_spec in Ek. subst k. rewrite (lookup_NoDup_In s d0 decls Hnd Hin) in Hl. inv Hl.
    rewrite !supplied_cons_eq by assumption. apply ref_value_noecho_blind. exact Hn.
  - rewrite !supplied_cons_neq by exact Ek. reflexivity.
Qed.

(* the VALUE of a NoEcho parameter's Default cannot influence the resolved model: only the PRESENCE of a Default is read *)
Lemma ref_value_noecho_presence d1 d2 provided : is_noecho d1 = true -> is_noecho d2 = true ->
  (field K_Default d1 = None <-> field K_Default d2 = None) ->
  ref_value d1 provided = ref_value d2 provided.
Proof.
  intros H1 H2 Hd. rewrite !ref_value_noecho by assumption.
  destruct provided as [p|]; [reflexivity|].
  destruct (field K_Default d1) as [x|], (field K_Default d2) as [y|]; try reflexivity.
  - destruct Hd as [_ Hd]. discriminate (Hd eq_refl).
  - destruct Hd as [Hd _]. discriminate (Hd eq_refl).
Qed.

Lemma bind_declared_same_binding pre s d1 d2 post extra :
  ref_value d1 (supplied s extra) = ref_value d2 (supplied s extra) ->
  bind_declared (pre ++ (s, d1) :: post) extra = bind_declared (pre ++ (s, d2) :: post) extra.
Proof.
  intros H. induction pre as [|[k d] pre IH]; simpl; [rewrite H; reflexivity | rewrite IH; reflexivity].
Qed.

Lemma bind_params_same_binding pseudo pre s d1 d2 post extra :
  ref_value d1 (supplied s extra) = ref_value d2 (supplied s extra) ->
  bind_params pseudo (pre ++ (s, d1) :: post) extra = bind_params pseudo (pre ++ (s, d2) :: post) extra.
Proof.
  intros H. unfold bind_params, keys. rewrite (bind_declared_same_binding pre s d1 d2 post extra H), !map_app. reflexivity.
Qed.

(* resolve_model reads the declarations only through bind_params *)
Lemma resolve_model_bindings pseudo decls1 decls2 extra maps cdecl rs :
  bind_params pseudo decls1 extra = bind_params pseudo decls2 extra ->
  resolve_model pseudo decls1 extra maps cdecl rs = resolve_model pseudo decls2 extra maps cdecl rs.
Proof. intros H. unfold resolve_model. rewrite H. reflexivity. Qed.

(* general form: two NoEcho declarations of S (whatever else they say: Type, Description, ...) that agree on the PRESENCE of a
   Default are indistinguishable, whether or not a value is supplied for S *)
Theorem noecho_default_noninterference_gen pseudo pre post extra maps cdecl rs s d1 d2 :
  is_noecho d1 = true -> is_noecho d2 = true -> (field K_Default d1 = None <-> field K_Default d2 = None) ->
  resolve_model pseudo (pre ++ (s, d1) :: post) extra maps cdecl rs =
  resolve_model pseudo (pre ++ (s, d2) :: post) extra maps cdecl rs.
Proof.
  intros H1 H2 Hd. apply resolve_model_bindings, bind_params_same_binding, ref_value_noecho_presence; assumption.
Qed.

(* d[k] = v on a dict ([Template.set_key]), and its guarded form [keep_key] *)
Lemma lookup_set_key k m v d : lookup k (set_key m v d) = if str_eqb k m then Some v else lookup k d.
Proof.
  induction d as [|[k' x] d IH]; cbn [lookup set_key].
  - destruct (str_eqb k m); reflexivity.
  - destruct (str_eqb m k') eqn:E; cbn [lookup].
    + apply str_eqb_spec in E. subst k'. destruct (str_eqb k m); reflexivity.
    + destruct (str_eqb k k') eqn:E2; [|exact IH]. apply str_eqb_spec in E2. subst k'.
      rewrite (str_eqb_sym k m), E. reflexivity.
Qed.
Lemma keys_set_key k v d : keys (set_key k v d) = if mem_str k (keys d) then keys d else keys d ++ [k].
Proof.
  induction d as [|[k' y] r IH]; [reflexivity|]. cbn [set_key]. unfold keys, mem_str in *. cbn [map fst existsb].
  destruct (str_eqb k k') eqn:E; cbn [orb map fst]; [reflexivity|]. rewrite IH.
  destruct (existsb (str_eqb k) (map fst r)); reflexivity.
Qed.
Lemma keys_set_key_in k v d : In k (keys d) -> keys (set_key k v d) = keys d.
Proof. intros H. rewrite keys_set_key, (proj2 (mem_str_In k (keys d)) H). reflexivity. Qed.
Lemma set_key_nodup k v d : NoDup (keys d) -> NoDup (keys (set_key k v d)).
Proof.
  intros ND. rewrite keys_set_key. destruct (mem_str k (keys d)) eqn:E; [exact ND|].
  apply NoDup_snoc; [exact ND|]. intros C. apply mem_str_In in C. congruence.
Qed.
Lemma lookup_keep_key_other k k' o d : str_eqb k k' = false -> lookup k (keep_key k' o d) = lookup k d.
Proof. intros H. unfold keep_key. destruct (lookup k' o) as [[| | | t | | | |]|]; try reflexivity. rewrite lookup_set_key, H. reflexivity. Qed.
Lemma keep_key_nodup k o d : NoDup (keys d) -> NoDup (keys (keep_key k o d)).
Proof. intros H. unfold keep_key. destruct (lookup k o) as [[| | | t | | | |]|]; try exact H. apply set_key_nodup. exact H. Qed.
Lemma lookup_keep_key_same k o d t : lookup k o = Some (VStr t) -> lookup k (keep_key k o d) = Some (VStr t).
Proof. intros H. unfold keep_key. rewrite H, lookup_set_key, str_eqb_refl. reflexivity. Qed.
(* a predicate on entries that holds of the entry written survives [set_key] / [keep_key] *)
Lemma set_key_forallb (P : str * value -> bool) k v d :
  P (k, v) = true -> forallb P d = true -> forallb P (set_key k v d) = true.
Proof.
  intros Hv. induction d as [|[k' x] d IH]; simpl; intros H.
  - rewrite Hv. reflexivity.
  - apply andb_true_iff in H. destruct H as [Hx Hd]. destruct (str_eqb k k') eqn:E; simpl.
    + apply str_eqb_spec in E. subst k'. rewrite Hv, Hd. reflexivity.
    + rewrite Hx, (IH Hd). reflexivity.
Qed.
Lemma keep_key_forallb (P : str * value -> bool) k o d :
  (forall t, lookup k o = Some (VStr t) -> P (k, VStr t) = true) -> forallb P d = true -> forallb P (keep_key k o d) = true.
Proof.
  intros Hv H. unfold keep_key. destruct (lookup k o) as [[| | | t | | | |]|]; try exact H.
  apply set_key_forallb; [apply Hv; reflexivity | exact H].
Qed.

(* the declaration [VDict l] with its Default set to v (d["Default"] = v) *)
Definition with_default (v : value) (l : list (str * value)) : value := VDict (set_key K_Default v l).

Lemma with_default_noecho v l : is_noecho (with_default v l) = is_noecho (VDict l).
Proof. unfold is_noecho, with_default, field. rewrite lookup_set_key. reflexivity. Qed.
Lemma with_default_type v l : is_list_type (with_default v l) = is_list_type (VDict l).
Proof. unfold is_list_type, with_default, field. rewrite lookup_set_key. reflexivity. Qed.
(* a Default is present as soon as it is not None: "" and 0 ARE defaults *)
Lemma with_default_field v l : v <> VNull -> field K_Default (with_default v l) = Some v.
Proof. intros H. unfold with_default, field. rewrite lookup_set_key, str_eqb_refl. destruct v; try reflexivity. contradiction. Qed.
