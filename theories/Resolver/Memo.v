(* The on-demand condition resolver of CFModel.resolve (_ConditionResolver: depth-first evaluation with a list of names in
   progress, a cache, and a "tainted" flag that keeps values computed under a cut cycle out of the cache), as a
   state-passing Gallina function ([mget], [mall]), and the proof that it computes the un-memoised specification [cvt]
   ([mget_correct], [mall_correct]; MemoFacts.v shows that [cvt] over a template's declarations is Template.cond_val).

   Condition bodies are *query trees*: a deterministic sequential computation whose only interaction with its
   surroundings is asking for the value of a named condition.  [Resolver/QTree.v] shows that every body the resolver
   can evaluate is such a tree. *)
From Coq Require Import List Bool NArith Lia.
From PV Require Import Base.Str Base.Value.
Import ListNotations.

Inductive qtree (A : Type) : Type :=
| QRet (r : res A)
| QAsk (n : str) (k : bool -> qtree A).
Arguments QRet {A} r.
Arguments QAsk {A} n k.

(* run against a pure oracle *)
Fixpoint qrun {A} (c : str -> res bool) (t : qtree A) : res A :=
  match t with
  | QRet r => r
  | QAsk n k => b <- c n ;; qrun c (k b)
  end.

Fixpoint qbind {A B} (t : qtree A) (f : A -> qtree B) : qtree B :=
  match t with
  | QRet (Ok a) => f a
  | QRet (Err e) => QRet (Err e)
  | QAsk n k => QAsk n (fun b => qbind (k b) f)
  end.

Lemma qrun_bind {A B} c (t : qtree A) (f : A -> qtree B) : qrun c (qbind t f) = (a <- qrun c t ;; qrun c (f a)).
Proof.
  induction t as [[a|e]|n k IH]; simpl; try reflexivity.
  destruct (c n) as [b|e]; simpl; [apply IH | reflexivity].
Qed.

Lemma qrun_ext {A} c c' (t : qtree A) : (forall n, c n = c' n) -> qrun c t = qrun c' t.
Proof.
  intros H. induction t as [r|n k IH]; simpl; [reflexivity|].
  rewrite (H n). destruct (c' n) as [b|e]; simpl; [apply IH | reflexivity].
Qed.

(* an oracle that answers more questions, and the same way, gives the same successful run *)
Lemma qrun_mono {A} c1 c2 (t : qtree A) a :
  (forall m b, c1 m = Ok b -> c2 m = Ok b) -> qrun c1 t = Ok a -> qrun c2 t = Ok a.
Proof.
  intros H. induction t as [r|n k IH]; simpl; intros Hr; [assumption|].
  destruct (c1 n) as [b|e] eqn:E; simpl in Hr; [|discriminate].
  rewrite (H n b E). simpl. apply IH. assumption.
Qed.

(* run against a stateful oracle *)
Fixpoint qrun_st {A S} (g : str -> S -> res (bool * S)) (t : qtree A) (s : S) : res (A * S) :=
  match t with
  | QRet r => a <- r ;; Ok (a, s)
  | QAsk n k => bs <- g n s ;; qrun_st g (k (fst bs)) (snd bs)
  end.

Definition remove_name (n : str) (l : list str) : list str := filter (fun x => negb (str_eqb n x)) l.

Section Memo.
Variable bodies : list (str * qtree bool).      (* the declared conditions *)

Definition declared (n : str) : bool := match lookup n bodies with Some _ => true | None => false end.

(* specification: depth-first, [rem] = declared names not being resolved; no cache *)
Fixpoint cvt (fuel : nat) (rem : list str) (n : str) : res bool :=
  match fuel with
  | O => Err ERecursion
  | S f =>
      if mem_str n rem then
        match lookup n bodies with
        | Some t => qrun (cvt f (remove_name n rem)) t
        | None => Ok false
        end
      else Ok false
  end.

(* the implementation: _ConditionResolver.get *)
Record mstate := { cache : list (str * bool); tainted : bool }.

Fixpoint mget (fuel : nat) (prog : list str) (n : str) (s : mstate) : res (bool * mstate) :=
  match fuel with
  | O => Err ERecursion
  | S f =>
      match lookup n (cache s) with
      | Some b => Ok (b, s)                                            (* if key in self: return self[key] *)
      | None =>
          match lookup n bodies with
          | None => Ok (false, s)                                      (* not declared: the default *)
          | Some t =>
              if mem_str n prog then Ok (false, {| cache := cache s; tainted := true |})     (* a cycle *)
              else
                r <- qrun_st (mget f (n :: prog)) t {| cache := cache s; tainted := false |} ;;
                Ok (fst r, {| cache := if tainted (snd r) then cache (snd r) else (n, fst r) :: cache (snd r);
                              tainted := tainted (snd r) || tainted s |})
          end
      end
  end.

(* resolve_all: every declared name in turn, the flag reset before each *)
Fixpoint mall (fuel : nat) (names : list str) (s : mstate) : res (list (str * bool) * mstate) :=
  match names with
  | [] => Ok ([], s)
  | n :: r =>
      x <- mget fuel [] n {| cache := cache s; tainted := false |} ;;
      y <- mall fuel r (snd x) ;;
      Ok ((n, fst x) :: fst y, snd y)
  end.
Fixpoint cvt_all (fuel : nat) (rem names : list str) : res (list (str * bool)) :=
  match names with
  | [] => Ok []
  | n :: r => b <- cvt fuel rem n ;; l <- cvt_all fuel rem r ;; Ok ((n, b) :: l)
  end.

Definition same_mem (a b : list str) : Prop := forall x, mem_str x a = mem_str x b.

Lemma mem_remove_name x n l : mem_str x (remove_name n l) = mem_str x l && negb (str_eqb n x).
Proof. apply mem_str_filter. Qed.
Lemma remove_name_length n l : mem_str n l = true -> length (remove_name n l) < length l.
Proof. exact (remove_length n l). Qed.

Lemma cvt_undeclared fuel rem n : lookup n bodies = None -> cvt (S fuel) rem n = Ok false.
Proof. intros H. simpl. rewrite H. destruct (mem_str n rem); reflexivity. Qed.
Lemma cvt_not_in fuel rem n : mem_str n rem = false -> cvt (S fuel) rem n = Ok false.
Proof. intros H. simpl. rewrite H. reflexivity. Qed.

Lemma cvt_same_mem : forall fuel rem rem' n, same_mem rem rem' -> cvt fuel rem n = cvt fuel rem' n.
Proof.
  induction fuel as [|f IH]; intros rem rem' n H; [reflexivity|].
  simpl. rewrite <- (H n). destruct (mem_str n rem); [|reflexivity].
  destruct (lookup n bodies) as [t|]; [|reflexivity].
  apply qrun_ext. intros m. apply IH. intros x. rewrite !mem_remove_name, (H x). reflexivity.
Qed.

(* the cache invariant: entries in insertion order (newest first); each was computed from the entries
   that were there before it (and from undeclared names, which are false) *)
Definition oracle (C : list (str * bool)) (m : str) : res bool :=
  match lookup m C with
  | Some b => Ok b
  | None => if declared m then Err EUndefined else Ok false
  end.

Inductive cache_ok : list (str * bool) -> Prop :=
| co_nil : cache_ok []
| co_cons n b t C : cache_ok C -> lookup n C = None -> lookup n bodies = Some t ->
    qrun (oracle C) t = Ok b -> cache_ok ((n, b) :: C).

Lemma cache_ok_declared C : cache_ok C -> forall m b, lookup m C = Some b -> declared m = true.
Proof.
  induction 1 as [|n b t C HC IH Hn Ht Hq]; intros m b' H; simpl in H; [discriminate|].
  destruct (str_eqb m n) eqn:E.
  - apply str_eqb_spec in E. subst m. unfold declared. rewrite Ht. reflexivity.
  - eapply IH; eauto.
Qed.

(* a cached value is the specified value, whatever is in progress, as long as no cached name is in progress *)
Theorem cache_sound C : cache_ok C ->
  forall fuel rem, (forall m b, lookup m C = Some b -> mem_str m rem = true) -> length rem < fuel ->
  forall m b, lookup m C = Some b -> cvt fuel rem m = Ok b.
Proof.
  induction 1 as [|n b t C HC IH Hn Ht Hq]; intros fuel rem Hin Hf m b' Hm; [discriminate|].
  assert (HinC : forall y by_, lookup y C = Some by_ -> mem_str y rem = true).
  { intros y by_ Hy. apply (Hin y by_). simpl. destruct (str_eqb y n) eqn:Eyn; [|assumption].
    apply str_eqb_spec in Eyn. subst y. congruence. }
  simpl in Hm. destruct (str_eqb m n) eqn:E; [|exact (IH fuel rem HinC Hf m b' Hm)].
  apply str_eqb_spec in E. subst m. inv Hm.
  assert (Hnr : mem_str n rem = true) by (apply (Hin n b'); simpl; rewrite str_eqb_refl; reflexivity).
  destruct fuel as [|f]; [lia|]. simpl. rewrite Hnr, Ht.
  pose proof (remove_name_length n rem Hnr) as Hlen.
  (* the body was evaluated against the older entries: each of them is the specified value with n in progress as well *)
  apply (qrun_mono (oracle C)); [|assumption].
  intros x bx Hx. unfold oracle in Hx. destruct (lookup x C) as [b0|] eqn:Ex.
  - inv Hx. apply (IH f (remove_name n rem)); [| lia | assumption].
    intros y by_ Hy. rewrite mem_remove_name, (HinC y by_ Hy). apply negb_true_iff, str_eqb_neq. intros ->. congruence.
  - unfold declared in Hx. destruct (lookup x bodies) eqn:Eb; [discriminate|]. inv Hx.
    destruct f as [|f']; [lia|]. apply cvt_undeclared. assumption.
Qed.

(* caches only grow, and what they answered they keep answering *)
Definition extends (C C' : list (str * bool)) : Prop := exists C2, C' = C2 ++ C.
Lemma extends_refl C : extends C C.
Proof. exists []. reflexivity. Qed.
Lemma extends_trans A B C : extends A B -> extends B C -> extends A C.
Proof. intros [x ->] [y ->]. exists (y ++ x). rewrite app_assoc. reflexivity. Qed.
Lemma extends_cons C C' kv : extends C C' -> extends C (kv :: C').
Proof. intros [x ->]. exists (kv :: x). reflexivity. Qed.

Lemma lookup_extends C2 : forall C, cache_ok (C2 ++ C) -> forall m b, lookup m C = Some b -> lookup m (C2 ++ C) = Some b.
Proof.
  induction C2 as [|[n bn] C2 IH]; intros C H m b Hm; [assumption|].
  simpl in *. inversion H as [|n' b' t' C' Hok' Hn' Ht' Hq']; subst. specialize (IH C Hok' m b Hm).
  destruct (str_eqb m n) eqn:E; [|assumption].
  apply str_eqb_spec in E. subst m. congruence.
Qed.
Lemma oracle_extends C C' m b : extends C C' -> cache_ok C' -> oracle C m = Ok b -> oracle C' m = Ok b.
Proof.
  intros [C2 ->] Hok H. unfold oracle in *. destruct (lookup m C) as [b0|] eqn:E.
  - inv H. rewrite (lookup_extends C2 C Hok m b E). reflexivity.
  - destruct (declared m) eqn:Ed; [discriminate|]. inv H.
    destruct (lookup m (C2 ++ C)) as [b1|] eqn:E1; [|reflexivity].
    rewrite (cache_ok_declared _ Hok m b1 E1) in Ed. discriminate.
Qed.

Definition rem_of (prog : list str) : list str := filter (fun x => negb (mem_str x prog)) (keys bodies).
Lemma mem_rem_of x prog : mem_str x (rem_of prog) = declared x && negb (mem_str x prog).
Proof. unfold rem_of. rewrite mem_str_filter, mem_keys. reflexivity. Qed.
Lemma rem_of_cons n prog : remove_name n (rem_of prog) = rem_of (n :: prog).
Proof.
  unfold remove_name, rem_of. induction (keys bodies) as [|y l IH]; simpl; [reflexivity|].
  rewrite (str_eqb_sym y n). destruct (mem_str y prog) eqn:Ey; simpl.
  - rewrite orb_true_r. simpl. apply IH.
  - rewrite orb_false_r. destruct (str_eqb n y); simpl; rewrite IH; reflexivity.
Qed.
Lemma rem_of_nil : rem_of [] = keys bodies.
Proof. unfold rem_of. induction (keys bodies) as [|y l IH]; [reflexivity|]. simpl. f_equal. exact IH. Qed.

(* the state a call may start from: a sound cache that holds no name in progress *)
Definition good (C : list (str * bool)) (prog : list str) : Prop :=
  cache_ok C /\ forall m, mem_str m prog = true -> lookup m C = None.

(* what a call establishes *)
Definition post (prog : list str) (n : str) (b : bool) (s s' : mstate) : Prop :=
  good (cache s') prog /\ extends (cache s) (cache s') /\
  (tainted s = true -> tainted s' = true) /\
  (tainted s' = false -> oracle (cache s') n = Ok b).

Definition get_spec (fuel : nat) (prog : list str) : Prop :=
  forall n s, good (cache s) prog ->
    match cvt fuel (rem_of prog) n with
    | Err e => mget fuel prog n s = Err e
    | Ok b => exists s', mget fuel prog n s = Ok (b, s') /\ post prog n b s s'
    end.

(* the body of a condition, run against the memoising resolver, sees the specified values *)
Lemma body_run f prog : get_spec f prog ->
  forall (t : qtree bool) s0, good (cache s0) prog ->
    match qrun (cvt f (rem_of prog)) t with
    | Err e => qrun_st (mget f prog) t s0 = Err e
    | Ok v => exists s1, qrun_st (mget f prog) t s0 = Ok (v, s1) /\
                good (cache s1) prog /\ extends (cache s0) (cache s1) /\
                (tainted s0 = true -> tainted s1 = true) /\
                (tainted s1 = false -> qrun (oracle (cache s1)) t = Ok v)
    end.
Proof.
  intros Hget. induction t as [r|m k IH]; intros s0 Hg; simpl.
  - destruct r as [v|e]; simpl; [|reflexivity].
    exists s0. repeat split; try (apply extends_refl); try (apply Hg); auto.
  - specialize (Hget m s0 Hg). destruct (cvt f (rem_of prog) m) as [b|e]; simpl.
    + destruct Hget as (s' & Hm & (Hg' & Hext & Ht & Ho)). rewrite Hm. simpl.
      specialize (IH b s' Hg'). destruct (qrun (cvt f (rem_of prog)) (k b)) as [v|e].
      * destruct IH as (s1 & Hr & Hg1 & Hext1 & Ht1 & Ho1). exists s1. split; [assumption|].
        split; [assumption|]. split; [eapply extends_trans; eauto|]. split; [auto|].
        intros Hf. (* taint only spreads forward: untainted at the end means untainted after the question *)
        assert (Hts' : tainted s' = false).
        { destruct (tainted s'); [|reflexivity]. rewrite Ht1 in Hf by reflexivity. discriminate. }
        rewrite (oracle_extends (cache s') (cache s1) m b Hext1 (proj1 Hg1) (Ho Hts')). simpl. apply Ho1. assumption.
      * assumption.
    + rewrite Hget. reflexivity.
Qed.

Theorem mget_correct : forall fuel prog, length (rem_of prog) < fuel -> get_spec fuel prog.
Proof.
  induction fuel as [|f IHf]; intros prog Hlen n s Hg; [lia|].
  destruct Hg as [Hok Hprog].
  cbn [mget]. destruct (lookup n (cache s)) as [b|] eqn:Ec.
  - (* cached *)
    rewrite (cache_sound (cache s) Hok (S f) (rem_of prog)) with (b := b); try assumption.
    + exists s. split; [reflexivity|]. repeat split; auto using extends_refl.
      intros _. unfold oracle. rewrite Ec. reflexivity.
    + intros m bm Hm. rewrite mem_rem_of. rewrite (cache_ok_declared _ Hok m bm Hm). simpl.
      destruct (mem_str m prog) eqn:Ep; [|reflexivity]. rewrite (Hprog m Ep) in Hm. discriminate.
  - destruct (lookup n bodies) as [t|] eqn:Eb.
    + destruct (mem_str n prog) eqn:Ep.
      * (* in progress: false, and the evaluation is tainted *)
        rewrite cvt_not_in by (rewrite mem_rem_of, Ep; apply andb_false_r).
        eexists. split; [reflexivity|]. repeat split; simpl; auto using extends_refl. discriminate.
      * (* evaluate the body with n in progress *)
        assert (Hn : mem_str n (rem_of prog) = true).
        { rewrite mem_rem_of. unfold declared. rewrite Eb, Ep. reflexivity. }
        cbn [cvt]. rewrite Hn, Eb, rem_of_cons.
        assert (Hlen' : length (rem_of (n :: prog)) < f).
        { rewrite <- rem_of_cons. pose proof (remove_name_length n (rem_of prog) Hn). lia. }
        pose proof (body_run f (n :: prog) (IHf (n :: prog) Hlen') t {| cache := cache s; tainted := false |}) as Hrun.
        assert (Hg0 : good (cache s) (n :: prog)).
        { split; [assumption|]. intros m Hm. simpl in Hm. destruct (str_eqb m n) eqn:E.
          - apply str_eqb_spec in E. subst m. assumption.
          - apply Hprog. assumption. }
        specialize (Hrun Hg0). destruct (qrun (cvt f (rem_of (n :: prog))) t) as [v|e].
        -- destruct Hrun as (s1 & Hr & (Hok1 & Hprog1) & Hext1 & _ & Ho1). simpl in Hext1. rewrite Hr. simpl.
           eexists. split; [reflexivity|].
           assert (Hn1 : lookup n (cache s1) = None) by (apply Hprog1; simpl; rewrite str_eqb_refl; reflexivity).
           assert (Hp1 : forall m, mem_str m prog = true -> lookup m (cache s1) = None).
           { intros m Hm. apply Hprog1. simpl. rewrite Hm. apply orb_true_r. }
           unfold post. cbn [cache tainted]. destruct (tainted s1) eqn:Et1.
           ++ repeat split; auto. simpl. discriminate.
           ++ repeat split.
              ** eapply co_cons; eauto.
              ** intros m Hm. simpl. destruct (str_eqb m n) eqn:E; [|auto].
                 apply str_eqb_spec in E. subst m. congruence.
              ** apply extends_cons. assumption.
              ** simpl. auto.
              ** intros _. unfold oracle. simpl. rewrite str_eqb_refl. reflexivity.
        -- rewrite Hrun. reflexivity.
    + (* not declared *)
      rewrite cvt_undeclared by assumption.
      exists s. split; [reflexivity|]. repeat split; auto using extends_refl.
      intros _. unfold oracle, declared. rewrite Ec, Eb. reflexivity.
Qed.

(* resolve_all returns exactly the specified values, in declaration order; the cache left behind is sound *)
Theorem mall_correct fuel : length (keys bodies) < fuel ->
  forall names s, cache_ok (cache s) ->
    match cvt_all fuel (keys bodies) names with
    | Err e => mall fuel names s = Err e
    | Ok l => exists s', mall fuel names s = Ok (l, s') /\ cache_ok (cache s')
    end.
Proof.
  intros Hf. induction names as [|n r IH]; intros s Hok; simpl.
  - exists s. split; [reflexivity | assumption].
  - assert (Hlen : length (rem_of []) < fuel) by (rewrite rem_of_nil; assumption).
    pose proof (mget_correct fuel [] Hlen n {| cache := cache s; tainted := false |}) as Hget.
    rewrite rem_of_nil in Hget.
    assert (Hg : good (cache s) []) by (split; [assumption | intros m Hm; discriminate]).
    specialize (Hget Hg). destruct (cvt fuel (keys bodies) n) as [b|e]; simpl.
    + destruct Hget as (s' & Hm & (Hg' & _)). rewrite Hm. simpl.
      specialize (IH s' (proj1 Hg')). destruct (cvt_all fuel (keys bodies) r) as [l|e]; simpl.
      * destruct IH as (s'' & Hr & Hok''). rewrite Hr. simpl. exists s''. split; [reflexivity | assumption].
      * rewrite IH. reflexivity.
    + rewrite Hget. reflexivity.
Qed.
End Memo.
