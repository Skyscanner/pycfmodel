(* has_hardcoded_credentials (Resource and IAMUser), over resolved plain data *)
From Coq Require Import List Bool NArith ZArith.
From PV Require Import Base.Str Base.Value Resolver.Consts.
Import ListNotations.

Definition MARKER : value := VStr S_NO_ECHO_NO_DEFAULT.
Definition truthy (v : value) : bool :=
  match v with
  | VNull | VBool false | VInt 0%Z | VStr [] | VList [] | VDict [] | VBytes [] => false
  | _ => true
  end.
(* auth.get(k, MARKER) == MARKER *)
Definition cred_ok (auth : list (str * value)) (k : str) : bool :=
  match lookup k auth with None => true | Some v => veqb v MARKER end.
Definition auth_ok (auth : value) : res bool :=
  match auth with
  | VDict a => Ok (cred_ok a K_accessKeyId && cred_ok a K_password && cred_ok a K_secretKey)
  | _ => Err EAttr
  end.
Fixpoint any_bad (auths : list (str * value)) : res bool :=
  match auths with
  | [] => Ok false
  | (_, a) :: r => ok <- auth_ok a ;; if ok then any_bad r else Ok true
  end.
(* Resource.has_hardcoded_credentials on the resource's Metadata (VNull when absent) *)
Definition has_hc (metadata : value) : res bool :=
  match metadata with
  | VDict m =>
      match lookup K_CFN_AUTH m with
      | Some (VDict auths) => any_bad auths
      | Some v => if truthy v then Err EAttr else Ok false
      | None => Ok false
      end
  | VNull => Ok false
  | _ => Err EUndefined
  end.
(* IAMUser.has_hardcoded_credentials: LoginProfile (VNull when absent) first, then the generic check *)
Definition has_hc_user (login_profile metadata : value) : res bool :=
  match login_profile with
  | VDict lp =>
      match lookup K_Password lp with
      | Some p => if truthy p && negb (veqb p MARKER) then Ok true else has_hc metadata
      | None => has_hc metadata
      end
  | VNull => has_hc metadata
  | _ => Err EUndefined
  end.
