(* C07, object key order: the order of the entries of any object of a template, at any depth, does not matter for
   resolution.

   [vperm v w]      v and w are the same value up to reordering the entries of objects, at any depth (lists keep their order).
   [nodup_keys v]   no object inside v has two entries with the same key (true of everything json.load / a Python dict gives).
   [rel_res R x y]  both are [Ok] with R-related results, or both are [Err].  The error KIND is deliberately not compared:
                    when two entries of one object both fail, Python raises for the first one it meets, which depends on
                    the order of the entries ({"a": <raises ValueError>, "b": <raises TypeError>} against the same object
                    written b-first).  What is order independent is WHETHER resolution fails.

   Main theorem [resolve_vperm_env]: for environments whose parameter values / mapping values agree up to [vperm]
   (in particular for one fixed environment) and contain no duplicate keys,
       vperm v w -> nodup_keys v -> rel_res vperm (resolve e v) (resolve e' w).
   Fn::FindInMap finds a key spelled like a boolean by the FIRST spelling in dictionary order (repair F31), hence the
   hypothesis [maps_bk_unique (mappings e)]: no level of a mapping holds two spellings of the same boolean
   ("True" and "TRUE").  Without it the statement is false -- see the comment above [do_find_in_map_vperm]. *)
From Coq Require Import List Bool NArith ZArith Permutation.
From PV Require Import Base.Str Base.ListFacts Base.Value Resolver.Consts Resolver.Text Resolver.Resolve Resolver.Spec Resolver.Ext
  Resolver.Template Resolver.ParamFacts Resolver.ShortCircuit Resolver.CondFacts.
Import ListNotations.

Lemma F2_flip {A B} (R : A -> B -> Prop) l l' : Forall2 R l l' -> Forall2 (fun b a => R a b) l' l.
Proof. induction 1; constructor; assumption. Qed.
Lemma F2_comp {A B C} (R : B -> C -> Prop) (S : A -> C -> Prop) l1 l2 l3 :
  Forall2 (fun a b => forall c, R b c -> S a c) l1 l2 -> Forall2 R l2 l3 -> Forall2 S l1 l3.
Proof. intros H12. revert l3. induction H12 as [|a b l1 l2 Hab H12 IH]; intros l3 H23; inv H23; constructor; auto. Qed.
Lemma F2_refl_in {A} (R : A -> A -> Prop) l : (forall a, In a l -> R a a) -> Forall2 R l l.
Proof. induction l as [|x l IH]; intros H; constructor; [apply H; simpl; auto | apply IH; intros a Ha; apply H; simpl; auto]. Qed.
Lemma F2_nth {A B} (R : A -> B -> Prop) l l' : Forall2 R l l' -> forall n,
  match nth_error l n, nth_error l' n with Some a, Some b => R a b | None, None => True | _, _ => False end.
Proof. induction 1 as [|a b l l' Hab HF IH]; intros [|n]; simpl; auto. apply IH. Qed.
(* two entries: same key, related values *)
Definition erel (R : value -> value -> Prop) (a b : str * value) : Prop := fst a = fst b /\ R (snd a) (snd b).

Inductive vperm : value -> value -> Prop :=
| vp_null : vperm VNull VNull
| vp_bool b : vperm (VBool b) (VBool b)
| vp_int z : vperm (VInt z) (VInt z)
| vp_str s : vperm (VStr s) (VStr s)
| vp_typed k t : vperm (VTyped k t) (VTyped k t)
| vp_bytes b : vperm (VBytes b) (VBytes b)
(* lists: same length, same order, members related *)
| vp_list l l' : Forall2 vperm l l' -> vperm (VList l) (VList l')
(* objects: the entries of [d], values related member by member ([d'], same keys in the same order), then reordered ([d'']) *)
| vp_dict d d' d'' : Forall2 (fun a b => fst a = fst b /\ vperm (snd a) (snd b)) d d' -> Permutation d' d'' ->
    vperm (VDict d) (VDict d'').

Lemma vperm_list_inv l w : vperm (VList l) w -> exists l', w = VList l' /\ Forall2 vperm l l'.
Proof. intros H. inv H. eauto. Qed.
Lemma vperm_dict_inv d w : vperm (VDict d) w ->
  exists d' d'', w = VDict d'' /\ Forall2 (erel vperm) d d' /\ Permutation d' d''.
Proof. intros H. inv H. eexists _, _. split; [reflexivity|]. split; [exact H1 | exact H2]. Qed.

Lemma erel_keys R d d' : Forall2 (erel R) d d' -> keys d = keys d'.
Proof. induction 1 as [|[k x] [k' y] d d' [Hk _] HF IH]; unfold keys in *; simpl in *; [reflexivity|]. subst k'. rewrite IH. reflexivity. Qed.
Lemma vperm_refl v : vperm v v.
Proof.
  induction v as [| | | | | | l IH | d IH] using value_ind'; try constructor.
  - apply F2_refl_in. apply Forall_forall. exact IH.
  - apply vp_dict with (d' := d); [|apply Permutation_refl].
    apply F2_refl_in. intros a Ha. split; [reflexivity|]. rewrite Forall_forall in IH. apply IH. exact Ha.
Qed.

(* induction on a derivation, with the hypothesis for the members of lists and objects *)
Section VpermInd.
Variable P : value -> value -> Prop.
Hypothesis Hatom : forall v, atom v -> P v v.
Hypothesis Hlist : forall l l', Forall2 vperm l l' -> Forall2 P l l' -> P (VList l) (VList l').
Hypothesis Hdict : forall d d' d'', Forall2 (erel vperm) d d' -> Forall2 (erel P) d d' -> Permutation d' d'' -> P (VDict d) (VDict d'').
Theorem vperm_ind' : forall v w, vperm v w -> P v w.
Proof.
  intros v. induction v as [v IH] using value_size_ind. intros w H.
  destruct H as [ | | | | | | l l' HF | d d' d'' HF HP]; try (apply Hatom; exact I).
  - apply Hlist; [exact HF|]. revert HF. apply Forall2_impl_In. intros x y Hx _ Hxy.
    exact (IH x (vsize_in_list x l Hx) y Hxy).
  - apply Hdict with d'; [exact HF | | exact HP]. revert HF. apply Forall2_impl_In. intros [k x] [k' y] Hx _ [Hk Hxy].
    split; [exact Hk | exact (IH x (vsize_in_dict k x d Hx) y Hxy)].
Qed.
End VpermInd.

(* symmetry and transitivity rest on [Permutation_Forall2]: a member-wise relation followed by a reordering is a reordering
   followed by a member-wise relation *)
Lemma vperm_sym v w : vperm v w -> vperm w v.
Proof.
  revert v w. apply vperm_ind'.
  - intros v _. apply vperm_refl.
  - intros l l' _ IH. constructor. exact (F2_flip _ _ _ IH).
  - intros d d' d'' _ IH HP.
    assert (HF' : Forall2 (erel vperm) d' d).
    { apply F2_flip in IH. revert IH. apply Forall2_impl_In. intros b a _ _ [Hk Hxy]. split; [symmetry; exact Hk | exact Hxy]. }
    destruct (Permutation_Forall2 HP HF') as (d2 & HP2 & HF2).
    apply vp_dict with (d' := d2); [exact HF2 | apply Permutation_sym; exact HP2].
Qed.

Lemma vperm_trans a b c : vperm a b -> vperm b c -> vperm a c.
Proof.
  intros Hab. revert c. revert a b Hab. apply (vperm_ind' (fun a b => forall c, vperm b c -> vperm a c)).
  - intros v _ c H. exact H.
  - intros l l' _ IH c Hbc. destruct (vperm_list_inv _ _ Hbc) as (l2 & -> & HF2). constructor. exact (F2_comp _ _ _ _ _ IH HF2).
  - intros d d' d'' _ IH HP c Hbc. destruct (vperm_dict_inv _ _ Hbc) as (d3 & d4 & -> & HF3 & HP4).
    destruct (Permutation_Forall2 (Permutation_sym HP) HF3) as (d5 & HP5 & HF5).
    apply vp_dict with (d' := d5); [|eapply Permutation_trans; [apply Permutation_sym; exact HP5 | exact HP4]].
    apply (F2_comp (erel vperm) _ _ _ _) with (2 := HF5). revert IH. apply Forall2_impl_In.
    intros a b _ _ [Hk1 Hxy] z [Hk2 Hyz]. split; [etransitivity; eassumption | exact (Hxy _ Hyz)].
Qed.

Fixpoint nodupb (l : list str) : bool :=
  match l with [] => true | x :: xs => negb (mem_str x xs) && nodupb xs end.
Lemma nodupb_spec l : nodupb l = true <-> NoDup l.
Proof. exact (nodupb_NoDup nodupb eq_refl (fun _ _ => eq_refl) l). Qed.
(* no duplicate keys, at any depth *)
Fixpoint nodup_keysb (v : value) : bool :=
  match v with
  | VList l => forallb nodup_keysb l
  | VDict d => nodupb (keys d) && forallb (fun kv => nodup_keysb (snd kv)) d
  | _ => true
  end.
Definition nodup_keys (v : value) : Prop := nodup_keysb v = true.

Lemma nodup_list_iff l : nodup_keys (VList l) <-> Forall nodup_keys l.
Proof. unfold nodup_keys. simpl. rewrite forallb_forall, Forall_forall. reflexivity. Qed.
Lemma nodup_dict_iff d : nodup_keys (VDict d) <-> NoDup (keys d) /\ Forall (fun kv => nodup_keys (snd kv)) d.
Proof. unfold nodup_keys. simpl. rewrite andb_true_iff, nodupb_spec, forallb_forall, Forall_forall. reflexivity. Qed.
Lemma nodup_in_list l x : nodup_keys (VList l) -> In x l -> nodup_keys x.
Proof. rewrite nodup_list_iff, Forall_forall. auto. Qed.
Lemma nodup_in_dict d k x : nodup_keys (VDict d) -> In (k, x) d -> nodup_keys x.
Proof. rewrite nodup_dict_iff, Forall_forall. intros [_ H] Hin. exact (H _ Hin). Qed.
Lemma nodup_dict_keys d : nodup_keys (VDict d) -> NoDup (keys d).
Proof. rewrite nodup_dict_iff. tauto. Qed.
Lemma nodup_lookup d k x : nodup_keys (VDict d) -> lookup k d = Some x -> nodup_keys x.
Proof. intros H Hl. eapply nodup_in_dict; [exact H | apply lookup_In; exact Hl]. Qed.

Lemma F2_in_l {A B} (R : A -> B -> Prop) l l' x : Forall2 R l l' -> In x l -> exists y, In y l' /\ R x y.
Proof. apply Forall2_In_l. Qed.

Definition rel_res {A} (R : A -> A -> Prop) (x y : res A) : Prop :=
  match x, y with
  | Ok a, Ok b => R a b
  | Err _, Err _ => True
  | _, _ => False
  end.
Definition orel {A} (R : A -> A -> Prop) (x y : option A) : Prop :=
  match x, y with
  | Some a, Some b => R a b
  | None, None => True
  | _, _ => False
  end.

Lemma rel_bind {A B} (R : A -> A -> Prop) (S : B -> B -> Prop) x y f g :
  rel_res R x y -> (forall a b, x = Ok a -> y = Ok b -> R a b -> rel_res S (f a) (g b)) -> rel_res S (bind x f) (bind y g).
Proof. intros H Hfg. destruct x as [a|ea], y as [b|eb]; simpl in *; try contradiction; [apply Hfg; auto | exact I]. Qed.
Lemma rel_res_eq_refl {A} (x : res A) : rel_res eq x x.
Proof. destruct x; simpl; auto. Qed.
Lemma rel_res_vperm_refl x : rel_res vperm x x.
Proof. destruct x; simpl; [apply vperm_refl | exact I]. Qed.
Lemma rel_res_is_ok {A} (R : A -> A -> Prop) x y : rel_res R x y -> is_ok x = is_ok y.
Proof. destruct x, y; simpl; tauto. Qed.
(* a loop that appends zero or more results per element: reordering the input reorders the output (or both runs fail) *)
Lemma fold_perm {A B} (f : list A -> res (list B)) (step : A -> res (list B)) : f [] = Ok [] ->
  (forall a l, f (a :: l) = (o <- step a ;; r <- f l ;; Ok (o ++ r))) ->
  forall l l', Permutation l l' -> rel_res (@Permutation _) (f l) (f l').
Proof.
  intros Hnil Hcons. induction 1 as [|a l l' HP IH|a1 a2 l|l l' l'' HP1 IH1 HP2 IH2].
  - rewrite Hnil. constructor.
  - rewrite !Hcons. destruct (step a) as [o|]; simpl; [|exact I].
    destruct (f l) as [r|], (f l') as [r'|]; simpl in IH |- *; try contradiction; [apply Permutation_app_head; exact IH | exact I].
  - rewrite !Hcons. destruct (step a1) as [o1|], (step a2) as [o2|]; simpl; try exact I.
    destruct (f l) as [r|]; simpl; [apply Permutation_app_swap_app | exact I].
  - destruct (f l) as [r|], (f l') as [r'|], (f l'') as [r''|]; simpl in *; try contradiction; try exact I.
    eapply Permutation_trans; eassumption.
Qed.

(* lookups in association lists agree up to [vperm] *)
Definition lookups_perm (a b : list (str * value)) : Prop := forall k, orel vperm (lookup k a) (lookup k b).
Lemma lookups_perm_refl a : lookups_perm a a.
Proof. intros k. destruct (lookup k a); simpl; [apply vperm_refl | exact I]. Qed.

Lemma erel_lookup d d' : Forall2 (erel vperm) d d' -> lookups_perm d d'.
Proof.
  induction 1 as [|[k x] [k' y] d d' [Hk Hxy] HF IH]; intros q; simpl; [exact I|]. simpl in Hk, Hxy. subst k'.
  destruct (str_eqb q k); [exact Hxy | apply IH].
Qed.
(* an object and a reordering of it have the same lookups -- this is where unique keys are needed *)
Lemma vperm_lookup d d' : vperm (VDict d) (VDict d') -> NoDup (keys d) -> lookups_perm d d'.
Proof.
  intros H Hnd q. destruct (vperm_dict_inv _ _ H) as (d1 & d2 & Heq & HF & HP). inv Heq.
  rewrite <- (lookup_Permutation q d1 d2); [apply erel_lookup; exact HF | | exact HP]. rewrite <- (erel_keys _ _ _ HF). exact Hnd.
Qed.
Lemma vperm_dict_length d d' : vperm (VDict d) (VDict d') -> length d = length d'.
Proof.
  intros H. destruct (vperm_dict_inv _ _ H) as (d1 & d2 & Heq & HF & HP). inv Heq.
  rewrite (Forall2_length _ _ _ HF). apply Permutation_length. exact HP.
Qed.

(* the observers of the resolver do not see the order *)
Lemma vperm_is_novalue a b : vperm a b -> is_novalue a = is_novalue b.
Proof. destruct 1; reflexivity. Qed.
Lemma vperm_ext_bool a b : vperm a b -> ext_bool a = ext_bool b.
Proof. destruct 1; reflexivity. Qed.
(* a function object has exactly one entry: it has only one order *)
Lemma vperm_single k x w : vperm (VDict [(k, x)]) w -> exists y, w = VDict [(k, y)] /\ vperm x y.
Proof.
  intros H. destruct (vperm_dict_inv _ _ H) as (d1 & d2 & -> & HF & HP).
  inversion HF as [|a b l l' Hab HF' Ea Eb]; subst. inversion HF'; subst.
  destruct b as [k' y]. destruct Hab as [Hk Hxy]. simpl in Hk, Hxy. subst k'.
  apply Permutation_length_1_inv in HP. subst d2. eauto.
Qed.
Lemma vperm_is_fn_dict d d' : vperm (VDict d) (VDict d') -> is_fn_dict d = is_fn_dict d'.
Proof.
  intros H. pose proof (vperm_dict_length _ _ H) as Hl.
  destruct d as [|[k x] [|kv2 rest]].
  - destruct d'; [reflexivity | discriminate].
  - destruct (vperm_single _ _ _ H) as (y & Heq & _). inv Heq. reflexivity.
  - destruct d' as [|[k' y] [|kv2' rest']]; try discriminate. reflexivity.
Qed.

Lemma vperm_has_numeric a b : vperm a b -> has_numeric a = has_numeric b.
Proof.
  revert a b. apply vperm_ind'.
  - reflexivity.
  - intros l l' _ IH. simpl. exact (existsb_Forall2 _ _ _ _ IH).
  - intros d d' d'' _ IH HP. simpl. rewrite <- (existsb_Permutation _ _ _ HP). apply existsb_Forall2. revert IH. apply Forall2_impl_In.
    intros x y _ _ [_ Hxy]. exact Hxy.
Qed.

(* Python == ([veqb]: object comparison by lookups) gives the same answer on the whole class *)
Definition veqb_l : list value -> list value -> bool :=
  fix go (la lb : list value) : bool :=
    match la, lb with
    | [], [] => true
    | x :: xs, y :: ys => veqb x y && go xs ys
    | _, _ => false
    end.
Definition veqb_d (db : list (str * value)) : list (str * value) -> bool :=
  fix go (da : list (str * value)) : bool :=
    match da with
    | [] => true
    | (k, x) :: xs => match lookup k db with Some y => veqb x y | None => false end && go xs
    end.
Lemma veqb_list la lb : veqb (VList la) (VList lb) = veqb_l la lb.
Proof. reflexivity. Qed.
Lemma veqb_dict da db : veqb (VDict da) (VDict db) = Nat.eqb (length da) (length db) && veqb_d db da.
Proof. reflexivity. Qed.
Lemma veqb_d_forallb db da :
  veqb_d db da = forallb (fun kx => match lookup (fst kx) db with Some y => veqb (snd kx) y | None => false end) da.
Proof. induction da as [|[k x] da IH]; simpl; [reflexivity|]. rewrite IH. reflexivity. Qed.

(* [veqb] walks its first argument and LOOKS UP in the second: only the second needs unique keys *)
Lemma veqb_vperm a a' b b' : vperm a a' -> vperm b b' -> nodup_keys b -> veqb a b = veqb a' b'.
Proof.
  intros Ha. revert b b'. revert a a' Ha.
  apply (vperm_ind' (fun a a' => forall b b', vperm b b' -> nodup_keys b -> veqb a b = veqb a' b')).
  - intros [] Hv y y' Hb _; try contradiction; destruct Hb; reflexivity.
  - intros la la' _ IH b b' Hb Hnb. destruct Hb as [ | | | | | | lb lb' HFb | db db1 db' HFb HPb]; try reflexivity.
    rewrite !veqb_list. apply nodup_list_iff in Hnb.
    revert lb lb' HFb Hnb. induction IH as [|x x' la la' Hxx _ IHl]; intros lb lb' HFb Hnb; inv HFb; try reflexivity.
    inv Hnb. simpl. f_equal; [apply Hxx; assumption | apply IHl; assumption].
  - intros da da1 da' HFa IH HPa b b' Hb Hnb. destruct Hb as [ | | | | | | lb lb' HFb | db db1 db' HFb HPb]; try reflexivity.
    pose proof (vp_dict _ _ _ HFb HPb) as Hb.
    rewrite !veqb_dict, !veqb_d_forallb.
    rewrite (vperm_dict_length _ _ Hb). rewrite (Forall2_length _ _ _ HFa), (Permutation_length HPa). f_equal.
    rewrite <- (forallb_Permutation _ _ _ HPa). apply forallb_Forall2. revert IH. apply Forall2_impl_In.
    intros [k x] [k' x'] _ _ [Hk Hxx]. simpl in Hk, Hxx |- *. subst k'.
    pose proof (vperm_lookup _ _ Hb (nodup_dict_keys _ Hnb) k) as Hl.
    destruct (lookup k db) as [y|] eqn:Ey, (lookup k db') as [y'|]; simpl in Hl; try contradiction; [|reflexivity].
    apply Hxx; [exact Hl | exact (nodup_lookup _ _ _ Hnb Ey)].
Qed.

Lemma py_eq_vperm a a' b b' : vperm a a' -> vperm b b' -> nodup_keys b -> py_eq a b = py_eq a' b'.
Proof.
  intros Ha Hb Hnb.
  pose proof (vperm_has_numeric _ _ Ha) as Hn1. pose proof (vperm_has_numeric _ _ Hb) as Hn2.
  pose proof (veqb_vperm _ _ _ _ Ha Hb Hnb) as Hv.
  destruct Ha; destruct Hb; unfold py_eq; rewrite ?Hn1, ?Hn2, ?Hv; reflexivity.
Qed.

(* Fn::And / Fn::Or are the short-circuit fold [sc] of the operands' truth values *)
Lemma rjunction_sc (stop : bool) e l :
  (if stop then rany e l else rall e l) = sc stop (map (fun x => r <- resolve e x ;; ext_bool r) l).
Proof.
  induction l as [|x xs IH]; [destruct stop; reflexivity|]. cbn [map]. rewrite sc_cons, <- IH.
  destruct stop; [rewrite rany_cons | rewrite rall_cons]; destruct (resolve e x) as [r|k]; cbn [bind]; try reflexivity;
    destruct (ext_bool r) as [[|]|k]; reflexivity.
Qed.
Lemma resolve_junction_sc (stop : bool) e l : resolve e (VDict [(if stop then K_Or else K_And, VList l)]) =
  (b <- sc stop (map (fun x => r <- resolve e x ;; ext_bool r) l) ;; Ok (VBool b)).
Proof. rewrite <- rjunction_sc. destruct stop; reflexivity. Qed.
Lemma sc_map_rel {A} stop (g g' : A -> res bool) l l' : Forall2 (fun x y => rel_res eq (g x) (g' y)) l l' ->
  rel_res eq (sc stop (map g l)) (sc stop (map g' l')).
Proof.
  induction 1 as [|x y l l' Hxy HF IH]; [reflexivity|]. cbn [map]. rewrite !sc_cons.
  destruct (g x) as [b|], (g' y) as [b'|]; simpl in Hxy |- *; try contradiction; [subst b' | exact I].
  destruct (eqb b stop); [reflexivity | exact IH].
Qed.

Section Loops.
Variables f g : value -> res value.

Lemma mlist_rel l l' : Forall2 (fun x y => rel_res vperm (f x) (g y)) l l' ->
  rel_res (Forall2 vperm) (mlist f l) (mlist g l').
Proof.
  induction 1 as [|x y l l' Hxy HF IH]; simpl; [constructor|].
  destruct (f x) as [a|], (g y) as [b|]; simpl in Hxy |- *; try contradiction; [|exact I].
  destruct (mlist f l) as [r|], (mlist g l') as [r'|]; simpl in IH |- *; try contradiction; [|exact I].
  rewrite <- (vperm_is_novalue a b Hxy). destruct (is_novalue a); [exact IH | constructor; assumption].
Qed.
Lemma mdict_rel d d' : Forall2 (fun a b => fst a = fst b /\ rel_res vperm (f (snd a)) (g (snd b))) d d' ->
  rel_res (Forall2 (erel vperm)) (mdict f d) (mdict g d').
Proof.
  induction 1 as [|[k x] [k' y] d d' [Hk Hxy] HF IH]; simpl; [constructor|]. simpl in Hk, Hxy. subst k'.
  destruct (f x) as [a|], (g y) as [b|]; simpl in Hxy |- *; try contradiction; [|exact I].
  destruct (mdict f d) as [r|], (mdict g d') as [r'|]; simpl in IH |- *; try contradiction; [|exact I].
  rewrite <- (vperm_is_novalue a b Hxy). destruct (is_novalue a); [exact IH | constructor; [split; [reflexivity | exact Hxy] | exact IH]].
Qed.

(* reordering the entries of an object: every member is resolved either way, the same members are dropped, so either some
   member fails (in both orders -- but which failing member is met FIRST depends on the order: the error kind may differ)
   or the results are the same entries, reordered *)
Lemma mdict_perm d d' : Permutation d d' -> rel_res (@Permutation _) (mdict g d) (mdict g d').
Proof.
  apply (fold_perm _ (fun kx => x' <- g (snd kx) ;; Ok (if is_novalue x' then [] else [(fst kx, x')]))); [reflexivity|].
  intros [k x] l. simpl. destruct (g x) as [a|]; simpl; [|reflexivity]. destruct (mdict g l), (is_novalue a); reflexivity.
Qed.

(* the generic object case, both steps together *)
Lemma dict_generic_rel d d1 d2 :
  Forall2 (fun a b => fst a = fst b /\ rel_res vperm (f (snd a)) (g (snd b))) d d1 -> Permutation d1 d2 ->
  rel_res vperm (x <- mdict f d ;; Ok (VDict x)) (x <- mdict g d2 ;; Ok (VDict x)).
Proof.
  intros HF HP. pose proof (mdict_rel _ _ HF) as H1. pose proof (mdict_perm _ _ HP) as H2.
  destruct (mdict f d) as [r|], (mdict g d1) as [r1|], (mdict g d2) as [r2|]; simpl in *; try contradiction; try exact I.
  exact (vp_dict _ _ _ H1 H2).
Qed.
End Loops.

(* what the loops keep: a sub-sequence of the keys, and only results of the member function *)
Lemma mdict_keys_incl f d d' : mdict f d = Ok d' -> forall k, In k (keys d') -> In k (keys d).
Proof.
  revert d'. induction d as [|[k0 x] d IH]; intros d' H k Hk; simpl in H.
  - inv H. exact Hk.
  - bind_inv. inv H. destruct (is_novalue a).
    + right. eapply IH; [reflexivity | exact Hk].
    + destruct Hk as [<-|Hk]; [left; reflexivity | right; eapply IH; [reflexivity | exact Hk]].
Qed.
Lemma mdict_keys_nodup f d d' : mdict f d = Ok d' -> NoDup (keys d) -> NoDup (keys d').
Proof.
  revert d'. induction d as [|[k0 x] d IH]; intros d' H Hnd; simpl in H.
  - inv H. constructor.
  - bind_inv. inv H. inv Hnd. destruct (is_novalue a); [apply IH; [reflexivity | assumption]|].
    simpl. constructor; [|apply IH; [reflexivity | assumption]].
    intros Hin. apply H1. eapply mdict_keys_incl; [exact E0 | exact Hin].
Qed.
Lemma mdict_Forall (P Q : value -> Prop) f d d' :
  Forall (fun kv => P (snd kv) -> forall r, f (snd kv) = Ok r -> Q r) d -> Forall (fun kv => P (snd kv)) d ->
  mdict f d = Ok d' -> Forall (fun kv => Q (snd kv)) d'.
Proof.
  intros HF. revert d'. induction HF as [|[k x] d Hx HF IH]; intros d' HP H; simpl in H.
  - inv H. constructor.
  - bind_inv. inv H. inv HP. simpl in Hx. destruct (is_novalue a); [apply IH; [assumption | reflexivity]|].
    constructor; [simpl; eapply Hx; eauto | apply IH; [assumption | reflexivity]].
Qed.
Lemma mlist_Forall (P Q : value -> Prop) f l l' :
  Forall (fun x => P x -> forall r, f x = Ok r -> Q r) l -> Forall P l -> mlist f l = Ok l' -> Forall Q l'.
Proof.
  intros HF. revert l'. induction HF as [|x l Hx HF IH]; intros l' HP H; simpl in H.
  - inv H. constructor.
  - bind_inv. inv H. inv HP. destruct (is_novalue a); [apply IH; [assumption | reflexivity]|].
    constructor; [eapply Hx; eauto | apply IH; [assumption | reflexivity]].
Qed.

(* two environments are interchangeable when every parameter / mapping lookup gives [vperm]-related values (so the
   sections may be reordered AND the objects inside parameter values and mappings may have their keys reordered) and every
   condition reference has the same value (or fails in both) *)
Definition eperm (e e' : env) : Prop :=
  lookups_perm (params e) (params e') /\ lookups_perm (mappings e) (mappings e') /\
  (forall n, rel_res eq (conds e n) (conds e' n)).
(* parameter values and mappings have no duplicate keys *)
Definition env_nodup (e : env) : Prop :=
  (forall k x, lookup k (params e) = Some x -> nodup_keys x) /\
  (forall k x, lookup k (mappings e) = Some x -> nodup_keys x).
Lemma eperm_refl e : eperm e e.
Proof. repeat split; try apply lookups_perm_refl. intros n. apply rel_res_eq_refl. Qed.
Lemma eperm_of_env_eq e e' : env_eq e e' -> eperm e e'.
Proof.
  intros (Hp & Hm & Hc). split; [|split].
  - intros k. rewrite (Hp k). apply lookups_perm_refl.
  - intros k. rewrite (Hm k). apply lookups_perm_refl.
  - intros n. rewrite (Hc n). apply rel_res_eq_refl.
Qed.

Lemma render_str_perm ps ps' s : lookups_perm ps ps' -> render_str ps s = render_str ps' s.
Proof.
  intros H. unfold render_str. destruct (ssm_key s) as [key|]; [|reflexivity].
  specialize (H key). destruct (lookup key ps) as [x|], (lookup key ps') as [x'|]; simpl in H; try contradiction; [|reflexivity].
  destruct H; reflexivity.
Qed.

(* the rendering of a parameter value (what Ref and Fn::Sub insert) *)
Lemma normalize_vperm ps ps' x x' : lookups_perm ps ps' -> vperm x x' -> rel_res vperm (normalize ps x) (normalize ps' x').
Proof.
  intros Hps. revert x x'. apply vperm_ind'.
  - intros [] Hv; try contradiction; simpl; rewrite ?(render_str_perm ps ps' _ Hps); constructor.
  - intros l l' _ IH. rewrite !normalize_list.
    eapply rel_bind; [apply mlist_rel; exact IH | intros a b _ _ Hab; simpl; constructor; exact Hab].
  - intros d d1 d2 HF IH HP. rewrite !normalize_dict. rewrite <- (vperm_is_fn_dict d d2 (vp_dict _ _ _ HF HP)).
    destruct (is_fn_dict d); [exact I|]. apply dict_generic_rel with (d1 := d1); [exact IH | exact HP].
Qed.

(* the value functions, on related (already resolved) arguments *)
Lemma do_ref_vperm e e' b b' : eperm e e' -> vperm b b' -> rel_res vperm (do_ref e b) (do_ref e' b').
Proof.
  intros (Hp & _ & _) H. destruct H as [ | | | s | | | | ]; try exact I. unfold do_ref.
  pose proof (Hp s) as Hl. destruct (lookup s (params e)) as [x|], (lookup s (params e')) as [x'|]; simpl in Hl; try contradiction.
  - apply normalize_vperm; assumption.
  - simpl. constructor.
Qed.

Lemma as_strs_vperm l l' : Forall2 vperm l l' -> rel_res eq (as_strs l) (as_strs l').
Proof.
  induction 1 as [|x y l l' Hxy HF IH]; [reflexivity|].
  destruct Hxy; try exact I. simpl.
  destruct (as_strs l), (as_strs l'); simpl in IH |- *; try contradiction; [congruence | exact I].
Qed.
Lemma do_join_vperm d d' l l' : vperm d d' -> vperm l l' -> rel_res vperm (do_join d l) (do_join d' l').
Proof.
  intros Hd Hl. destruct Hd as [ | | | s | | | | ]; try exact I.
  destruct Hl as [ | | | | | | ls ls' HF | ]; try exact I. unfold do_join.
  pose proof (as_strs_vperm _ _ HF) as Hs.
  destruct (as_strs ls), (as_strs ls'); simpl in Hs |- *; try contradiction; [subst; constructor | exact I].
Qed.
Lemma do_split_vperm d d' s s' : vperm d d' -> vperm s s' -> rel_res vperm (do_split d s) (do_split d' s').
Proof. intros Hd Hs. destruct Hd; try exact I; destruct Hs; try exact I; apply rel_res_vperm_refl. Qed.
Lemma do_select_vperm i i' l l' : vperm i i' -> vperm l l' -> rel_res vperm (do_select i l) (do_select i' l').
Proof.
  intros Hi Hl. destruct Hi as [ | | | s | | | | ]; try exact I.
  destruct Hl as [ | | | | | | ls ls' HF | ]; try exact I. unfold do_select.
  destruct (parse_int s) as [z|]; [|exact I]. rewrite <- (Forall2_length _ _ _ HF).
  destruct ((z <? 0)%Z || (Z.of_nat (length ls) <=? z)%Z); [apply vperm_refl|].
  pose proof (F2_nth _ _ _ HF (Z.to_nat z)) as Hn.
  destruct (nth_error ls (Z.to_nat z)), (nth_error ls' (Z.to_nat z)); try contradiction; [exact Hn | apply vperm_refl].
Qed.
Lemma do_base64_vperm b b' : vperm b b' -> rel_res vperm (do_base64 b) (do_base64 b').
Proof. intros H. destruct H; try exact I. simpl. constructor. Qed.

(* Fn::FindInMap: the two keys are read through [lookup_bk] (Resolve.v, repair of F31).
   The exact lookup is order-blind as soon as keys are unique.  The case-blind fallback (key text "true" / "false" absent as
   written: the FIRST entry, in dictionary order, whose key lower-cases to it) is NOT: with {"True": a, "TRUE": b} the key
   "true" finds a, with {"TRUE": b, "True": a} it finds b (example [C07_ex_boolean_spellings_excluded] in Properties/C07.v;
   the library's `_mapping_get` does the same).  So every theorem below that reaches Fn::FindInMap has the hypothesis
   [maps_bk_unique], the minimal one: in each level of each mapping (the top-level keys, and the second-level keys
   under each of them) no two keys are spellings of the same boolean.  Nothing is asked of parameter
   values, of the expression, or of the leaves of the mappings. *)
Definition bool_keys (d : list (str * value)) : list str := map lower (filter is_boolish (keys d)).
Definition bk_uniqueb (d : list (str * value)) : bool := nodupb (bool_keys d).
Definition map_bk_uniqueb (v : value) : bool :=
  match v with
  | VDict top => bk_uniqueb top && forallb (fun kv => match snd kv with VDict sec => bk_uniqueb sec | _ => true end) top
  | _ => true
  end.
Definition maps_bk_unique (maps : list (str * value)) : Prop := forall m x, lookup m maps = Some x -> map_bk_uniqueb x = true.

(* computable sufficient test (used by the examples) *)
Lemma maps_bk_unique_forallb maps : forallb (fun kv => map_bk_uniqueb (snd kv)) maps = true -> maps_bk_unique maps.
Proof.
  intros H m x Hl. rewrite forallb_forall in H. exact (H (m, x) (lookup_In _ _ _ Hl)).
Qed.
Lemma is_boolish_lower s : is_boolish s = is_bool_text (lower s).
Proof. reflexivity. Qed.
Lemma bool_keys_perm d d' : Permutation d d' -> Permutation (bool_keys d) (bool_keys d').
Proof. intros HP. unfold bool_keys. apply Permutation_map. apply Permutation_filter. apply (Permutation_map fst). exact HP. Qed.
Lemma bool_keys_cons k x d : bool_keys ((k, x) :: d) = if is_boolish k then lower k :: bool_keys d else bool_keys d.
Proof. unfold bool_keys. simpl. destruct (is_boolish k); reflexivity. Qed.
Lemma bool_keys_tail k x d : NoDup (bool_keys ((k, x) :: d)) -> NoDup (bool_keys d).
Proof. rewrite bool_keys_cons. destruct (is_boolish k); [intros H; inv H; assumption | auto]. Qed.

Lemma lookup_ci_erel k d d' : Forall2 (erel vperm) d d' -> orel vperm (lookup_ci k d) (lookup_ci k d').
Proof.
  induction 1 as [|[k0 x] [k0' y] d d' [Hk Hxy] HF IH]; simpl; [exact I|]. simpl in Hk, Hxy. subst k0'.
  destruct (str_eqb (lower k0) k); [exact Hxy | exact IH].
Qed.
(* the first spelling found does not depend on the order when there is at most one spelling *)
Lemma lookup_ci_perm k (d d' : list (str * value)) : Permutation d d' -> is_bool_text k = true -> NoDup (bool_keys d) ->
  lookup_ci k d = lookup_ci k d'.
Proof.
  intros HP Hk. induction HP as [|[k0 x] d d' HP IH|[k1 x1] [k2 x2] d|d d' d'' HP1 IH1 HP2 IH2]; intros Hnd.
  - reflexivity.
  - simpl. rewrite (IH (bool_keys_tail _ _ _ Hnd)). reflexivity.
  - simpl. destruct (str_eqb (lower k1) k) eqn:E1, (str_eqb (lower k2) k) eqn:E2; try reflexivity.
    apply str_eqb_spec in E1, E2. exfalso. rewrite !bool_keys_cons, !is_boolish_lower, E1, E2, Hk in Hnd.
    inv Hnd. apply H1. left. reflexivity.
  - rewrite (IH1 Hnd). apply IH2. eapply Permutation_NoDup; [apply bool_keys_perm; exact HP1 | exact Hnd].
Qed.
Lemma vperm_lookup_bk d d' : vperm (VDict d) (VDict d') -> NoDup (keys d) -> bk_uniqueb d = true ->
  forall k, orel vperm (lookup_bk k d) (lookup_bk k d').
Proof.
  intros H Hnd Hbk q. destruct (vperm_dict_inv _ _ H) as (d1 & d2 & Heq & HF & HP). inv Heq.
  apply nodupb_spec in Hbk.
  assert (Hnd1 : NoDup (keys d1)) by (rewrite <- (erel_keys _ _ _ HF); exact Hnd).
  assert (Hbk1 : NoDup (bool_keys d1)) by (unfold bool_keys; rewrite <- (erel_keys _ _ _ HF); exact Hbk).
  assert (E : lookup_bk q d2 = lookup_bk q d1).
  { unfold lookup_bk. rewrite <- (lookup_Permutation q d1 d2 Hnd1 HP). destruct (lookup q d1); [reflexivity|].
    destruct (is_bool_text q) eqn:B; [|reflexivity]. symmetry. apply lookup_ci_perm; assumption. }
  rewrite E. unfold lookup_bk. pose proof (erel_lookup _ _ HF q) as Hl.
  destruct (lookup q d) as [x|], (lookup q d1) as [x1|]; simpl in Hl; try contradiction; [exact Hl|].
  destruct (is_bool_text q); [apply lookup_ci_erel; exact HF | exact I].
Qed.
Lemma nodup_lookup_bk d k x : nodup_keys (VDict d) -> lookup_bk k d = Some x -> nodup_keys x.
Proof. intros H Hl. destruct (lookup_bk_In k d x Hl) as (k' & Hin & _). eapply nodup_in_dict; [exact H | exact Hin]. Qed.
Lemma bk_unique_lookup_bk top k sec : map_bk_uniqueb (VDict top) = true -> lookup_bk k top = Some (VDict sec) ->
  bk_uniqueb sec = true.
Proof.
  intros H Hl. destruct (lookup_bk_In k top _ Hl) as (k' & Hin & _). simpl in H. apply andb_true_iff in H. destruct H as [_ H].
  rewrite forallb_forall in H. exact (H _ Hin).
Qed.

Lemma do_find_in_map_vperm e e' m m' k1 k1' k2 k2' : eperm e e' -> env_nodup e -> maps_bk_unique (mappings e) ->
  vperm m m' -> vperm k1 k1' -> vperm k2 k2' ->
  rel_res vperm (do_find_in_map e m k1 k2) (do_find_in_map e' m' k1' k2').
Proof.
  intros (_ & Hm & _) (_ & Hnm) Hbm H1 H2 H3.
  destruct H1 as [ | | | ms | | | | ]; try exact I.
  destruct H2 as [ | | | s1 | | | | ]; try exact I.
  destruct H3 as [ | | | s2 | | | | ]; try exact I.
  unfold do_find_in_map.
  pose proof (Hm ms) as Hl. pose proof (Hnm ms) as Hn. pose proof (Hbm ms) as Hb.
  destruct (lookup ms (mappings e)) as [x|], (lookup ms (mappings e')) as [x'|]; simpl in Hl; try contradiction;
    [|simpl; constructor].
  specialize (Hn x eq_refl). specialize (Hb x eq_refl).
  destruct Hl as [ | | | | | | | top top1 top' HF HP]; try exact I.
  pose proof Hb as Hb0. simpl in Hb0. apply andb_true_iff in Hb0. destruct Hb0 as [Hbt _].
  pose proof (vperm_lookup_bk _ _ (vp_dict _ _ _ HF HP) (nodup_dict_keys _ Hn) Hbt s1) as Hl1.
  pose proof (nodup_lookup_bk top s1) as Hn1. pose proof (bk_unique_lookup_bk top s1) as Hb1.
  destruct (lookup_bk s1 top) as [y|], (lookup_bk s1 top') as [y'|]; simpl in Hl1; try contradiction; [|simpl; constructor].
  specialize (Hn1 y Hn eq_refl).
  destruct Hl1 as [ | | | | | | | sec sec1 sec' HF2 HP2]; try exact I.
  specialize (Hb1 sec Hb eq_refl).
  pose proof (vperm_lookup_bk _ _ (vp_dict _ _ _ HF2 HP2) (nodup_dict_keys _ Hn1) Hb1 s2) as Hl2.
  destruct (lookup_bk s2 sec) as [z|], (lookup_bk s2 sec') as [z'|]; simpl in Hl2; try contradiction; [|simpl; constructor].
  pose proof Hl2 as Hz. destruct Hl2; simpl; try exact Hz. constructor.
Qed.

(* Fn::Sub: the variable map is read through lookups only *)
Lemma norm_str_rel ps ps' x x' : lookups_perm ps ps' -> vperm x x' ->
  rel_res eq (x1 <- normalize ps x ;; match x1 with VStr s => Ok s | _ => Err EUndefined end)
             (x1 <- normalize ps' x' ;; match x1 with VStr s => Ok s | _ => Err EUndefined end).
Proof.
  intros Hp H. eapply rel_bind; [apply normalize_vperm; eassumption|].
  intros a b _ _ Hab. destruct Hab; simpl; auto.
Qed.
Lemma render_var_vperm e e' custom custom' name : eperm e e' -> lookups_perm custom custom' ->
  rel_res eq (render_var e custom name) (render_var e' custom' name).
Proof.
  intros (Hp & _ & _) Hc. unfold render_var.
  pose proof (Hc name) as Hl. destruct (lookup name custom) as [x|], (lookup name custom') as [x'|]; simpl in Hl; try contradiction.
  - apply norm_str_rel; assumption.
  - pose proof (Hp name) as Hl2.
    destruct (lookup name (params e)) as [x|], (lookup name (params e')) as [x'|]; simpl in Hl2; try contradiction.
    + apply norm_str_rel; assumption.
    + reflexivity.
Qed.
Lemma render_toks_vperm e e' custom custom' ts : eperm e e' -> lookups_perm custom custom' ->
  rel_res eq (render_toks e custom ts) (render_toks e' custom' ts).
Proof.
  intros He Hc. induction ts as [|t ts IH]; [reflexivity|]. simpl.
  eapply rel_bind with (R := eq).
  - destruct t; simpl; try reflexivity. apply render_var_vperm; assumption.
  - intros a b _ _ ->. eapply rel_bind; [exact IH|]. intros a0 b0 _ _ ->. reflexivity.
Qed.
Lemma do_sub_vperm e e' text custom custom' : eperm e e' -> lookups_perm custom custom' ->
  rel_res vperm (do_sub e text custom) (do_sub e' text custom').
Proof.
  intros He Hc. unfold do_sub. eapply rel_bind; [apply render_toks_vperm; assumption|].
  intros a b _ _ ->. simpl. constructor.
Qed.

(* resolution does not create duplicate keys *)
Lemma nodup_single k b : nodup_keys (VDict [(k, b)]) -> nodup_keys b.
Proof. intros H. eapply nodup_in_dict; [exact H | left; reflexivity]. Qed.
Lemma nodup_arg k l x : nodup_keys (VDict [(k, VList l)]) -> In x l -> nodup_keys x.
Proof. intros H. apply nodup_in_list, (nodup_single k), H. Qed.

(* the two loops keep the property when the member function does *)
Definition NodupAt (f : value -> res value) (x : value) : Prop := nodup_keys x -> forall r, f x = Ok r -> nodup_keys r.
Lemma mlist_nodup f l l' : Forall (NodupAt f) l -> nodup_keys (VList l) -> mlist f l = Ok l' -> nodup_keys (VList l').
Proof. intros IH Hn E. apply nodup_list_iff. apply nodup_list_iff in Hn. exact (mlist_Forall nodup_keys nodup_keys f l l' IH Hn E). Qed.
Lemma mdict_nodup f d d' : Forall (fun kv => NodupAt f (snd kv)) d -> nodup_keys (VDict d) -> mdict f d = Ok d' ->
  nodup_keys (VDict d').
Proof.
  intros IH Hn E. apply nodup_dict_iff in Hn. destruct Hn as [Hk Hv]. apply nodup_dict_iff. split.
  - eapply mdict_keys_nodup; [exact E | exact Hk].
  - exact (mdict_Forall nodup_keys nodup_keys f d d' IH Hv E).
Qed.

Lemma normalize_nodup ps x : nodup_keys x -> forall r, normalize ps x = Ok r -> nodup_keys r.
Proof.
  induction x as [| | | | | | l IH | d IH] using value_ind'; intros Hn r H; try (simpl in H; inv H; reflexivity).
  - rewrite normalize_list in H. bind_inv. inv H. exact (mlist_nodup _ l a IH Hn E).
  - rewrite normalize_dict in H. destruct (is_fn_dict d); [discriminate|]. bind_inv. inv H. exact (mdict_nodup _ d a IH Hn E).
Qed.
Lemma do_ref_nodup e b r : env_nodup e -> do_ref e b = Ok r -> nodup_keys r.
Proof.
  intros (Hnp & _) H. destruct b; try discriminate. unfold do_ref in H.
  destruct (lookup s (params e)) as [x|] eqn:El; [|inv H; reflexivity].
  eapply normalize_nodup; [exact (Hnp s x El) | exact H].
Qed.
Lemma do_join_nodup d l r : do_join d l = Ok r -> nodup_keys r.
Proof. destruct d; try discriminate. destruct l; try discriminate. unfold do_join. intros H. bind_inv. inv H. reflexivity. Qed.
Lemma do_split_nodup d s r : do_split d s = Ok r -> nodup_keys r.
Proof.
  destruct d as [| | | ds | | | |]; try discriminate. destruct s as [| | | ss | | | |]; try (destruct ds; discriminate).
  unfold do_split. intros H. assert (Hr : r = VList (map VStr (split ds ss))) by (destruct ds; [discriminate | inv H; reflexivity]).
  subst r. apply nodup_list_iff. apply Forall_forall. intros x Hx. apply in_map_iff in Hx. destruct Hx as (t & <- & _). reflexivity.
Qed.
Lemma do_select_nodup i l r : nodup_keys l -> do_select i l = Ok r -> nodup_keys r.
Proof.
  intros Hn. destruct i; try discriminate. destruct l as [| | | | | | ls |]; try discriminate. unfold do_select.
  destruct (parse_int s) as [z|]; [|discriminate].
  destruct ((z <? 0)%Z || (Z.of_nat (length ls) <=? z)%Z); [intros H; inv H; reflexivity|].
  destruct (nth_error ls (Z.to_nat z)) as [x|] eqn:En; intros H; inv H; [|reflexivity].
  eapply nodup_in_list; [exact Hn | eapply nth_error_In; exact En].
Qed.
Lemma do_find_in_map_nodup e m k1 k2 r : env_nodup e -> do_find_in_map e m k1 k2 = Ok r -> nodup_keys r.
Proof.
  intros (_ & Hnm). destruct m as [| | | ms | | | |]; try discriminate. destruct k1 as [| | | s1 | | | |]; try discriminate.
  destruct k2 as [| | | s2 | | | |]; try discriminate. unfold do_find_in_map.
  destruct (lookup ms (mappings e)) as [x|] eqn:E1; [|intros H; inv H; reflexivity].
  pose proof (Hnm ms x E1) as Hn. destruct x as [| | | | | | | top]; try discriminate.
  destruct (lookup_bk s1 top) as [y|] eqn:E2; [|intros H; inv H; reflexivity].
  pose proof (nodup_lookup_bk _ _ _ Hn E2) as Hn2. destruct y as [| | | | | | | sec]; try discriminate.
  destruct (lookup_bk s2 sec) as [z|] eqn:E3; [|intros H; inv H; reflexivity].
  pose proof (nodup_lookup_bk _ _ _ Hn2 E3) as Hn3. destruct z; intros H; inv H; try reflexivity; exact Hn3.
Qed.
Lemma do_sub_nodup e text custom r : do_sub e text custom = Ok r -> nodup_keys r.
Proof. unfold do_sub. intros H. bind_inv. inv H. reflexivity. Qed.
Lemma do_base64_nodup b r : do_base64 b = Ok r -> nodup_keys r.
Proof. destruct b; try discriminate. intros H. inv H. reflexivity. Qed.

Theorem resolve_nodup e v r : env_nodup e -> nodup_keys v -> resolve e v = Ok r -> nodup_keys r.
Proof.
  intros He Hn. revert r. revert v Hn. apply (resolve_ind (fun v => nodup_keys v -> forall r, resolve e v = Ok r -> nodup_keys r)).
  - intros [] Hv _ r H; try contradiction; inv H; reflexivity.
  - intros l IH Hn r H. rewrite resolve_list, rlist_mlist in H. bind_inv. inv H. exact (mlist_nodup _ l a IH Hn E).
  - intros d Hf IH Hn r H. rewrite resolve_dict_generic, rdict_mdict in H by assumption. bind_inv. inv H.
    exact (mdict_nodup _ d a IH Hn E).
  - intros k body Hk _ _ r H. rewrite resolve_ref_import in H by assumption. bind_inv. exact (do_ref_nodup e a r He H).
  - intros dl l _ _ _ r H. rewrite resolve_join in H. bind_inv. exact (do_join_nodup a a0 r H).
  - intros dl s _ _ _ r H. rewrite resolve_split in H. bind_inv. exact (do_split_nodup a a0 r H).
  - intros i l _ IH Hn r H. rewrite resolve_select in H. bind_inv. apply (do_select_nodup a a0 r); [|exact H].
    apply IH; [apply (nodup_arg _ _ _ Hn); simpl; tauto | reflexivity].
  - intros m k1 k2 _ _ _ _ r H. rewrite resolve_find_in_map in H. bind_inv. exact (do_find_in_map_nodup e a a0 a1 r He H).
  - intros text _ r H. exact (do_sub_nodup e text [] r H).
  - intros text vars _ _ _ r H. rewrite resolve_sub_vars in H. bind_inv. destruct a; try discriminate. exact (do_sub_nodup e text d r H).
  - intros body _ _ r H. rewrite resolve_base64 in H. bind_inv. exact (do_base64_nodup a r H).
  - intros body _ r H. inv H. reflexivity.
  - intros body _ r H. inv H. reflexivity.
  - intros name _ r H. rewrite resolve_condition in H. bind_inv. inv H. reflexivity.
  - intros c t f IH1 IH2 Hn r H. rewrite resolve_if in H. bind_inv.
    destruct a; [apply IH1 | apply IH2]; try exact H; apply (nodup_arg _ _ _ Hn); simpl; tauto.
  - intros parts _ _ r H. rewrite resolve_and in H. bind_inv. inv H. reflexivity.
  - intros parts _ _ r H. rewrite resolve_or in H. bind_inv. inv H. reflexivity.
  - intros x rest _ _ r H. rewrite resolve_not in H. bind_inv. inv H. reflexivity.
  - intros a b _ _ _ r H. rewrite resolve_equals in H. bind_inv. inv H. reflexivity.
  - intros k body er Hi _ r H. rewrite (resolve_ill e k body er Hi) in H. discriminate.
Qed.

(* inverts every [Forall2] hypothesis whose left list is a literal cons or nil *)
Ltac f2inv :=
  repeat match goal with
  | H : Forall2 _ (_ :: _) _ |- _ => inv H
  | H : Forall2 _ [] _ |- _ => inv H
  end.

(* a function object has one entry, hence one order: the other side is the same call on related arguments *)
Lemma vperm_call k l w : vperm (VDict [(k, VList l)]) w -> exists l', w = VDict [(k, VList l')] /\ Forall2 vperm l l'.
Proof.
  intros H. destruct (vperm_single _ _ _ H) as (y & -> & Hy). destruct (vperm_list_inv _ _ Hy) as (l' & -> & HF). eauto.
Qed.
Lemma vperm_not_list a b : vperm a b -> not_list a -> not_list b.
Proof. destruct 1; exact (fun H => H). Qed.
Lemma vperm_not_str a b : vperm a b -> not_str a -> not_str b.
Proof. destruct 1; exact (fun H => H). Qed.
Lemma vperm_ill k body body' er : vperm body body' -> ill_call k body er -> ill_call k body' er.
Proof.
  intros Hb H. destruct H as [k body Hk Hn | k l Hk Hl | k l Hk Hl | body Hn Hs | l Hl | t vars Ht | body Hs | c t f Hc | ].
  - apply ill_not_list; [exact Hk | exact (vperm_not_list _ _ Hb Hn)].
  - destruct (vperm_list_inv _ _ Hb) as (l' & -> & HF). apply ill_arity2; [exact Hk|]. rewrite <- (Forall2_length _ _ _ HF). exact Hl.
  - destruct (vperm_list_inv _ _ Hb) as (l' & -> & HF). apply ill_arity3; [exact Hk|]. rewrite <- (Forall2_length _ _ _ HF). exact Hl.
  - apply ill_sub; [exact (vperm_not_list _ _ Hb Hn) | exact (vperm_not_str _ _ Hb Hs)].
  - destruct (vperm_list_inv _ _ Hb) as (l' & -> & HF). apply ill_sub_arity. rewrite <- (Forall2_length _ _ _ HF). exact Hl.
  - destruct (vperm_list_inv _ _ Hb) as (l' & -> & HF). f2inv. apply ill_sub_text. eapply vperm_not_str; eassumption.
  - apply ill_condition. exact (vperm_not_str _ _ Hb Hs).
  - destruct (vperm_list_inv _ _ Hb) as (l' & -> & HF). f2inv. apply ill_if_name. eapply vperm_not_str; eassumption.
  - destruct (vperm_list_inv _ _ Hb) as (l' & -> & HF). f2inv. apply ill_not_nil.
Qed.

Section Vperm.
Variables e e' : env.
Hypothesis He : eperm e e'.
Hypothesis Hne : env_nodup e.
Hypothesis Hbk : maps_bk_unique (mappings e).
Definition PermAt (v : value) : Prop := forall w, vperm v w -> nodup_keys v -> rel_res vperm (resolve e v) (resolve e' w).

(* the functions of two arguments: resolve both, then an operation that does not see the order (the second result has
   no duplicate keys: Fn::Equals needs that) *)
Lemma call2_vperm k (op : value -> value -> res value) :
  (forall e0 x y, resolve e0 (VDict [(k, VList [x; y])]) = (a <- resolve e0 x ;; b <- resolve e0 y ;; op a b)) ->
  (forall a a' b b', vperm a a' -> vperm b b' -> nodup_keys b -> rel_res vperm (op a b) (op a' b')) ->
  forall x y, PermAt x -> PermAt y -> PermAt (VDict [(k, VList [x; y])]).
Proof.
  intros Eq Hop x y IH1 IH2 w Hvw Hnv. destruct (vperm_call _ _ _ Hvw) as (l' & -> & HF). f2inv. rewrite !Eq.
  assert (Hny : nodup_keys y) by (apply (nodup_arg _ _ _ Hnv); simpl; tauto).
  eapply rel_bind; [apply IH1; [assumption | apply (nodup_arg _ _ _ Hnv); simpl; tauto]|]. intros r1 r1' _ _ Hr1.
  eapply rel_bind; [apply IH2; assumption|]. intros r2 r2' E2 _ Hr2.
  apply Hop; [exact Hr1 | exact Hr2 | exact (resolve_nodup e y r2 Hne Hny E2)].
Qed.

Lemma junction_vperm (stop : bool) parts : Forall PermAt parts -> PermAt (VDict [(if stop then K_Or else K_And, VList parts)]).
Proof.
  intros IH w Hvw Hnv. destruct (vperm_call _ _ _ Hvw) as (parts' & -> & HF). rewrite !resolve_junction_sc.
  eapply rel_bind with (R := eq); [apply sc_map_rel | intros a b _ _ ->; simpl; constructor].
  revert HF. apply Forall2_impl_In. intros x y Hx _ Hxy. rewrite Forall_forall in IH.
  eapply rel_bind; [apply (IH x Hx); [exact Hxy | exact (nodup_arg _ _ _ Hnv Hx)]|].
  intros a b _ _ Hab. rewrite (vperm_ext_bool _ _ Hab). apply rel_res_eq_refl.
Qed.

Theorem resolve_vperm_at : forall v, PermAt v.
Proof.
  pose proof He as (Hp & Hm & Hc). apply (resolve_ind PermAt); unfold PermAt.
  - intros [] Hv w Hvw _; try contradiction; inv Hvw; simpl; rewrite ?(render_str_perm _ _ _ Hp); constructor.
  - intros l IH w Hvw Hnv. destruct (vperm_list_inv _ _ Hvw) as (l' & -> & HF). rewrite !resolve_list, !rlist_mlist.
    eapply rel_bind; [apply mlist_rel | intros a b _ _ Hab; simpl; constructor; exact Hab].
    revert HF. apply Forall2_impl_In. intros x y Hx _ Hxy. rewrite Forall_forall in IH.
    apply (IH x Hx); [exact Hxy | exact (nodup_in_list l x Hnv Hx)].
  - intros d Hf IH w Hvw Hnv. destruct (vperm_dict_inv _ _ Hvw) as (d1 & d2 & -> & HF & HP).
    rewrite !resolve_dict_generic; [| rewrite <- (vperm_is_fn_dict _ _ Hvw); exact Hf | exact Hf].
    rewrite !rdict_mdict. apply dict_generic_rel with (d1 := d1); [|exact HP]. revert HF. apply Forall2_impl_In.
    intros [k x] [k' y] Hx _ [Hk Hxy]. simpl in Hk, Hxy |- *. split; [exact Hk|]. rewrite Forall_forall in IH.
    apply (IH (k, x) Hx); [exact Hxy | exact (nodup_in_dict d k x Hnv Hx)].
  - intros k body Hk IH w Hvw Hnv. destruct (vperm_single _ _ _ Hvw) as (body' & -> & Hb).
    rewrite !resolve_ref_import by assumption. eapply rel_bind; [apply IH; [exact Hb | exact (nodup_single _ _ Hnv)]|].
    intros a b _ _ Hab. apply do_ref_vperm; assumption.
  - exact (call2_vperm K_Join do_join resolve_join (fun a a' b b' Ha Hb _ => do_join_vperm a a' b b' Ha Hb)).
  - exact (call2_vperm K_Split do_split resolve_split (fun a a' b b' Ha Hb _ => do_split_vperm a a' b b' Ha Hb)).
  - exact (call2_vperm K_Select do_select resolve_select (fun a a' b b' Ha Hb _ => do_select_vperm a a' b b' Ha Hb)).
  - intros m k1 k2 IH1 IH2 IH3 w Hvw Hnv. destruct (vperm_call _ _ _ Hvw) as (l' & -> & HF). f2inv. rewrite !resolve_find_in_map.
    eapply rel_bind; [apply IH1; [assumption | apply (nodup_arg _ _ _ Hnv); simpl; tauto]|]. intros r1 r1' _ _ Hr1.
    eapply rel_bind; [apply IH2; [assumption | apply (nodup_arg _ _ _ Hnv); simpl; tauto]|]. intros r2 r2' _ _ Hr2.
    eapply rel_bind; [apply IH3; [assumption | apply (nodup_arg _ _ _ Hnv); simpl; tauto]|]. intros r3 r3' _ _ Hr3.
    apply do_find_in_map_vperm; assumption.
  - intros text w Hvw _. destruct (vperm_single _ _ _ Hvw) as (body' & -> & Hb). inv Hb.
    rewrite !resolve_sub_text. apply do_sub_vperm; [exact He | apply lookups_perm_refl].
  - intros text vars IH _ w Hvw Hnv. destruct (vperm_call _ _ _ Hvw) as (l' & -> & HF). f2inv.
    match goal with H : vperm (VStr text) _ |- _ => inv H end.
    assert (Hnvars : nodup_keys vars) by (apply (nodup_arg _ _ _ Hnv); simpl; tauto).
    rewrite !resolve_sub_vars. eapply rel_bind; [apply IH; assumption|]. intros cv cv' Ecv _ Hcv.
    pose proof (resolve_nodup e vars cv Hne Hnvars Ecv) as Hncv.
    destruct Hcv as [ | | | | | | | custom c1 custom' HFc HPc]; try exact I.
    apply do_sub_vperm; [exact He|].
    apply vperm_lookup; [exact (vp_dict _ _ _ HFc HPc) | apply nodup_dict_keys; exact Hncv].
  - intros body IH w Hvw Hnv. destruct (vperm_single _ _ _ Hvw) as (body' & -> & Hb). rewrite !resolve_base64.
    eapply rel_bind; [apply IH; [exact Hb | exact (nodup_single _ _ Hnv)]|]. intros a b _ _ Hab. apply do_base64_vperm; assumption.
  - intros body w Hvw _. destruct (vperm_single _ _ _ Hvw) as (body' & -> & _). simpl. constructor.
  - intros body w Hvw _. destruct (vperm_single _ _ _ Hvw) as (body' & -> & _). simpl. constructor.
  - intros name w Hvw _. destruct (vperm_single _ _ _ Hvw) as (body' & -> & Hb). inv Hb.
    rewrite !resolve_condition. eapply rel_bind; [apply Hc|]. intros a b _ _ ->. simpl. constructor.
  - intros c t f IH1 IH2 w Hvw Hnv. destruct (vperm_call _ _ _ Hvw) as (l' & -> & HF). f2inv.
    match goal with H : vperm (VStr c) _ |- _ => inv H end.
    rewrite !resolve_if. eapply rel_bind; [apply Hc|]. intros b b' _ _ ->.
    destruct b'; [apply IH1 | apply IH2]; try assumption; apply (nodup_arg _ _ _ Hnv); simpl; tauto.
  - exact (junction_vperm false).
  - exact (junction_vperm true).
  - intros x rest IH w Hvw Hnv. destruct (vperm_call _ _ _ Hvw) as (l' & -> & HF). inv HF. rewrite !resolve_not.
    eapply rel_bind; [apply IH; [assumption | apply (nodup_arg _ _ _ Hnv); left; reflexivity]|].
    intros r r' _ _ Hr. rewrite (vperm_ext_bool _ _ Hr). apply rel_res_vperm_refl.
  - apply (call2_vperm K_Equals (fun x y => r <- py_eq x y ;; Ok (VBool r)) resolve_equals).
    intros r1 r1' r2 r2' Hr1 Hr2 Hn2. rewrite (py_eq_vperm _ _ _ _ Hr1 Hr2 Hn2). apply rel_res_vperm_refl.
  - intros k body er H w Hvw _. destruct (vperm_single _ _ _ Hvw) as (body' & -> & Hb).
    rewrite (resolve_ill e k body er H), (resolve_ill e' k body' er (vperm_ill _ _ _ _ Hb H)). exact I.
Qed.
End Vperm.

(* the order of keys inside any object, at any depth -- in the expression, in parameter values, in mappings -- does not
   matter for resolution *)
Theorem resolve_vperm_env e e' v w : eperm e e' -> env_nodup e -> maps_bk_unique (mappings e) -> vperm v w -> nodup_keys v ->
  rel_res vperm (resolve e v) (resolve e' w).
Proof. intros He Hne Hbk. apply (resolve_vperm_at e e' He Hne Hbk). Qed.
(* a result without objects (a string, a list of strings, ...) is the same result *)
Fixpoint no_dict (v : value) : bool :=
  match v with VDict _ => false | VList l => forallb no_dict l | _ => true end.
Lemma vperm_no_dict v w : vperm v w -> no_dict v = true -> v = w.
Proof.
  revert v w. apply (vperm_ind' (fun v w => no_dict v = true -> v = w)).
  - reflexivity.
  - intros l l' _ IH Hd. f_equal. simpl in Hd. rewrite forallb_forall in Hd.
    induction IH as [|x y l l' Hxy _ IHl]; [reflexivity|].
    rewrite (Hxy (Hd x (or_introl eq_refl))), IHl; [reflexivity|]. intros z Hz. apply Hd. right. exact Hz.
  - discriminate.
Qed.

(* template level: resources, gate, conditions *)
(* the gate (the resource's Condition attribute) is read by lookup *)
Lemma gate_vperm resolved r w : vperm r w -> nodup_keys r -> gate resolved r = gate resolved w.
Proof.
  intros H Hn. destruct H as [ | | | | | | | d d1 d2 HF HP]; try reflexivity. unfold gate.
  pose proof (vperm_lookup _ _ (vp_dict _ _ _ HF HP) (nodup_dict_keys _ Hn) K_Condition) as Hl.
  destruct (lookup K_Condition d) as [x|], (lookup K_Condition d2) as [x'|]; simpl in Hl; try contradiction; [|reflexivity].
  destruct Hl; reflexivity.
Qed.

Lemma set_key_F2 k v d d1 : Forall2 (erel vperm) d d1 -> Forall2 (erel vperm) (set_key k v d) (set_key k v d1).
Proof.
  induction 1 as [|[k0 x] [k0' y] d d1 [Hk Hxy] HF IH]; simpl.
  - constructor; [split; [reflexivity | apply vperm_refl] | constructor].
  - simpl in Hk, Hxy. subst k0'. destruct (str_eqb k k0).
    + constructor; [split; [reflexivity | apply vperm_refl] | exact HF].
    + constructor; [split; [reflexivity | exact Hxy] | exact IH].
Qed.
Lemma set_key_perm k v d d' : Permutation d d' -> NoDup (keys d) -> Permutation (set_key k v d) (set_key k v d').
Proof.
  induction 1 as [|[k0 x] d d' HP IH|[k1 x1] [k2 x2] d|d d' d'' HP1 IH1 HP2 IH2]; intros Hnd.
  - apply Permutation_refl.
  - simpl. inv Hnd. destruct (str_eqb k k0); [constructor; exact HP | constructor; apply IH; assumption].
  - simpl. inv Hnd. destruct (str_eqb k k2) eqn:E2, (str_eqb k k1) eqn:E1; try apply perm_swap.
    apply str_eqb_spec in E1, E2. subst. exfalso. apply H1. left. reflexivity.
  - eapply Permutation_trans; [apply IH1; exact Hnd | apply IH2].
    exact (NoDup_keys_Permutation _ _ HP1 Hnd).
Qed.
Lemma set_key_vperm k v d d' : vperm (VDict d) (VDict d') -> NoDup (keys d) ->
  vperm (VDict (set_key k v d)) (VDict (set_key k v d')).
Proof.
  intros H Hnd. destruct (vperm_dict_inv _ _ H) as (d1 & d2 & Heq & HF & HP). inv Heq.
  apply vp_dict with (d' := set_key k v d1); [apply set_key_F2; exact HF|].
  apply set_key_perm; [exact HP|]. rewrite <- (erel_keys _ _ _ HF). exact Hnd.
Qed.
Lemma keep_key_vperm k d d2 q q2 : vperm (VDict d) (VDict d2) -> NoDup (keys d) -> vperm (VDict q) (VDict q2) -> NoDup (keys q) ->
  vperm (VDict (keep_key k d q)) (VDict (keep_key k d2 q2)).
Proof.
  intros Ho Hno Hr Hnr. unfold keep_key.
  pose proof (vperm_lookup _ _ Ho Hno k) as Hl.
  destruct (lookup k d) as [x|], (lookup k d2) as [x'|]; simpl in Hl; try contradiction; [|exact Hr].
  destruct Hl; try exact Hr. apply set_key_vperm; assumption.
Qed.
Lemma keep_type_vperm o o' r r' : vperm o o' -> nodup_keys o -> vperm r r' -> nodup_keys r ->
  vperm (keep_type o r) (keep_type o' r').
Proof.
  intros Ho Hno Hr Hnr. pose proof Hr as Hr0. pose proof Ho as Ho0.
  destruct Ho as [ | | | | | | | d d1 d2 HF HP]; try exact Hr.
  destruct Hr as [ | | | | | | | q q1 q2 HFq HPq]; try exact Hr0. unfold keep_type.
  pose proof (nodup_dict_keys _ Hno) as Hnd. pose proof (nodup_dict_keys _ Hnr) as Hnq.
  apply keep_key_vperm; [exact Ho0 | exact Hnd | | apply keep_key_nodup; exact Hnq].
  apply keep_key_vperm; assumption.
Qed.

(* permuting the keys inside a resource's definition: same gate, and the resolved resource is the same up to key order *)
Theorem resolve_resource_vperm e e' r w : eperm e e' -> env_nodup e -> maps_bk_unique (mappings e) -> vperm r w -> nodup_keys r ->
  rel_res vperm (resolve_resource e r) (resolve_resource e' w).
Proof.
  intros He Hne Hbk Hrw Hn. unfold resolve_resource.
  eapply rel_bind; [apply resolve_vperm_env; eassumption|].
  intros a b Ea _ Hab. simpl. apply keep_type_vperm; try assumption. eapply resolve_nodup; eassumption.
Qed.

(* the whole Resources section: keys permuted inside each resource *)
Lemma resolve_resources_F2 e e' resolved rs rs' : eperm e e' -> env_nodup e -> maps_bk_unique (mappings e) ->
  Forall2 (erel vperm) rs rs' -> Forall (fun kv => nodup_keys (snd kv)) rs ->
  rel_res (Forall2 (erel vperm)) (resolve_resources e resolved rs) (resolve_resources e' resolved rs').
Proof.
  intros He Hne Hbk HF. induction HF as [|[id r] [id' w] rs rs' [Hid Hrw] HF IH]; intros Hn; [constructor|].
  simpl in Hid, Hrw. subst id'. inv Hn. simpl in H1. specialize (IH H2). simpl.
  rewrite <- (gate_vperm resolved r w Hrw H1). destruct (gate resolved r) as [[|]|]; simpl; [|exact IH|exact I].
  eapply rel_bind; [apply resolve_resource_vperm; eassumption|]. intros a b _ _ Hab.
  eapply rel_bind; [exact IH|]. intros x y _ _ Hxy. simpl. constructor; [split; [reflexivity | exact Hab] | exact Hxy].
Qed.
(* the resources themselves reordered *)
Lemma resolve_resources_permutation e resolved rs rs' : Permutation rs rs' ->
  rel_res (@Permutation _) (resolve_resources e resolved rs) (resolve_resources e resolved rs').
Proof.
  apply (fold_perm _ (fun ir => keep <- gate resolved (snd ir) ;;
                                if keep : bool then r' <- resolve_resource e (snd ir) ;; Ok [(fst ir, r')] else Ok [])); [reflexivity|].
  intros [id r] l. simpl. destruct (gate resolved r) as [[|]|]; simpl; try reflexivity.
  - destruct (resolve_resource e r); simpl; [|reflexivity]. destruct (resolve_resources e resolved l); reflexivity.
  - destruct (resolve_resources e resolved l); reflexivity.
Qed.

(* conditions: the keys inside the declared condition expressions (and inside parameter values and mappings) may be permuted *)
Theorem cond_val_vperm ps ps' maps maps' decl decl' :
  lookups_perm ps ps' -> lookups_perm maps maps' -> lookups_perm decl decl' ->
  (forall k x, lookup k ps = Some x -> nodup_keys x) -> (forall k x, lookup k maps = Some x -> nodup_keys x) ->
  maps_bk_unique maps ->
  (forall k x, lookup k decl = Some x -> nodup_keys x) ->
  forall fuel rem rem' n, same_members rem rem' ->
    rel_res eq (cond_val ps maps decl fuel rem n) (cond_val ps' maps' decl' fuel rem' n).
Proof.
  intros Hp Hm Hd Hnp Hnm Hbk Hnd. induction fuel as [|f IH]; intros rem rem' n Hr; [exact I|].
  simpl. rewrite <- (Hr n). destruct (mem_str n rem); [|reflexivity].
  pose proof (Hd n) as Hl. pose proof (Hnd n) as Hnb.
  destruct (lookup n decl) as [body|], (lookup n decl') as [body'|]; simpl in Hl; try contradiction; [|reflexivity].
  eapply rel_bind.
  - apply resolve_vperm_env; [|split; assumption | exact Hbk | exact Hl | exact (Hnb body eq_refl)].
    repeat split; simpl; try assumption. intros m. apply IH. apply same_members_remove. exact Hr.
  - intros a b _ _ Hab. rewrite (vperm_ext_bool _ _ Hab). apply rel_res_eq_refl.
Qed.

(* a computable sufficient test for [vperm] (used by the examples) *)
Fixpoint extract (k : str) (d : list (str * value)) : option (value * list (str * value)) :=
  match d with
  | [] => None
  | (k', y) :: r =>
      if str_eqb k k' then Some (y, r)
      else match extract k r with Some (y', r') => Some (y', (k', y) :: r') | None => None end
  end.
Lemma extract_perm k d y r : extract k d = Some (y, r) -> Permutation ((k, y) :: r) d.
Proof.
  revert y r. induction d as [|[k' y'] d IH]; intros y r H; simpl in H; [discriminate|].
  destruct (str_eqb k k') eqn:E.
  - apply str_eqb_spec in E. subst k'. inv H. apply Permutation_refl.
  - destruct (extract k d) as [[y0 r0]|]; [|discriminate]. inv H.
    eapply Permutation_trans; [apply perm_swap|]. constructor. apply IH. reflexivity.
Qed.
(* a computable sufficient test for [vperm]; that [vpermb a b = true] gives [vperm a b] is Properties/C07.v, C07_vpermb_sound *)
Fixpoint vpermb (a b : value) {struct a} : bool :=
  match a, b with
  | VNull, VNull => true
  | VBool x, VBool y => Bool.eqb x y
  | VInt x, VInt y => Z.eqb x y
  | VStr x, VStr y => str_eqb x y
  | VTyped k x, VTyped k' y => tkind_eqb k k' && str_eqb x y
  | VBytes x, VBytes y => str_eqb x y
  | VList la, VList lb =>
      (fix go (la lb : list value) : bool :=
         match la, lb with
         | [], [] => true
         | x :: xs, y :: ys => vpermb x y && go xs ys
         | _, _ => false
         end) la lb
  | VDict da, VDict db =>
      (fix go (da db : list (str * value)) : bool :=
         match da with
         | [] => match db with [] => true | _ :: _ => false end
         | (k, x) :: xs =>
             match extract k db with
             | Some (y, rest) => vpermb x y && go xs rest
             | None => false
             end
         end) da db
  | _, _ => false
  end.
Lemma tkind_eqb_true a b : tkind_eqb a b = true -> a = b.
Proof. destruct a, b; simpl; congruence. Qed.

(* towards the whole model with keys permuted everywhere (Properties/C07.v): the list of condition values respects related
   declarations and a reordering of the names, and the resource gate reads it through lookups only *)
Lemma cond_all_rel ps maps maps' decl decl' names :
  (forall n, rel_res eq (cond_root ps maps decl n) (cond_root ps maps' decl' n)) ->
  rel_res eq (cond_all ps maps decl names) (cond_all ps maps' decl' names).
Proof.
  intros H. induction names as [|n names IH]; [reflexivity|]. simpl.
  eapply rel_bind; [apply H|]. intros a b _ _ ->. eapply rel_bind; [exact IH|]. intros x y _ _ ->. reflexivity.
Qed.
Lemma cond_all_perm ps maps decl names names' : Permutation names names' ->
  rel_res (@Permutation _) (cond_all ps maps decl names) (cond_all ps maps decl names').
Proof.
  apply (fold_perm _ (fun n => b <- cond_root ps maps decl n ;; Ok [(n, b)])); [reflexivity|].
  intros n l. simpl. destruct (cond_root ps maps decl n); simpl; [|reflexivity]. destruct (cond_all ps maps decl l); reflexivity.
Qed.
Lemma cond_all_keys ps maps decl names r : cond_all ps maps decl names = Ok r -> keys r = names.
Proof.
  revert r. induction names as [|n names IH]; intros r H; simpl in H; [inv H; reflexivity|].
  bind_inv. inv H. unfold keys in *. simpl. rewrite (IH a0 eq_refl). reflexivity.
Qed.
Lemma gate_same_lookups r1 r2 r : same_lookups r1 r2 -> gate r1 r = gate r2 r.
Proof.
  intros H. destruct r; try reflexivity. unfold gate. destruct (lookup K_Condition d) as [x|]; [|reflexivity].
  destruct x; try reflexivity. rewrite (H s). reflexivity.
Qed.
Lemma resolve_resources_gate_ext e r1 r2 rs : same_lookups r1 r2 -> resolve_resources e r1 rs = resolve_resources e r2 rs.
Proof.
  intros H. induction rs as [|[id r] rs IH]; [reflexivity|]. simpl. rewrite (gate_same_lookups r1 r2 r H), IH. reflexivity.
Qed.

