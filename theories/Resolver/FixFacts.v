(* C03: the predicates "no function object" and "rendered"; what each value function returns is function-free; pruning
   AWS::NoValue members cannot turn a safe object into a function object; a rendered, function-free value is a fixed point. *)
From Coq Require Import List Bool NArith ZArith Lia.
From PV Require Import Base.Str Base.Value Resolver.Consts Resolver.Text Resolver.Resolve Resolver.Spec.
Import ListNotations.
Local Open Scope N_scope.

(* what the pruning loops of [resolve] and [normalize] ([mlist], [mdict]: apply the member function, drop AWS::NoValue
   results) keep, and what they leave alone *)
Section Loops.
Variable f : value -> res value.

Lemma mlist_In l : forall l' y, mlist f l = Ok l' -> In y l' -> is_novalue y = false /\ exists x, In x l /\ f x = Ok y.
Proof.
  induction l as [|x l IH]; intros l' y H Hy; simpl in H.
  - inv H. destruct Hy.
  - bind_inv. inv H. destruct (is_novalue a) eqn:En; [|destruct Hy as [<-|Hy]].
    + destruct (IH _ y eq_refl Hy) as (Hn & x' & Hx' & Hf). eauto using in_cons.
    + eauto using in_eq.
    + destruct (IH _ y eq_refl Hy) as (Hn & x' & Hx' & Hf). eauto using in_cons.
Qed.
Lemma mdict_In d : forall d' k y, mdict f d = Ok d' -> In (k, y) d' ->
  is_novalue y = false /\ exists x, In (k, x) d /\ f x = Ok y.
Proof.
  induction d as [|[k0 x] d IH]; intros d' k y H Hy; simpl in H.
  - inv H. destruct Hy.
  - bind_inv. inv H. destruct (is_novalue a) eqn:En; [|destruct Hy as [Hy|Hy]].
    + destruct (IH _ k y eq_refl Hy) as (Hn & x' & Hx' & Hf). eauto using in_cons.
    + inv Hy. eauto using in_eq.
    + destruct (IH _ k y eq_refl Hy) as (Hn & x' & Hx' & Hf). eauto using in_cons.
Qed.

Lemma mdict_keeps d : forall d' k x y, mdict f d = Ok d' -> In (k, x) d -> f x = Ok y -> is_novalue y = false -> In (k, y) d'.
Proof.
  induction d as [|[k0 x0] d IH]; intros d' k x y H Hx Hy Hn; simpl in H; [destruct Hx|].
  bind_inv. inv H. destruct Hx as [Heq|Hx].
  - inv Heq. rewrite Hy in E. inv E. rewrite Hn. left. reflexivity.
  - specialize (IH _ k x y eq_refl Hx Hy Hn). destruct (is_novalue a); [exact IH | right; exact IH].
Qed.

Lemma mlist_fixed l : (forall x, In x l -> f x = Ok x /\ is_novalue x = false) -> mlist f l = Ok l.
Proof.
  induction l as [|x l IH]; intros H; [reflexivity|]. simpl.
  destruct (H x (in_eq _ _)) as [Hf Hn]. rewrite Hf, IH by auto using in_cons. simpl. rewrite Hn. reflexivity.
Qed.
Lemma mdict_fixed d : (forall k x, In (k, x) d -> f x = Ok x /\ is_novalue x = false) -> mdict f d = Ok d.
Proof.
  induction d as [|[k x] d IH]; intros H; [reflexivity|]. simpl.
  destruct (H k x (in_eq _ _)) as [Hf Hn]. rewrite Hf, IH by eauto using in_cons. simpl. rewrite Hn. reflexivity.
Qed.

Lemma mlist_texts (R : value -> str -> Prop) l ts :
  (forall v t, R v t -> f v = Ok (VStr t) /\ t <> S_NOVALUE) -> Forall2 R l ts -> mlist f l = Ok (map VStr ts).
Proof.
  intros HR. induction 1 as [|v t l ts Hvt _ IH]; [reflexivity|]. destruct (HR v t Hvt) as [Hv Hn].
  simpl. rewrite Hv, IH. simpl. apply str_eqb_neq in Hn. rewrite Hn. reflexivity.
Qed.
End Loops.

(* no function object (an object whose only key is a function name) anywhere *)
Fixpoint no_fn_dict (v : value) : bool :=
  match v with
  | VList l => forallb no_fn_dict l
  | VDict d => negb (is_fn_dict d) && forallb (fun kv => no_fn_dict (snd kv)) d
  | _ => true
  end.
(* no object at all: parameter values and mapping leaves are strings or lists of strings in CloudFormation *)
Fixpoint nodict (v : value) : bool :=
  match v with
  | VList l => forallb nodict l
  | VDict _ => false
  | _ => true
  end.

(* input side.  In a non-function object no key is a function name, except that "Condition" (a resource attribute and an
   IAM statement element) may occur next to an ANCHOR: another member that is null or a boolean and therefore survives
   resolution, so that the object can never shrink to a lone {"Condition": ...} *)
Definition is_fn_strict (k : str) : bool := is_fn k && negb (str_eqb k K_Condition).
Definition is_anchor (v : value) : bool := match v with VNull | VBool _ => true | _ => false end.
Definition dict_safe (d : list (str * value)) : bool :=
  forallb (fun kv => negb (is_fn_strict (fst kv))) d
  && (negb (mem_str K_Condition (keys d))
      || existsb (fun kv => negb (str_eqb (fst kv) K_Condition) && is_anchor (snd kv)) d).
Fixpoint fn_keys_alone (v : value) : bool :=
  match v with
  | VList l => forallb fn_keys_alone l
  | VDict d => (is_fn_dict d || dict_safe d) && forallb (fun kv => fn_keys_alone (snd kv)) d
  | _ => true
  end.

Definition params_plain (e : env) : Prop := forall k v, lookup k (params e) = Some v -> nodict v = true.
Definition maps_plain (e : env) : Prop :=
  forall m top k1 snd_ k2 leaf, lookup m (mappings e) = Some (VDict top) -> lookup k1 top = Some (VDict snd_) ->
    lookup k2 snd_ = Some leaf -> nodict leaf = true.

Lemma nodict_no_fn v : nodict v = true -> no_fn_dict v = true.
Proof.
  induction v using value_ind'; simpl; intros Hn; try reflexivity; [|discriminate].
  induction H as [|x xs Hx Hxs IH]; [reflexivity|]. simpl in *. apply andb_true_iff in Hn. destruct Hn. rewrite Hx, IH; auto.
Qed.

Lemma normalize_nodict ps v : forall r, nodict v = true -> normalize ps v = Ok r -> nodict r = true.
Proof.
  induction v using value_ind'; intros r Hn Hr; try (simpl in Hr; inv Hr; reflexivity); [|discriminate].
  rewrite normalize_list in Hr. bind_inv. inv Hr. simpl in *. apply forallb_forall. intros y Hy.
  destruct (mlist_In _ _ _ _ E Hy) as (_ & x & Hx & Hf).
  rewrite Forall_forall in H. rewrite forallb_forall in Hn. exact (H x Hx y (Hn x Hx) Hf).
Qed.

Lemma do_ref_nofn e b r : params_plain e -> do_ref e b = Ok r -> no_fn_dict r = true.
Proof.
  intros Hp H. unfold do_ref in H. destruct b; try discriminate.
  destruct (lookup s (params e)) as [x|] eqn:El.
  - apply nodict_no_fn. eapply normalize_nodict; [eapply Hp; eassumption | eassumption].
  - inv H. reflexivity.
Qed.
Lemma do_join_nofn d l r : do_join d l = Ok r -> no_fn_dict r = true.
Proof. unfold do_join. destruct d, l; try discriminate. intros H. bind_inv. inv H. reflexivity. Qed.
Lemma map_vstr_nofn l : forallb no_fn_dict (map VStr l) = true.
Proof. induction l; simpl; auto. Qed.
Lemma do_split_nofn d s r : do_split d s = Ok r -> no_fn_dict r = true.
Proof.
  unfold do_split. destruct d as [| | | ds | | | |]; try discriminate. destruct s; try (destruct ds; discriminate).
  destruct ds; [discriminate|]. intros H. inv H. simpl. apply map_vstr_nofn.
Qed.
(* Fn::Select builds nothing: a member of the list, or the empty list *)
Lemma do_select_member i l r : do_select i l = Ok r -> r = VList [] \/ exists ls, l = VList ls /\ In r ls.
Proof.
  unfold do_select. destruct i; try discriminate. destruct l; try discriminate. destruct (parse_int s); [|discriminate].
  destruct ((z <? 0)%Z || (Z.of_nat (length l) <=? z)%Z); [intros H; inv H; auto|].
  destruct (nth_error l (Z.to_nat z)) eqn:En; intros H; inv H; [|auto]. right. eauto using nth_error_In.
Qed.
Lemma do_select_nofn i l r : no_fn_dict l = true -> do_select i l = Ok r -> no_fn_dict r = true.
Proof.
  intros Hl H. destruct (do_select_member i l r H) as [-> | (ls & -> & Hin)]; [reflexivity|].
  simpl in Hl. rewrite forallb_forall in Hl. exact (Hl r Hin).
Qed.
Lemma do_find_in_map_nofn e m k1 k2 r : maps_plain e -> do_find_in_map e m k1 k2 = Ok r -> no_fn_dict r = true.
Proof.
  intros Hm. unfold do_find_in_map. destruct m; try discriminate. destruct k1; try discriminate. destruct k2; try discriminate.
  destruct (lookup s (mappings e)) as [v|] eqn:E1; [|intros H; inv H; reflexivity].
  destruct v; try discriminate. destruct (lookup_bk s0 d) as [w|] eqn:E2; [|intros H; inv H; reflexivity].
  destruct w; try discriminate. destruct (lookup_bk s1 d0) as [leaf|] eqn:E3; [|intros H; inv H; reflexivity].
  destruct (lookup_bk_lookup _ _ _ E2) as (s0' & E2' & _). destruct (lookup_bk_lookup _ _ _ E3) as (s1' & E3' & _).
  intros H. destruct leaf; inv H; try reflexivity; apply nodict_no_fn; eapply Hm; eauto.
Qed.
Lemma do_sub_nofn e t c r : do_sub e t c = Ok r -> no_fn_dict r = true.
Proof. unfold do_sub. intros H. bind_inv. inv H. reflexivity. Qed.
Lemma do_base64_nofn b r : do_base64 b = Ok r -> no_fn_dict r = true.
Proof. unfold do_base64. destruct b; try discriminate. intros H. inv H. reflexivity. Qed.

Lemma fka_select i l : fn_keys_alone (VDict [(K_Select, VList [i; l])]) = true -> fn_keys_alone l = true.
Proof. simpl. rewrite !andb_true_r. intros H. apply andb_true_iff in H. apply H. Qed.
Lemma fka_if c t f : fn_keys_alone (VDict [(K_If, VList [c; t; f])]) = true -> fn_keys_alone t = true /\ fn_keys_alone f = true.
Proof.
  simpl. rewrite !andb_true_r. intros H. apply andb_true_iff in H. destruct H as [_ H]. apply andb_true_iff in H. exact H.
Qed.

(* pruning an object never invents a key ([mdict_In]) and never loses an anchor ([mdict_keeps]): a safe object stays one *)
Lemma pruned_not_fn_dict e d d' : EvalDict e d d' -> dict_safe d = true -> is_fn_dict d' = false.
Proof.
  intros He Hs. apply eval_complete in He. destruct d' as [|[k v] [|? ?]]; try reflexivity. simpl.
  destruct (is_fn k) eqn:Ef; [|reflexivity]. exfalso.
  unfold dict_safe in Hs. apply andb_true_iff in Hs. destruct Hs as [Hk Hc].
  destruct (mdict_In (resolve e) d _ k v He (in_eq _ _)) as (_ & x & Hin & _).
  assert (Hcond : k = K_Condition).
  { rewrite forallb_forall in Hk. specialize (Hk _ Hin). simpl in Hk. unfold is_fn_strict in Hk. rewrite Ef in Hk. simpl in Hk.
    apply negb_true_iff in Hk. apply negb_false_iff in Hk. apply str_eqb_spec in Hk. exact Hk. }
  subst k. apply orb_true_iff in Hc. destruct Hc as [Hc|Hc].
  - apply negb_true_iff in Hc. apply (in_map fst), mem_str_In in Hin. unfold keys in Hc. simpl in Hin. congruence.
  - apply existsb_exists in Hc. destruct Hc as ([k2 a] & Hin2 & Hc). simpl in Hc.
    apply andb_true_iff in Hc. destruct Hc as [Hne Ha]. apply negb_true_iff in Hne.
    assert (Hy : exists y, resolve e a = Ok y /\ is_novalue y = false)
      by (destruct a as [|[|]| | | | | |]; try discriminate; eexists; split; reflexivity).
    destruct Hy as (y & Hy & Hn). destruct (mdict_keeps (resolve e) d _ k2 a y He Hin2 Hy Hn) as [Heq|[]]. inv Heq.
    rewrite str_eqb_refl in Hne. discriminate.
Qed.

(* rendered values are fixed points *)
Fixpoint rendered (ps : list (str * value)) (v : value) : bool :=
  match v with
  | VNull => true
  | VStr s => str_eqb (render_str ps s) s
  | VList l => forallb (fun x => rendered ps x && negb (is_novalue x)) l
  | VDict d => forallb (fun kv => rendered ps (snd kv) && negb (is_novalue (snd kv))) d
  | _ => false
  end.

(* any traversal that renders texts and prunes containers: [resolve e] and [normalize ps] *)
Section Fixed.
Variables (f : value -> res value) (ps : list (str * value)).
Hypothesis f_null : f VNull = Ok VNull.
Hypothesis f_str : forall s, f (VStr s) = Ok (VStr (render_str ps s)).
Hypothesis f_list : forall l, f (VList l) = (l' <- mlist f l ;; Ok (VList l')).
Hypothesis f_dict : forall d, is_fn_dict d = false -> f (VDict d) = (d' <- mdict f d ;; Ok (VDict d')).

Lemma traversal_fixed v : no_fn_dict v = true -> rendered ps v = true -> f v = Ok v.
Proof.
  assert (Hmem : forall x, (no_fn_dict x = true -> rendered ps x = true -> f x = Ok x) -> no_fn_dict x = true ->
            rendered ps x && negb (is_novalue x) = true -> f x = Ok x /\ is_novalue x = false).
  { intros x IH Hn Hr. apply andb_true_iff in Hr. destruct Hr as [Hr Hnv]. apply negb_true_iff in Hnv. auto. }
  induction v using value_ind'; intros Hn Hr; simpl in Hr; try discriminate.
  - exact f_null.
  - rewrite f_str. apply str_eqb_spec in Hr. rewrite Hr. reflexivity.
  - rewrite f_list, mlist_fixed; [reflexivity|]. simpl in Hn. rewrite Forall_forall in H. rewrite forallb_forall in Hn, Hr.
    intros x Hx. apply Hmem; auto.
  - simpl in Hn. apply andb_true_iff in Hn. destruct Hn as [Hd Hn]. apply negb_true_iff in Hd.
    rewrite f_dict, mdict_fixed; [reflexivity | | exact Hd]. rewrite Forall_forall in H. rewrite forallb_forall in Hn, Hr.
    intros k x Hx. apply Hmem; [exact (H _ Hx) | exact (Hn _ Hx) | exact (Hr _ Hx)].
Qed.
End Fixed.

Theorem rendered_fixed_point e v : no_fn_dict v = true -> rendered (params e) v = true -> resolve e v = Ok v.
Proof.
  apply traversal_fixed; [reflexivity | reflexivity | exact (resolve_list e) | exact (resolve_dict_generic e)].
Qed.

(* the general claim "resolving twice = resolving once" is FALSE of the faithful model (and of the code): text built by
   Fn::Join can be something a second resolution normalises again (known finding F20 of the table in DESIGN.md 7.3). *)
Definition e_empty : env := {| params := []; mappings := []; conds := fun _ => Ok false |}.
Definition join_TR_UE : value := VDict [(K_Join, VList [VStr []; VList [VStr [84;82]; VStr [85;69]]])].
Example fixed_point_refuted :
  exists v r r2, resolve e_empty v = Ok r /\ resolve e_empty r = Ok r2 /\ r2 <> r.
Proof.
  exists join_TR_UE, (VStr [84;82;85;69]), (VStr [116;114;117;101]).
  split; [vm_compute; reflexivity|]. split; [vm_compute; reflexivity|]. discriminate.
Qed.
