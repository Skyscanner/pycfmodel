(* Fn::Sub as "render every token once"; what Fn::FindInMap ([find_in_map_spec]) and Fn::Select ([select_spec]) compute on texts. *)
From Coq Require Import List Bool NArith ZArith Lia.
From PV Require Import Base.Str Base.Value Resolver.Text Resolver.Resolve.
Import ListNotations.
Local Open Scope N_scope.

(* the source text of a token *)
Definition tok_src (t : stok) : str :=
  match t with
  | TText c => [c]
  | TVar n => 36 :: 123 :: n ++ [125]
  | TBang n => 36 :: 123 :: 33 :: n ++ [125]
  end.

(* substitution = render every token once, left to right, and concatenate *)
Lemma render_toks_spec e custom ts r :
  render_toks e custom ts = Ok r <->
  exists pieces, Forall2 (fun t p => render_tok e custom t = Ok p) ts pieces /\ r = concat pieces.
Proof.
  revert r; induction ts as [|t ts IH]; intros r; simpl.
  - split.
    + intros H; inv H. exists []. split; [constructor | reflexivity].
    + intros (pieces & F & ->). inv F. reflexivity.
  - split.
    + intros H. bind_inv. inv H. destruct (proj1 (IH a0) eq_refl) as (ps & F & ->).
      exists (a :: ps). split; [constructor; assumption | reflexivity].
    + intros (pieces & F & ->). inv F. rewrite H1. simpl.
      rewrite (proj2 (IH (concat l')) (ex_intro _ l' (conj H3 eq_refl))). reflexivity.
Qed.

Lemma do_sub_render e text custom r :
  do_sub e text custom = Ok (VStr r) <-> render_toks e custom (sub_tokens text) = Ok r.
Proof.
  unfold do_sub. split.
  - intros H. bind_inv. inv H. reflexivity.
  - intros ->. reflexivity.
Qed.

Lemma render_text e custom c : render_tok e custom (TText c) = Ok [c].
Proof. reflexivity. Qed.

(* a placeholder name: one or more of [\w:] *)
Definition valid_name (n : str) : Prop := n <> [] /\ forallb is_name_char n = true.

(* the map name exactly; the two keys by [lookup_bk] (exactly, else - for the texts "true" / "false" - by the first spelling) *)
Definition mapping_leaf (e : env) (m k1 k2 : str) : option value :=
  match lookup m (mappings e) with
  | Some (VDict top) => match lookup_bk k1 top with
                        | Some (VDict snd_) => match lookup_bk k2 snd_ with Some VNull => None | x => x end
                        | _ => None
                        end
  | _ => None
  end.
Definition mappings_wf (e : env) : Prop :=
  forall m v, lookup m (mappings e) = Some v ->
    exists top, v = VDict top /\ forall k1 w, lookup k1 top = Some w -> exists snd_, w = VDict snd_.

Theorem find_in_map_spec e m k1 k2 : mappings_wf e ->
  do_find_in_map e (VStr m) (VStr k1) (VStr k2) =
  Ok (match mapping_leaf e m k1 k2 with Some leaf => leaf | None => VStr (undefined_mapping m k1 k2) end).
Proof.
  intros Hwf. unfold do_find_in_map, mapping_leaf.
  destruct (lookup m (mappings e)) as [v|] eqn:E1; [|reflexivity].
  destruct (Hwf m v E1) as (top & -> & Htop).
  destruct (lookup_bk k1 top) as [w|] eqn:E2; [|reflexivity].
  destruct (lookup_bk_lookup k1 top w E2) as (k1' & E2' & _).
  destruct (Htop k1' w E2') as (snd_ & ->).
  destruct (lookup_bk k2 snd_) as [leaf|] eqn:E3; [|reflexivity].
  destruct leaf; reflexivity.
Qed.

Theorem select_spec s ls z : parse_int s = Some z ->
  do_select (VStr s) (VList ls) =
  Ok (if (0 <=? z)%Z && (z <? Z.of_nat (length ls))%Z then nth (Z.to_nat z) ls (VList []) else VList []).
Proof.
  intros Hp. unfold do_select. rewrite Hp.
  destruct (Z.ltb_spec z 0), (Z.leb_spec (Z.of_nat (length ls)) z), (Z.leb_spec 0 z), (Z.ltb_spec z (Z.of_nat (length ls)));
    try lia; try reflexivity. simpl.
  destruct (nth_error ls (Z.to_nat z)) as [x|] eqn:En; [rewrite (nth_error_nth _ _ _ En); reflexivity|].
  apply nth_error_None in En. lia.
Qed.
