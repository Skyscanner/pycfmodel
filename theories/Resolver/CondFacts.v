(* Condition values: they depend on parameters, mappings and declarations through lookups only, hence not on the declaration
   order; an undeclared reference is false; the unfolding equation; resource gating. *)
From Coq Require Import List Bool NArith ZArith Permutation.
From PV Require Import Base.Str Base.Value Resolver.Resolve Resolver.Ext Resolver.Template.
Import ListNotations.
Local Open Scope N_scope.

Definition same_members (a b : list str) : Prop := forall x, mem_str x a = mem_str x b.

Lemma mem_remove x n l : mem_str x (remove_str n l) = mem_str x l && negb (str_eqb n x).
Proof. apply mem_str_filter. Qed.
Lemma same_members_remove n a b : same_members a b -> same_members (remove_str n a) (remove_str n b).
Proof. intros H x. rewrite !mem_remove, (H x). reflexivity. Qed.

Lemma remove_str_length n l : mem_str n l = true -> (length (remove_str n l) < length l)%nat.
Proof. exact (Value.remove_length n l). Qed.

(* the value depends on the parameters, mappings and declarations only through lookups, and on [rem] only as a set *)
Lemma cond_val_ext_env ps ps' maps maps' decl decl' :
  same_lookups ps ps' -> same_lookups maps maps' -> same_lookups decl decl' ->
  forall fuel rem rem' n, same_members rem rem' ->
    cond_val ps maps decl fuel rem n = cond_val ps' maps' decl' fuel rem' n.
Proof.
  intros Hp Hm Hd. induction fuel as [|f IH]; intros rem rem' n Hr; [reflexivity|].
  simpl. rewrite <- (Hr n). destruct (mem_str n rem); [|reflexivity].
  rewrite <- (Hd n). destruct (lookup n decl) as [body|]; [|reflexivity].
  rewrite (resolve_env_eq _ {| params := ps'; mappings := maps'; conds := cond_val ps' maps' decl' f (remove_str n rem') |} body);
    [reflexivity|].
  repeat split; simpl; auto. intros m. apply IH. apply same_members_remove. assumption.
Qed.

Section CondVal.
Variables ps maps : list (str * value).

(* the environment with condition oracle [k]; QTree.cenv is the same record (section variables there), Trace.renv and
   Trace.cond_env are its instances at [conds_fun resolved] and at [cond_val] *)
Definition cenv (k : str -> res bool) : env := {| params := ps; mappings := maps; conds := k |}.
Lemma cenv_eq k k' : (forall n, k n = k' n) -> env_eq (cenv k) (cenv k').
Proof. intros H. repeat split; auto; intros x; reflexivity. Qed.

Lemma cond_val_ext decl decl' : same_lookups decl decl' ->
  forall fuel rem rem' n, same_members rem rem' ->
    cond_val ps maps decl fuel rem n = cond_val ps maps decl' fuel rem' n.
Proof. apply cond_val_ext_env; intros k; reflexivity. Qed.

(* a reference to a name that is not declared counts as false *)
Lemma cond_val_undeclared decl fuel rem n : lookup n decl = None -> cond_val ps maps decl (S fuel) rem n = Ok false.
Proof. intros H. simpl. destruct (mem_str n rem); [rewrite H|]; reflexivity. Qed.

(* unfolding: the value of a declared name is its body evaluated with that name marked as in progress *)
Lemma cond_val_step decl fuel rem n body : mem_str n rem = true -> lookup n decl = Some body ->
  cond_val ps maps decl (S fuel) rem n =
  (r <- resolve (cenv (cond_val ps maps decl fuel (remove_str n rem))) body ;; ext_bool r).
Proof. intros H1 H2. simpl. rewrite H1, H2. reflexivity. Qed.
End CondVal.

Lemma keys_perm_members {A} (d d' : list (str * A)) : Permutation d d' -> same_members (keys d) (keys d').
Proof.
  intros Hp x. apply (Permutation_map fst) in Hp. apply eq_true_iff_eq. rewrite !mem_str_In.
  split; apply Permutation_in; [|apply Permutation_sym]; exact Hp.
Qed.

(* the value of a condition does not depend on where it (or any other condition) is declared *)
Theorem cond_root_perm ps maps decl decl' n : Permutation decl decl' -> NoDup (keys decl) ->
  cond_root ps maps decl n = cond_root ps maps decl' n.
Proof.
  intros Hp Hnd. unfold cond_root. rewrite (Permutation_length Hp).
  apply cond_val_ext; [intros k; apply lookup_Permutation; assumption | apply keys_perm_members; assumption].
Qed.

(* declaration lists of the same length with the same lookups and the same declared names give the same values *)
Theorem cond_root_same_lookups ps maps decl decl' n : same_lookups decl decl' -> same_members (keys decl) (keys decl') ->
  length decl = length decl' -> cond_root ps maps decl n = cond_root ps maps decl' n.
Proof. intros H1 H2 H3. unfold cond_root. rewrite H3. apply cond_val_ext; assumption. Qed.

Lemma py_eq_strings a b : py_eq (VStr a) (VStr b) = Ok (str_eqb a b).
Proof. reflexivity. Qed.
(* resource gating and locality (also C07): a resource is present iff its gate is open, and its resolved
   form is a function of its own definition and the environment only *)
Theorem resolve_resources_spec e resolved rs rs' : resolve_resources e resolved rs = Ok rs' -> NoDup (keys rs) ->
  forall id,
    match lookup id rs with
    | None => lookup id rs' = None
    | Some r =>
        match gate resolved r with
        | Ok true => exists r', resolve_resource e r = Ok r' /\ lookup id rs' = Some r'
        | Ok false => lookup id rs' = None
        | Err _ => False
        end
    end.
Proof.
  revert rs'; induction rs as [|[k r] rest IH]; intros rs' H Hnd id; simpl in H.
  - inv H. reflexivity.
  - inv Hnd. destruct (gate resolved r) as [keep|] eqn:Eg; simpl in H; [|discriminate].
    simpl. destruct (str_eqb id k) eqn:Ek.
    + apply str_eqb_spec in Ek. subst id. rewrite Eg. destruct keep.
      * bind_inv. inv H. exists a. split; [reflexivity|]. simpl. rewrite str_eqb_refl. reflexivity.
      * specialize (IH rs' H H3 k). destruct (lookup k rest) eqn:El; [|assumption].
        exfalso. apply H2. exact (In_keys k v rest (lookup_In k rest v El)).
    + destruct keep.
      * bind_inv. inv H. specialize (IH a0 eq_refl H3 id). simpl. rewrite Ek. exact IH.
      * exact (IH rs' H H3 id).
Qed.

