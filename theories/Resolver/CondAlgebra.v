(* The boolean algebra of condition expressions, AS THE MODEL EVALUATES THEM (pycfmodel.resolver: resolve_and / resolve_or /
   resolve_not / resolve_equals / resolve_condition / resolve_if, _extended_bool; cf_model._ConditionResolver).

   Evaluation may fail (a Python exception = [Err]) and Fn::And / Fn::Or are evaluated LEFT TO RIGHT AND STOP AT THE FIRST
   DECIDING OPERAND (all(...) / any(...) over a generator).  Every law below is stated for that evaluation, with a side
   condition under which it holds.

   [tv e x]        the TRUTH VALUE of the expression x: its resolved value read through pydantic's lenient bool
                   ([ext_bool] = _extended_bool).  Condition functions return a Python bool, a leaf such as "true" is resolved to
                   the text "true": they are different VALUES with the same truth value, so the laws are stated on [tv]
                   (and on [resolve] where both sides return a boolean).
   [sc_all], [sc_any]  left-to-right conjunction / disjunction of a list of results that stops at the first [false] / [true] / error.
   [sc stop], [EJ stop]  Fn::And and Fn::Or as ONE construct: the fold that stops at the first operand whose truth value is [stop], and
                   the function object it evaluates ([stop] = false: sc_all, Fn::And; true: sc_any, Fn::Or -- by computation).  Every
                   law is proved once, for [stop]; the law of Fn::And and the law of Fn::Or are its two instances.

   After the laws of Fn::And / Fn::Or / Fn::Not come: Fn::Equals as Python's == on resolved values ([py_eq] against [veqb], symmetry,
   reflexivity, equality up to the key order of objects); boolean contexts [bctx] / [plug] with congruence for truth values and for
   the access traces of Trace.v; declarations whose references are ranked ([cond_ranked]), for which the condition values solve
   their defining equations ([ranked_equation]) and hence [cond_all] and the resolved model are characterised; Fn::If; AWS::NoValue
   pruning as a filter ([rlist_spec], [rdict_spec]); and which resources survive their Condition gate ([resolve_resources_keys]). *)
From Coq Require Import List Bool NArith ZArith Lia Permutation.
From PV Require Import Base.Str Base.ListFacts Base.Value Resolver.Consts Resolver.Resolve Resolver.Spec Resolver.Template
  Resolver.ShortCircuit Resolver.CondFacts Resolver.PermFacts Resolver.Trace.
Import ListNotations.
Local Open Scope N_scope.

Definition EAnd (l : list value) : value := VDict [(K_And, VList l)].
Definition EOr (l : list value) : value := VDict [(K_Or, VList l)].
Definition ENot (x : value) : value := VDict [(K_Not, VList [x])].
Definition EEquals (a b : value) : value := VDict [(K_Equals, VList [a; b])].
Definition ECond (n : str) : value := VDict [(K_Condition, VStr n)].
Definition EIf (c : str) (t f : value) : value := VDict [(K_If, VList [VStr c; t; f])].

Definition tv (e : env) (x : value) : res bool := r <- resolve e x ;; ext_bool r.
(* the truth value as a plain boolean, for operands known to evaluate without error *)
Definition tvb (e : env) (x : value) : bool := match tv e x with Ok b => b | Err _ => false end.
Definition tv_ok (e : env) (x : value) : Prop := is_ok (tv e x) = true.

Fixpoint sc_all (l : list (res bool)) : res bool :=
  match l with
  | [] => Ok true
  | r :: rs => b <- r ;; if b then sc_all rs else Ok false
  end.
Fixpoint sc_any (l : list (res bool)) : res bool :=
  match l with
  | [] => Ok false
  | r :: rs => b <- r ;; if b then Ok true else sc_any rs
  end.
Definition rneg (r : res bool) : res bool := b <- r ;; Ok (negb b).

Lemma tv_ok_inv e x : tv_ok e x -> tv e x = Ok (tvb e x).
Proof. unfold tv_ok, tvb. destruct (tv e x); simpl; [reflexivity | discriminate]. Qed.
Lemma tv_ok_intro e x b : tv e x = Ok b -> tv_ok e x.
Proof. unfold tv_ok. intros ->. reflexivity. Qed.
Lemma tvb_of e x b : tv e x = Ok b -> tvb e x = b.
Proof. unfold tvb. intros ->. reflexivity. Qed.
Lemma tv_Ok_iff e x b : tv e x = Ok b <-> exists r, resolve e x = Ok r /\ ext_bool r = Ok b.
Proof.
  unfold tv. destruct (resolve e x) as [r|k]; cbn [bind].
  - split; [intros H; exists r; split; [reflexivity | exact H] | intros (r' & Hr & H); inv Hr; exact H].
  - split; [discriminate | intros (r' & Hr & _); discriminate].
Qed.

Lemma sc_all_sc l : sc_all l = sc false l.
Proof. induction l as [|[[|]|] l IH]; cbn [sc_all sc bind eqb]; [reflexivity | exact IH | reflexivity | reflexivity]. Qed.
Lemma sc_any_sc l : sc_any l = sc true l.
Proof. induction l as [|[[|]|] l IH]; cbn [sc_any sc bind eqb]; [reflexivity | reflexivity | exact IH | reflexivity]. Qed.
Definition EJ (stop : bool) (l : list value) : value := VDict [(if stop then K_Or else K_And, VList l)].

(* Fn::And / Fn::Or are the short-circuit fold of the truth values of their operands: ANY number of operands (0, 1, more than
   10 -- the code has no 2..10 restriction) *)
Lemma resolve_junction stop e l : resolve e (EJ stop l) = (b <- sc stop (map (tv e) l) ;; Ok (VBool b)).
Proof. exact (resolve_junction_sc stop e l). Qed.
Lemma resolve_not_tv e x : resolve e (ENot x) = (b <- tv e x ;; Ok (VBool (negb b))).
Proof.
  unfold ENot. rewrite resolve_not. unfold tv. destruct (resolve e x) as [r|err]; cbn [bind]; [|reflexivity].
  destruct (ext_bool r); reflexivity.
Qed.
(* Fn::Not looks at its first operand only (function_body[0]) *)
Lemma resolve_not_rest e x rest : resolve e (VDict [(K_Not, VList (x :: rest))]) = resolve e (ENot x).
Proof. unfold ENot. rewrite !resolve_not. reflexivity. Qed.

Lemma tv_bool_result (r : res bool) : (v <- (b <- r ;; Ok (VBool b)) ;; ext_bool v) = r.
Proof. destruct r; reflexivity. Qed.
Lemma tv_junction stop e l : tv e (EJ stop l) = sc stop (map (tv e) l).
Proof. unfold tv at 1. rewrite resolve_junction. apply tv_bool_result. Qed.
Lemma tv_not e x : tv e (ENot x) = rneg (tv e x).
Proof. unfold tv at 1. rewrite resolve_not_tv. unfold rneg. destruct (tv e x); reflexivity. Qed.
Lemma tv_cond e n : tv e (ECond n) = conds e n.
Proof. unfold tv, ECond. rewrite resolve_condition. destruct (conds e n); reflexivity. Qed.
(* a condition function returns a boolean: its value is determined by its truth value *)
Lemma resolve_junction_of_tv stop e l : resolve e (EJ stop l) = (b <- tv e (EJ stop l) ;; Ok (VBool b)).
Proof. rewrite tv_junction. apply resolve_junction. Qed.
Lemma resolve_not_of_tv e x : resolve e (ENot x) = (b <- tv e (ENot x) ;; Ok (VBool b)).
Proof. rewrite tv_not, resolve_not_tv. unfold rneg. destruct (tv e x); reflexivity. Qed.
Lemma bool_result_inj (r r' : res bool) : (b <- r ;; Ok (VBool b)) = (b <- r' ;; Ok (VBool b)) -> r = r'.
Proof. intros H. rewrite <- (tv_bool_result r), H. apply tv_bool_result. Qed.

Lemma tv_bool e b : tv e (VBool b) = Ok b.
Proof. destruct b; reflexivity. Qed.

(* De Morgan for the fold, errors and evaluation order included *)
Lemma sc_neg stop rs : sc (negb stop) (map rneg rs) = rneg (sc stop rs).
Proof.
  induction rs as [|r rs IH]; [rewrite !sc_nil; reflexivity|]. cbn [map]. rewrite !sc_cons, IH.
  destruct r as [x|k]; [|reflexivity]. destruct x, stop; reflexivity.
Qed.
Lemma rneg_rneg r : rneg (rneg r) = r.
Proof. destruct r as [[|]|]; reflexivity. Qed.

Lemma all_ok_map e l : Forall (tv_ok e) l -> map (tv e) l = map (fun x => Ok (tvb e x)) l.
Proof. intros H. apply map_ext_in. intros x Hx. apply tv_ok_inv. rewrite Forall_forall in H. exact (H x Hx). Qed.
Lemma map_mid {A B} (f : A -> B) l1 x l2 : map f (l1 ++ x :: l2) = map f l1 ++ f x :: map f l2.
Proof. apply map_app. Qed.

Lemma quantb_same_set {A} (stop : bool) (f : A -> bool) l l' : incl l l' -> incl l' l ->
  (if stop then existsb f l else forallb f l) = (if stop then existsb f l' else forallb f l').
Proof.
  intros H1 H2. assert (S : forall x, In x l <-> In x l') by (intros x; split; [apply H1 | apply H2]).
  destruct stop; [apply existsb_same_set | apply forallb_same_set]; exact S.
Qed.

(* when every operand evaluates without error: the plain boolean conjunction / disjunction, for any number of operands *)
Theorem junction_is_fold stop e l : Forall (tv_ok e) l ->
  resolve e (EJ stop l) = Ok (VBool (if stop then existsb (tvb e) l else forallb (tvb e) l)).
Proof. intros H. rewrite resolve_junction, (all_ok_map e l H), sc_oks. reflexivity. Qed.
(* the value depends on the SET of operands only -- order and repetitions are immaterial -- when all operands evaluate *)
Theorem junction_same_operands stop e l l' : Forall (tv_ok e) l -> Forall (tv_ok e) l' -> incl l l' -> incl l' l ->
  resolve e (EJ stop l) = resolve e (EJ stop l').
Proof. intros H H' H1 H2. rewrite !junction_is_fold by assumption. rewrite (quantb_same_set stop _ l l' H1 H2). reflexivity. Qed.
Theorem junction_perm stop e l l' : Permutation l l' -> Forall (tv_ok e) l -> resolve e (EJ stop l) = resolve e (EJ stop l').
Proof.
  intros Hp H. apply junction_same_operands; [exact H | exact (Permutation_Forall Hp H) | |]; intros x Hx.
  - exact (Permutation_in x Hp Hx).
  - exact (Permutation_in x (Permutation_sym Hp) Hx).
Qed.
(* ... and the side condition is needed: an operand that raises is hidden behind a deciding operand, and not in front of it *)
Definition S_maybe : str := [109; 97; 121; 98; 101].
Definition e_none : env := {| params := []; mappings := []; conds := fun _ => Ok false |}.
Theorem junction_perm_refuted (stop : bool) : exists e l l', Permutation l l' /\
  resolve e (EJ stop l) = Ok (VBool stop) /\ resolve e (EJ stop l') = Err EValidation.
Proof.
  exists e_none, [VStr (bool_text stop); VStr S_maybe], [VStr S_maybe; VStr (bool_text stop)].
  split; [apply perm_swap | destruct stop; split; vm_compute; reflexivity].
Qed.

(* idempotence, unconditionally: a SECOND occurrence of an operand, anywhere after the first, can be deleted (if it is reached
   at all, the first occurrence did not decide and did not raise, so the second does neither) *)
Theorem junction_duplicate stop e l1 x l2 l3 :
  resolve e (EJ stop (l1 ++ x :: l2 ++ x :: l3)) = resolve e (EJ stop (l1 ++ x :: l2 ++ l3)).
Proof. rewrite !resolve_junction, !map_mid, !map_app. cbn [map]. rewrite sc_dup. reflexivity. Qed.
Corollary and_idempotent e x l : resolve e (EAnd (x :: x :: l)) = resolve e (EAnd (x :: l)).
Proof. exact (junction_duplicate false e [] x [] l). Qed.
Corollary or_idempotent e x l : resolve e (EOr (x :: x :: l)) = resolve e (EOr (x :: l)).
Proof. exact (junction_duplicate true e [] x [] l). Qed.

(* associativity / flattening, unconditionally (errors and evaluation order included) *)
Theorem junction_flatten stop e l1 l2 l3 : resolve e (EJ stop (l1 ++ EJ stop l2 :: l3)) = resolve e (EJ stop (l1 ++ l2 ++ l3)).
Proof. rewrite !resolve_junction, map_mid, !map_app, tv_junction, sc_flatten. reflexivity. Qed.
(* a one-operand Fn::And / Fn::Or is its operand, as a boolean *)
Theorem junction_singleton stop e x : resolve e (EJ stop [x]) = (b <- tv e x ;; Ok (VBool b)).
Proof. rewrite resolve_junction. cbn [map]. rewrite sc_cons, sc_nil. destruct (tv e x) as [[|]|], stop; reflexivity. Qed.
Theorem and_singleton e x : resolve e (EAnd [x]) = (b <- tv e x ;; Ok (VBool b)).
Proof. exact (junction_singleton false e x). Qed.
Theorem or_singleton e x : resolve e (EOr [x]) = (b <- tv e x ;; Ok (VBool b)).
Proof. exact (junction_singleton true e x). Qed.

(* identity elements: a true operand of Fn::And (a false operand of Fn::Or) can be deleted wherever it stands *)
Theorem junction_unit stop e l1 x l2 : tv e x = Ok (negb stop) -> resolve e (EJ stop (l1 ++ x :: l2)) = resolve e (EJ stop (l1 ++ l2)).
Proof.
  intros H. rewrite !resolve_junction, map_mid, map_app, H, !(sc_app stop (map (tv e) l1)), sc_cons.
  cbn [bind]. rewrite eqb_negb1. reflexivity.
Qed.
(* absorbing elements: a false operand of Fn::And (a true operand of Fn::Or) decides, PROVIDED the operands in front of it
   evaluate without error; what comes after it is never evaluated *)
Theorem junction_zero stop e l1 x l2 : Forall (tv_ok e) l1 -> tv e x = Ok stop -> resolve e (EJ stop (l1 ++ x :: l2)) = Ok (VBool stop).
Proof. intros H Hx. rewrite resolve_junction, map_mid, Hx, sc_decided, (all_ok_map e l1 H), sc_oks. reflexivity. Qed.

(* De Morgan, unconditionally: same value, same exception *)
Theorem de_morgan stop e l : resolve e (ENot (EJ stop l)) = resolve e (EJ (negb stop) (map ENot l)).
Proof.
  rewrite resolve_not_tv, tv_junction, resolve_junction, map_map.
  rewrite (map_ext (fun x => tv e (ENot x)) (fun x => rneg (tv e x)) (tv_not e)), <- (map_map (tv e) rneg), sc_neg.
  unfold rneg. destruct (sc stop (map (tv e) l)); reflexivity.
Qed.

(* double negation: the truth value of x, unconditionally; as a VALUE it is the boolean, not x's own rendering *)
Theorem double_negation_tv e x : tv e (ENot (ENot x)) = tv e x.
Proof. rewrite !tv_not. apply rneg_rneg. Qed.
Theorem double_negation e x : resolve e (ENot (ENot x)) = (b <- tv e x ;; Ok (VBool b)).
Proof. rewrite resolve_not_of_tv, double_negation_tv. reflexivity. Qed.

(* complement, distributivity, absorption: for operands that evaluate without error *)
Theorem junction_complement stop e x : tv_ok e x -> resolve e (EJ stop [x; ENot x]) = Ok (VBool stop).
Proof.
  intros H. rewrite resolve_junction. cbn [map]. rewrite tv_not, (tv_ok_inv e x H), !sc_cons, sc_nil.
  destruct (tvb e x), stop; reflexivity.
Qed.
Theorem junction_distributes stop e a b c : tv_ok e a -> tv_ok e b -> tv_ok e c ->
  resolve e (EJ stop [a; EJ (negb stop) [b; c]]) = resolve e (EJ (negb stop) [EJ stop [a; b]; EJ stop [a; c]]).
Proof.
  intros Ha Hb Hc. rewrite !resolve_junction. cbn [map]. rewrite !tv_junction. cbn [map].
  rewrite (tv_ok_inv e a Ha), (tv_ok_inv e b Hb), (tv_ok_inv e c Hc), !sc_cons, !sc_nil.
  destruct (tvb e a), (tvb e b), (tvb e c), stop; reflexivity.
Qed.
Theorem junction_absorption stop e a b : tv_ok e a -> tv_ok e b -> tv e (EJ stop [a; EJ (negb stop) [a; b]]) = tv e a.
Proof.
  intros Ha Hb. rewrite tv_junction. cbn [map]. rewrite tv_junction. cbn [map].
  rewrite (tv_ok_inv e a Ha), (tv_ok_inv e b Hb), !sc_cons, !sc_nil. destruct (tvb e a), (tvb e b), stop; reflexivity.
Qed.

(* THE SHORT-CIRCUIT LAW: after operands with truth value [negb stop], the first operand with another outcome r -- the truth
   value [stop], or an exception -- is the outcome, WHATEVER follows it (an operand that would raise, an unknown function,
   anything); so an operand that raises is hidden behind a deciding operand and not in front of it.  And conversely. *)
Theorem junction_outcome_iff stop e l r : r <> Ok (negb stop) ->
  (resolve e (EJ stop l) = (b <- r ;; Ok (VBool b)) <->
   exists l1 x l2, l = l1 ++ x :: l2 /\ Forall (fun y => tv e y = Ok (negb stop)) l1 /\ tv e x = r).
Proof.
  intros Hr. rewrite resolve_junction, <- (sc_map_outcome_iff stop (tv e) l r Hr). split; [apply bool_result_inj | intros ->; reflexivity].
Qed.
Theorem junction_undecided_iff stop e l :
  resolve e (EJ stop l) = Ok (VBool (negb stop)) <-> Forall (fun y => tv e y = Ok (negb stop)) l.
Proof.
  rewrite resolve_junction, <- (sc_map_undecided_iff stop (tv e) l). split; [|intros ->; reflexivity].
  intros H. exact (bool_result_inj _ (Ok (negb stop)) H).
Qed.
Corollary junction_short_circuit stop e l1 x l2 : Forall (fun y => tv e y = Ok (negb stop)) l1 -> tv e x = Ok stop ->
  resolve e (EJ stop (l1 ++ x :: l2)) = Ok (VBool stop).
Proof.
  intros H Hx. apply (junction_outcome_iff stop e _ (Ok stop)); [destruct stop; discriminate|]. exists l1, x, l2. auto.
Qed.
(* so the value of a condition CAN depend on the order of the operands (a value against an exception), never a value against
   another value *)
Theorem junction_order_value_stable stop e l l' b b' : Permutation l l' ->
  resolve e (EJ stop l) = Ok (VBool b) -> resolve e (EJ stop l') = Ok (VBool b') -> b = b'.
Proof.
  assert (Hu : forall m m' c, Permutation m m' -> resolve e (EJ stop m) = Ok (VBool c) -> c = negb stop ->
                resolve e (EJ stop m') = Ok (VBool (negb stop))).
  { intros m m' c Hp Hm ->. apply junction_undecided_iff. apply (Permutation_Forall Hp). apply junction_undecided_iff. exact Hm. }
  intros Hp H H'. destruct (bool_dec b (negb stop)) as [E|E].
  - rewrite (Hu l l' b Hp H E) in H'. injection H' as <-. exact E.
  - destruct (bool_dec b' (negb stop)) as [E'|E'].
    + rewrite (Hu l' l b' (Permutation_sym Hp) H' E') in H. injection H as <-. symmetry. exact E'.
    + destruct b, b', stop; try reflexivity; exfalso; auto.
Qed.

(* Python's == on resolved values is [veqb] (objects compared by lookups).  On a first argument whose objects have no repeated key
   (everything json.load or a Python dict can hold) it is [vperm]: equality up to the order of the keys of objects *)
Lemma veqb_refl a : nodup_keys a -> veqb a a = true.
Proof.
  induction a as [| b | z | s | k t | bs | l IH | d IH] using value_ind'; intros Hn; cbn [veqb]; try reflexivity.
  - destruct b; reflexivity.
  - apply Z.eqb_refl.
  - apply str_eqb_refl.
  - rewrite str_eqb_refl. destruct k; reflexivity.
  - apply str_eqb_refl.
  - change (veqb_l l l = true). apply nodup_list_iff in Hn. induction IH as [|x xs Hx _ IHxs]; [reflexivity|].
    inv Hn. cbn [veqb_l]. rewrite (Hx H1). exact (IHxs H2).
  - change (Nat.eqb (length d) (length d) && veqb_d d d = true). rewrite Nat.eqb_refl, veqb_d_forallb. cbn [andb].
    apply nodup_dict_iff in Hn. destruct Hn as [Hnd Hmem]. rewrite Forall_forall in IH, Hmem.
    apply forallb_forall. intros [k x] Hx. cbn [fst snd]. rewrite (lookup_NoDup_In k x d Hnd Hx). exact (IH _ Hx (Hmem _ Hx)).
Qed.

Lemma veqb_true_vperm a : forall b, nodup_keys a -> veqb a b = true -> vperm a b.
Proof.
  induction a as [| x | x | x | k x | x | la IH | da IH] using value_ind'; intros b Ha E;
    destruct b as [| y | y | y | k' y | y | lb | db]; try discriminate.
  - constructor.
  - cbn [veqb] in E. apply eqb_prop in E. subst. constructor.
  - cbn [veqb] in E. apply Z.eqb_eq in E. subst. constructor.
  - cbn [veqb] in E. apply str_eqb_spec in E. subst. constructor.
  - cbn [veqb] in E. apply andb_true_iff in E. destruct E as [E1 E2]. apply str_eqb_spec in E2. subst.
    destruct k, k'; try discriminate; constructor.
  - cbn [veqb] in E. apply str_eqb_spec in E. subst. constructor.
  - rewrite veqb_list in E. constructor. apply nodup_list_iff in Ha. revert lb E.
    induction IH as [|x xs Hx _ IHxs]; intros [|y ys] E; try discriminate; [constructor|].
    inv Ha. cbn [veqb_l] in E. apply andb_true_iff in E. destruct E as [E1 E2].
    constructor; [exact (Hx y H1 E1) | exact (IHxs H2 ys E2)].
  - (* every entry of da is found in db with an equal value, and there are equally many: pair each entry of da with its match *)
    rewrite veqb_dict in E. apply andb_true_iff in E. destruct E as [El E]. apply Nat.eqb_eq in El.
    rewrite veqb_d_forallb in E. rewrite forallb_forall in E.
    apply nodup_dict_iff in Ha. destruct Ha as [Hna Hma]. rewrite Forall_forall in IH, Hma.
    set (pick := fun kx : str * value => (fst kx, match lookup (fst kx) db with Some y => y | None => snd kx end)).
    apply (vp_dict da (map pick da) db).
    + assert (HF : forall d, incl d da -> Forall2 (fun a b => fst a = fst b /\ vperm (snd a) (snd b)) d (map pick d)).
      { induction d as [|[k x] d IHd]; intros Hi; [constructor|]. cbn [map]. constructor.
        - unfold pick. cbn [fst snd]. split; [reflexivity|].
          assert (Hx : In (k, x) da) by (apply Hi; left; reflexivity).
          specialize (E (k, x) Hx). cbn [fst snd] in E. destruct (lookup k db) as [y|]; [|discriminate].
          exact (IH _ Hx y (Hma _ Hx) E).
        - apply IHd. intros z Hz. apply Hi. right. exact Hz. }
      apply HF. intros z Hz. exact Hz.
    + apply NoDup_Permutation_bis.
      * apply (NoDup_map_inv fst). rewrite map_map. unfold pick. cbn [fst]. exact Hna.
      * rewrite map_length. lia.
      * intros [k y] Hky. apply in_map_iff in Hky. destruct Hky as ([k0 x] & Hp & Hx). unfold pick in Hp. cbn [fst snd] in Hp.
        specialize (E (k0, x) Hx). cbn [fst snd] in E. destruct (lookup k0 db) as [y0|] eqn:Ey; [|discriminate].
        inv Hp. apply lookup_In. exact Ey.
Qed.
Lemma veqb_true_iff_vperm a b : nodup_keys a -> (veqb a b = true <-> vperm a b).
Proof.
  intros Ha. split; [apply veqb_true_vperm; exact Ha|].
  intros H. rewrite <- (veqb_vperm a a a b (vperm_refl a) H Ha). apply veqb_refl. exact Ha.
Qed.
Lemma veqb_sym a b : nodup_keys a -> nodup_keys b -> veqb a b = veqb b a.
Proof. intros Ha Hb. apply eq_true_iff_eq. rewrite !veqb_true_iff_vperm by assumption. split; apply vperm_sym. Qed.

Lemma py_eq_sym a b : nodup_keys a -> nodup_keys b -> py_eq a b = py_eq b a.
Proof.
  intros Ha Hb. pose proof (veqb_sym a b Ha Hb) as Hv.
  destruct a as [| x | x | x | k x | x | la | da]; destruct b as [| y | y | y | k' y | y | lb | db];
    cbv beta iota delta [py_eq]; try reflexivity;
    try (rewrite (orb_comm (has_numeric _) (has_numeric _)), Hv; reflexivity).
  destruct x, y; reflexivity.
Qed.
(* where the model compares at all, it compares with [veqb] *)
Lemma py_eq_veqb a b : is_ok (py_eq a b) = true -> py_eq a b = Ok (veqb a b).
Proof.
  destruct a, b; cbv beta iota delta [py_eq]; try reflexivity; destruct (has_numeric _ || has_numeric _); try reflexivity; discriminate.
Qed.
Lemma py_eq_plain a b : has_numeric a = false -> has_numeric b = false -> py_eq a b = Ok (veqb a b).
Proof. intros Ha Hb. destruct a; try discriminate Ha; cbv beta iota delta [py_eq]; rewrite Ha, Hb; reflexivity. Qed.

(* SYMMETRY.  The truth value never depends on the order of the two operands; the exception does when BOTH operands raise
   (the first one met is reported) *)
Theorem equals_symmetric_results e a b a' b' : resolve e a = Ok a' -> resolve e b = Ok b' -> nodup_keys a' -> nodup_keys b' ->
  resolve e (EEquals a b) = resolve e (EEquals b a).
Proof.
  intros Ha Hb Hna Hnb. unfold EEquals. rewrite !resolve_equals, Ha, Hb. cbn [bind]. rewrite (py_eq_sym a' b' Hna Hnb). reflexivity.
Qed.

(* REFLEXIVITY: on every operand whose resolved value the model compares at all; that includes every operand that resolves to
   text (every scalar: numbers, booleans, dates, texts ...) *)
Theorem equals_reflexive e a a' : resolve e a = Ok a' -> nodup_keys a' -> is_ok (py_eq a' a') = true ->
  resolve e (EEquals a a) = Ok (VBool true).
Proof.
  intros H Hn Hok. unfold EEquals. rewrite resolve_equals, H. cbn [bind]. rewrite (py_eq_veqb _ _ Hok), (veqb_refl _ Hn). reflexivity.
Qed.
Corollary equals_reflexive_scalar e a s : resolve e a = Ok (VStr s) -> resolve e (EEquals a a) = Ok (VBool true).
Proof. intros H. apply (equals_reflexive e a (VStr s) H); reflexivity. Qed.

(* CHARACTERISATION. Where no number is involved, the operands are equal iff their resolved values are the same up to the order of
   the keys of objects (scalars resolve to text, so 1 and "1" are equal operands) *)
Lemma equals_plain e a b a' b' : resolve e a = Ok a' -> resolve e b = Ok b' -> has_numeric a' = false -> has_numeric b' = false ->
  resolve e (EEquals a b) = Ok (VBool (veqb a' b')).
Proof. intros Ha Hb Hna Hnb. unfold EEquals. rewrite resolve_equals, Ha, Hb. cbn [bind]. rewrite (py_eq_plain _ _ Hna Hnb). reflexivity. Qed.
Theorem equals_iff_vperm e a b a' b' : resolve e a = Ok a' -> resolve e b = Ok b' ->
  has_numeric a' = false -> has_numeric b' = false -> nodup_keys a' ->
  exists r, resolve e (EEquals a b) = Ok (VBool r) /\ (r = true <-> vperm a' b').
Proof.
  intros Ha Hb Hna Hnb Hda. exists (veqb a' b'). split; [apply equals_plain; assumption | apply veqb_true_iff_vperm; exact Hda].
Qed.
Lemma no_dict_nodup a : no_dict a = true -> nodup_keys a.
Proof.
  induction a as [| | | | | | l IH | d IH] using value_ind'; intros Hd; try reflexivity; [|discriminate].
  apply nodup_list_iff. cbn [no_dict] in Hd. rewrite forallb_forall in Hd. rewrite Forall_forall in *.
  intros x Hx. exact (IH x Hx (Hd x Hx)).
Qed.

(* a boolean context: an operand position, at any depth, under Fn::And / Fn::Or / Fn::Not *)
Inductive bctx :=
| BHole
| BAnd (l1 : list value) (c : bctx) (l2 : list value)
| BOr (l1 : list value) (c : bctx) (l2 : list value)
| BNot (c : bctx) (rest : list value).
Fixpoint plug (c : bctx) (x : value) : value :=
  match c with
  | BHole => x
  | BAnd l1 c l2 => EAnd (l1 ++ plug c x :: l2)
  | BOr l1 c l2 => EOr (l1 ++ plug c x :: l2)
  | BNot c rest => VDict [(K_Not, VList (plug c x :: rest))]
  end.

Lemma tv_not_rest e x rest : tv e (VDict [(K_Not, VList (x :: rest))]) = rneg (tv e x).
Proof. unfold tv at 1. rewrite resolve_not_rest. apply tv_not. Qed.

(* congruence: in a boolean position an operand can be replaced by any expression with the same truth value *)
Theorem tv_plug e c x y : tv e x = tv e y -> tv e (plug c x) = tv e (plug c y).
Proof.
  intros H. induction c as [| l1 c IH l2 | l1 c IH l2 | c IH rest]; cbn [plug].
  - exact H.
  - change EAnd with (EJ false). rewrite !tv_junction, !map_mid, IH. reflexivity.
  - change EOr with (EJ true). rewrite !tv_junction, !map_mid, IH. reflexivity.
  - rewrite !tv_not_rest, IH. reflexivity.
Qed.
Corollary resolve_plug e c x y : c <> BHole -> tv e x = tv e y -> resolve e (plug c x) = resolve e (plug c y).
Proof.
  intros Hc H. pose proof (tv_plug e c x y H) as Ht. destruct c as [| l1 c l2 | l1 c l2 | c rest]; [contradiction | | |]; cbn [plug] in *.
  - change EAnd with (EJ false) in *. rewrite !resolve_junction_of_tv, Ht. reflexivity.
  - change EOr with (EJ true) in *. rewrite !resolve_junction_of_tv, Ht. reflexivity.
  - rewrite !resolve_not_rest, !resolve_not_of_tv. rewrite !tv_not_rest in Ht. rewrite !tv_not, Ht. reflexivity.
Qed.

(* the accesses made in a boolean context: what stands in front of the hole, then (if the hole is reached) the accesses of
   the operand in the hole, then what follows, which depends on the operand through its truth value only *)
Definition goes_on (stop : bool) (r : res bool) : bool := match r with Ok b => negb (eqb b stop) | Err _ => false end.
Definition tj (stop : bool) : env -> list value -> tres bool := if stop then tany else tall.

Lemma fst_tv e x : (r <- fst (resolve_tr e x) ;; ext_bool r) = tv e x.
Proof. rewrite resolve_tr_result. reflexivity. Qed.

Lemma tj_cons stop e p l : snd (tj stop e (p :: l)) = trace_of e p ++ (if goes_on stop (tv e p) then snd (tj stop e l) else []).
Proof.
  unfold tv, trace_of. rewrite <- (resolve_tr_result e p). destruct stop; [rewrite tany_cons | rewrite tall_cons];
    destruct (resolve_tr e p) as [[r|k] t]; cbn [tbind fst snd bind goes_on]; rewrite ?app_nil_r; try reflexivity;
    destruct (ext_bool r) as [[|]|k]; cbn [tpure tbind fst snd goes_on eqb negb app]; rewrite ?app_nil_r; reflexivity.
Qed.
Lemma tj_mid stop e l1 p l2 :
  snd (tj stop e (l1 ++ p :: l2)) =
  snd (tj stop e l1) ++ (if goes_on stop (sc stop (map (tv e) l1))
                         then trace_of e p ++ (if goes_on stop (tv e p) then snd (tj stop e l2) else []) else []).
Proof.
  induction l1 as [|z l1 IH].
  - cbn [app map]. rewrite sc_nil, tj_cons. destruct stop; reflexivity.
  - cbn [app map]. rewrite !tj_cons, sc_cons, IH. destruct (tv e z) as [b|k]; cbn [goes_on bind]; [|rewrite !app_nil_r; reflexivity].
    destruct (eqb b stop); cbn [negb goes_on]; [|rewrite app_assoc; reflexivity].
    rewrite eqb_reflx, !app_nil_r. reflexivity.
Qed.
Lemma trace_junction stop e l : trace_of e (EJ stop l) = snd (tj stop e l).
Proof.
  unfold trace_of. destruct stop; cbv beta iota delta [EJ tj]; [rewrite rt_or, snd_tbind; destruct (fst (tany e l)) | rewrite rt_and, snd_tbind; destruct (fst (tall e l))];
    apply app_nil_r.
Qed.
Lemma trace_not e x rest : trace_of e (VDict [(K_Not, VList (x :: rest))]) = trace_of e x.
Proof. unfold trace_of. rewrite rt_not, snd_tbind. destruct (fst (resolve_tr e x)); cbn [tpure snd]; apply app_nil_r. Qed.

(* replacing the operand x in the hole by y with the same truth value: every access made afterwards was made before, or is an
   access of y -- and in that case the hole is reached, so the accesses of x were all made before.  One level: *)
Lemma junction_trace_step stop e l1 l2 px py (tx ty : trace) :
  tv e px = tv e py ->
  (forall a, In a (trace_of e py) -> In a (trace_of e px) \/ (In a ty /\ incl tx (trace_of e px))) ->
  forall a, In a (trace_of e (EJ stop (l1 ++ py :: l2))) ->
    In a (trace_of e (EJ stop (l1 ++ px :: l2))) \/ (In a ty /\ incl tx (trace_of e (EJ stop (l1 ++ px :: l2)))).
Proof.
  intros Htv IH a. rewrite !trace_junction, !tj_mid, Htv. intros Ha. apply in_app_or in Ha. destruct Ha as [Ha|Ha].
  - left. apply in_or_app. left. exact Ha.
  - destruct (goes_on stop (sc stop (map (tv e) l1))); [|destruct Ha]. apply in_app_or in Ha. destruct Ha as [Ha|Ha].
    + destruct (IH a Ha) as [H|[H1 H2]].
      * left. apply in_or_app. right. apply in_or_app. left. exact H.
      * right. split; [exact H1|]. intros z Hz. apply in_or_app. right. apply in_or_app. left. apply H2. exact Hz.
    + left. apply in_or_app. right. apply in_or_app. right. exact Ha.
Qed.
Theorem plug_trace e c x y : tv e x = tv e y ->
  forall a, In a (trace_of e (plug c y)) ->
    In a (trace_of e (plug c x)) \/ (In a (trace_of e y) /\ incl (trace_of e x) (trace_of e (plug c x))).
Proof.
  intros H. induction c as [| l1 c IH l2 | l1 c IH l2 | c IH rest]; cbn [plug]; intros a Ha.
  - right. split; [exact Ha | intros z Hz; exact Hz].
  - exact (junction_trace_step false e l1 l2 _ _ _ _ (tv_plug e c x y H) IH a Ha).
  - exact (junction_trace_step true e l1 l2 _ _ _ _ (tv_plug e c x y H) IH a Ha).
  - rewrite trace_not in *. exact (IH a Ha).
Qed.

(* the condition names that the body of a declared condition asks about, as it is evaluated, have smaller rank: no cycles *)
Definition cond_ranked (ps maps decl : list (str * value)) (rk : str -> nat) : Prop :=
  forall n body, lookup n decl = Some body ->
  forall m, In (ACond m) (trace_of (cenv ps maps (cond_root ps maps decl)) body) -> (rk m < rk n)%nat.
(* the same as a test (it implies [cond_ranked]: Properties/C02.v, C02_acyclic_checkable) *)
Definition cond_rankedb (ps maps decl : list (str * value)) (rk : str -> nat) : bool :=
  forallb (fun nb => forallb (fun a => match a with ACond m => Nat.ltb (rk m) (rk (fst nb)) | _ => true end)
                             (trace_of (cenv ps maps (cond_root ps maps decl)) (snd nb))) decl.

Lemma tv_cenv_frame ps maps (c c' : str -> res bool) body :
  (forall m, In (ACond m) (trace_of (cenv ps maps c) body) -> c' m = c m) ->
  tv (cenv ps maps c') body = tv (cenv ps maps c) body.
Proof.
  intros H. unfold tv. rewrite (resolve_frame (cenv ps maps c) (cenv ps maps c') body); [reflexivity|].
  apply agree_split. repeat split; intros k Hk; try reflexivity. cbn [conds cenv]. symmetry. apply H. exact Hk.
Qed.

Section Covers.
Variable decl : list (str * value).
Variable rk : str -> nat.
(* [rem] contains every declared name of rank at most rk n: nothing that n can reach is "in progress" *)
Definition covers (rem : list str) (n : str) : Prop :=
  forall i, mem_str i (keys decl) = true -> (rk i <= rk n)%nat -> mem_str i rem = true.
Lemma covers_keys n : covers (keys decl) n.
Proof. intros i Hi _. exact Hi. Qed.
Lemma covers_remove rem n m : covers rem n -> (rk m < rk n)%nat -> covers (remove_str n rem) m.
Proof.
  intros H Hlt i Hi Hle. rewrite mem_remove. apply andb_true_intro. split; [apply H; [exact Hi | lia]|].
  apply negb_true_iff. apply str_eqb_neq. intros ->. lia.
Qed.
End Covers.

(* ONE induction on the rank.  If [c] solves the defining equations at every name of smaller rank than n and the references of
   every body, read with [c], have smaller rank, then an evaluation of n computes the right-hand side of n's equation, as long as
   nothing of rank at most [rk n] is in progress *)
Lemma ranked_val ps maps decl rk (c : str -> res bool) :
  (forall n body, lookup n decl = Some body -> forall m, In (ACond m) (trace_of (cenv ps maps c) body) -> (rk m < rk n)%nat) ->
  forall r n, (rk n < r)%nat ->
  (forall m, (rk m < rk n)%nat -> c m = match lookup m decl with Some b => tv (cenv ps maps c) b | None => Ok false end) ->
  forall fuel rem, covers decl rk rem n -> (length rem < fuel)%nat ->
  cond_val ps maps decl fuel rem n = match lookup n decl with Some body => tv (cenv ps maps c) body | None => Ok false end.
Proof.
  intros Hrk. induction r as [|r IH]; intros n Hn Hc fuel rem Hcov Hf; [lia|]. destruct fuel as [|f]; [lia|].
  destruct (lookup n decl) as [body|] eqn:El; [|apply cond_val_undeclared; exact El].
  assert (Hm : mem_str n rem = true) by (apply Hcov; [exact (lookup_Some_mem_keys n decl body El) | lia]).
  rewrite (cond_val_step ps maps decl f rem n body Hm El).
  apply tv_cenv_frame. intros m Hmt. pose proof (Hrk n body El m Hmt) as Hlt. pose proof (remove_str_length n rem Hm).
  rewrite (Hc m Hlt). apply IH; [lia | intros i Hi; apply Hc; lia | apply covers_remove; assumption | lia].
Qed.

(* a solution [c] of the defining equations of ANY declaration list whose own references are ranked is what an evaluation computes,
   as long as nothing below n is in progress *)
Lemma ranked_solution ps maps decl rk (c : str -> res bool) :
  (forall n, lookup n decl = None -> c n = Ok false) ->
  (forall n body, lookup n decl = Some body -> c n = tv (cenv ps maps c) body) ->
  (forall n body, lookup n decl = Some body -> forall m, In (ACond m) (trace_of (cenv ps maps c) body) -> (rk m < rk n)%nat) ->
  forall n fuel rem, covers decl rk rem n -> (length rem < fuel)%nat -> cond_val ps maps decl fuel rem n = c n.
Proof.
  intros Hnone Hsome Hrk.
  assert (Hsol : forall m, c m = match lookup m decl with Some b => tv (cenv ps maps c) b | None => Ok false end).
  { intros m. destruct (lookup m decl) as [b|] eqn:El; [exact (Hsome m b El) | exact (Hnone m El)]. }
  intros n fuel rem Hcov Hf. rewrite (Hsol n).
  apply (ranked_val ps maps decl rk c Hrk (S (rk n))); [lia | intros m _; apply Hsol | exact Hcov | exact Hf].
Qed.

Section Ranked.
Variables ps maps decl : list (str * value).
Variable rk : str -> nat.
Hypothesis Hrk : cond_ranked ps maps decl rk.
Let c := cond_root ps maps decl.

(* THE DEFINING EQUATIONS: the value of a declared condition is the truth value of its body, evaluated with every reference
   answered by the value of the referenced condition; an undeclared name is false *)
Theorem undeclared_false n : lookup n decl = None -> cond_root ps maps decl n = Ok false.
Proof. intros El. apply cond_val_undeclared. exact El. Qed.
(* ... and the values at the root solve them: by induction on the rank, with [ranked_val] at the root context *)
Lemma root_equation : forall r n, (rk n < r)%nat ->
  c n = match lookup n decl with Some body => tv (cenv ps maps c) body | None => Ok false end.
Proof.
  induction r as [|r IH]; intros n Hn; [lia|]. unfold c at 1, cond_root.
  apply (ranked_val ps maps decl rk c Hrk (S (rk n))); [lia | intros m Hm; apply IH; lia | apply covers_keys | rewrite keys_length; lia].
Qed.
Theorem ranked_equation n body : lookup n decl = Some body -> cond_root ps maps decl n = tv (cenv ps maps (cond_root ps maps decl)) body.
Proof. intros El. pose proof (root_equation (S (rk n)) n (Nat.lt_succ_diag_r _)) as H. rewrite El in H. exact H. Qed.
End Ranked.

(* all condition values at once, and the resolved model *)
Lemma cond_all_ext ps maps decl decl' names : (forall k, In k names -> cond_root ps maps decl' k = cond_root ps maps decl k) ->
  cond_all ps maps decl' names = cond_all ps maps decl names.
Proof.
  induction names as [|n r IH]; intros H; [reflexivity|]. cbn [cond_all].
  rewrite (H n (or_introl eq_refl)), IH; [reflexivity|]. intros k Hk. apply H. right. exact Hk.
Qed.
Lemma cond_all_filter ps maps decl (f : str -> bool) names l : cond_all ps maps decl names = Ok l ->
  cond_all ps maps decl (filter f names) = Ok (filter (fun nb => f (fst nb)) l).
Proof.
  revert l; induction names as [|n r IH]; intros l H; cbn [cond_all] in H; [inv H; reflexivity|]. bind_inv. inv H.
  cbn [filter fst]. destruct (f n); [cbn [cond_all]; rewrite E, (IH a0 eq_refl); reflexivity | exact (IH a0 eq_refl)].
Qed.

(* what a Condition / Fn::If inside a RESOURCE sees is exactly the value of the declared condition (false if undeclared) *)
Lemma cond_all_lookup ps maps decl names l : cond_all ps maps decl names = Ok l ->
  forall n, match lookup n l with
            | Some b => mem_str n names = true /\ cond_root ps maps decl n = Ok b
            | None => mem_str n names = false
            end.
Proof.
  revert l; induction names as [|n0 r IH]; intros l H n; cbn [cond_all] in H.
  - inv H. reflexivity.
  - bind_inv. inv H. cbn [lookup mem_str existsb]. destruct (str_eqb n n0) eqn:Enn.
    + apply str_eqb_spec in Enn. subst n0. split; [reflexivity | assumption].
    + specialize (IH a0 eq_refl n). cbn [orb]. exact IH.
Qed.

(* removing a condition that no other condition asks about *)
Definition remove_key (n : str) (d : list (str * value)) : list (str * value) := filter (fun kv => negb (str_eqb n (fst kv))) d.
Lemma lookup_remove_key n k d : lookup k (remove_key n d) = if str_eqb n k then None else lookup k d.
Proof.
  unfold remove_key. rewrite (lookup_filter_keys k d (fun x => negb (str_eqb n x))). destruct (str_eqb n k); reflexivity.
Qed.
Lemma keys_remove_key n d : keys (remove_key n d) = remove_str n (keys d).
Proof.
  unfold remove_key, remove_str, keys. induction d as [|[k x] d IH]; [reflexivity|]. cbn [filter map fst].
  destruct (str_eqb n k); cbn [negb map fst]; rewrite IH; reflexivity.
Qed.
Lemma remove_key_length n d : (length (remove_key n d) <= length d)%nat.
Proof. apply filter_length_le. Qed.

Lemma remove_cond_val ps maps decl n : forall f rem rem' k,
  (forall x, x <> n -> mem_str x rem' = mem_str x rem) -> k <> n ->
  ~ In (ACond n) (cond_trace ps maps decl f rem k) ->
  cond_val ps maps (remove_key n decl) f rem' k = cond_val ps maps decl f rem k.
Proof.
  induction f as [|f IH]; intros rem rem' k Hmem Hk Hn; [reflexivity|].
  cbn [cond_val cond_trace] in *. rewrite (Hmem k Hk). destruct (mem_str k rem); [|reflexivity].
  rewrite lookup_remove_key. assert (Ek : str_eqb n k = false) by (apply str_eqb_neq; intros ->; apply Hk; reflexivity).
  rewrite Ek. destruct (lookup k decl) as [body|]; [|reflexivity].
  apply (tv_cenv_frame ps maps (cond_val ps maps decl f (remove_str k rem)) (cond_val ps maps (remove_key n decl) f (remove_str k rem')) body).
  intros m Hm.
  assert (Hmn : m <> n). { intros ->. apply Hn. apply in_or_app. left. exact Hm. }
  apply IH.
  - intros x Hx. rewrite !mem_remove, (Hmem x Hx). reflexivity.
  - exact Hmn.
  - intros Hin. apply Hn. apply in_or_app. right. apply in_flat_map. exists (ACond m). split; [exact Hm | exact Hin].
Qed.

(* a condition declared as {"Fn::Not": [{"Condition": c}]} has the negated value *)
Theorem declared_negation ps maps decl rk c c' : cond_ranked ps maps decl rk -> lookup c' decl = Some (ENot (ECond c)) ->
  cond_root ps maps decl c' = rneg (cond_root ps maps decl c).
Proof. intros Hrk Hl. rewrite (ranked_equation ps maps decl rk Hrk c' _ Hl), tv_not, tv_cond. reflexivity. Qed.

(* nested Fn::If on the same condition collapses (unconditionally) *)
Theorem if_nested_then e c a b d : resolve e (EIf c (EIf c a b) d) = resolve e (EIf c a d).
Proof.
  unfold EIf. rewrite (resolve_if e c (VDict [(K_If, VList [VStr c; a; b])]) d), (resolve_if e c a d).
  destruct (conds e c) as [[|]|k] eqn:E; cbn [bind]; try reflexivity. rewrite resolve_if, E. reflexivity.
Qed.
Theorem if_nested_else e c a b d : resolve e (EIf c a (EIf c b d)) = resolve e (EIf c a d).
Proof.
  unfold EIf. rewrite (resolve_if e c a (VDict [(K_If, VList [VStr c; b; d])])), (resolve_if e c a d).
  destruct (conds e c) as [[|]|k] eqn:E; cbn [bind]; try reflexivity. rewrite resolve_if, E. reflexivity.
Qed.

(* AWS::NoValue pruning in lists: the resolved list is the list of the members' results with exactly the AWS::NoValue results
   removed, in order *)
Theorem rlist_spec e l l' : rlist e l = Ok l' <->
  exists rs, Forall2 (fun x r => resolve e x = Ok r) l rs /\ l' = filter (fun r => negb (is_novalue r)) rs.
Proof.
  split.
  - revert l'; induction l as [|x xs IH]; intros l' H.
    + inv H. exists []. split; [constructor | reflexivity].
    + rewrite rlist_cons in H. bind_inv. inv H. destruct (IH a0 eq_refl) as (rs & HF & ->).
      exists (a :: rs). split; [constructor; assumption|]. cbn [filter]. destruct (is_novalue a); reflexivity.
  - intros (rs & HF & ->). induction HF as [|x r xs rs Hx HF IH]; [reflexivity|].
    rewrite rlist_cons, Hx, IH. cbn [bind filter]. destruct (is_novalue r); reflexivity.
Qed.
Lemma filter_partition_length {A} (f : A -> bool) l :
  (length (filter (fun x => negb (f x)) l) + length (filter f l) = length l)%nat.
Proof. induction l as [|x xs IH]; [reflexivity|]. cbn [filter]. destruct (f x); cbn [negb length]; lia. Qed.
(* the same for the entries of an object *)
Theorem rdict_spec e d d' : rdict e d = Ok d' <->
  exists rs, Forall2 (fun kx kr => fst kx = fst kr /\ resolve e (snd kx) = Ok (snd kr)) d rs /\
             d' = filter (fun kr => negb (is_novalue (snd kr))) rs.
Proof.
  split.
  - revert d'; induction d as [|[k x] xs IH]; intros d' H.
    + inv H. exists []. split; [constructor | reflexivity].
    + rewrite rdict_cons in H. bind_inv. inv H. destruct (IH a0 eq_refl) as (rs & HF & ->).
      exists ((k, a) :: rs). split; [constructor; [split; [reflexivity | assumption] | assumption]|].
      cbn [filter snd]. destruct (is_novalue a); reflexivity.
  - intros (rs & HF & ->). induction HF as [|[k x] [k' r] xs rs [Hk Hx] HF IH]; [reflexivity|].
    cbn [fst snd] in Hk, Hx. subst k'. rewrite rdict_cons, Hx, IH. cbn [bind filter snd]. destruct (is_novalue r); reflexivity.
Qed.

(* the resource gate *)
Definition gate_open (resolved : list (str * bool)) (r : value) : bool :=
  match gate resolved r with Ok true => true | _ => false end.
(* which resources are present is decided by the gates alone *)
Theorem resolve_resources_keys e resolved rs out : resolve_resources e resolved rs = Ok out ->
  keys out = keys (filter (fun kv => gate_open resolved (snd kv)) rs).
Proof.
  revert out; induction rs as [|[id r] rest IH]; intros out H; cbn [resolve_resources] in H.
  - inv H. reflexivity.
  - cbn [filter snd]. unfold gate_open at 1. destruct (gate resolved r) as [[|]|k]; cbn [bind] in H; [| |discriminate].
    + bind_inv. inv H. unfold keys in *. cbn [map fst]. rewrite (IH a0 eq_refl). reflexivity.
    + apply IH. exact H.
Qed.
