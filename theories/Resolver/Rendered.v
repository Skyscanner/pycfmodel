(* C03: WHICH results of [resolve] are rendered -- and therefore fixed points of a second resolution.

   [rendered_fixed_point] (FixFacts.v) says: a function-free value whose texts are fixed points of [render_str] is a fixed point of
   [resolve].  By itself that assumes the conclusion leaf by leaf.  Here the hypothesis is on the INPUT: a syntactic fragment
   of expressions, [builds_no_text], whose resolution is proved to be rendered.

   The fragment, looking only at the positions whose value flows into the result:
     leaves                        null, booleans, integers, text; a typed atom / bytes whose text is [plain_text] (every float, date ...)
     lists, objects                member-wise (AWS::NoValue members are dropped by resolution)
     Ref, Fn::ImportValue          the result is a normalised parameter value or the UNDEFINED_PARAM_ placeholder (body not inspected)
     Fn::GetAtt, Fn::GetAZs        the constants GETATT / GETAZS (body not inspected)
     Fn::If                        both branches in the fragment
     Fn::Select                    the list in the fragment: a member of a rendered list is rendered (index not inspected)
   Outside (each with a witness at the end of the file, [boundary_*]; finding numbers are those of the table in DESIGN.md 7.3):
     Fn::Join, Fn::Sub, Fn::Split  BUILD text: it can spell TRUE / an SSM reference and is stored as built      (finding F20)
     Fn::Base64                    also builds text: base64("M\x15\x04") = "TRUE"                                 (finding F20)
     Fn::FindInMap                 returns the mapping leaf as written                                           (finding F14b)
     bytes / typed atoms           whose text is not [plain_text] (bytes 4D 15 04 are rendered as "TRUE")
     Condition, Fn::And/Or/Not/Equals in a VALUE position: the result is a Python bool, which a second resolution renders as text.
   [rendered] is used as defined in FixFacts.v (false on booleans): the theorems are about value positions.

   Hypotheses on the environment (booleans, with examples [env_hyps_hold] and counter-examples [ssm_value_must_be_rendered]):
     [params_rendered ps]   (1) a parameter whose NAME has the shape of an SSM key (name:version) and whose value is a non-empty text
                                has a value that rendering leaves alone -- [render_str] returns the looked-up SSM value AS IT IS, so a
                                value "TRUE" stored under "/p:1" comes out of "{{resolve:ssm:/p:1}}" unrendered;
                            (2) typed atoms / bytes inside parameter values have texts that rendering leaves alone.
                            Ordinary parameters may hold "True", "FALSE", ...: Ref lower-cases them (pycfmodel's repair of F14).
     [params_plainb ps]     parameter values contain no objects (only for "no function left"; FixFacts.params_plain). *)
From Coq Require Import List Bool NArith ZArith Lia.
From PV Require Import Base.Str Base.Value Resolver.Consts Resolver.Text Resolver.Resolve Resolver.Spec Resolver.Template
  Resolver.ParamFacts Resolver.FixFacts Resolver.ModelFix.
Import ListNotations.
Local Open Scope N_scope.

(* whatever the parameters: no SSM reference at its start, and not a boolean spelled with a capital letter *)
Definition plain_text (s : str) : bool :=
  match ssm_key s with
  | Some _ => false
  | None => negb (is_boolish s) || str_eqb (lower s) s
  end.
Lemma plain_text_fixed ps s : plain_text s = true -> render_str ps s = s.
Proof.
  unfold plain_text, render_str. destruct (ssm_key s); [discriminate|].
  destruct (is_boolish s); simpl; intros H; [apply str_eqb_spec; exact H | reflexivity].
Qed.
Lemma plain_text_rendered ps s : plain_text s = true -> rendered ps (VStr s) = true.
Proof. intros H. cbn [rendered]. rewrite (plain_text_fixed ps s H). apply str_eqb_refl. Qed.

Lemma strip_prefix_head c r : c <> 123 -> strip_prefix S_SSM_PREFIX (c :: r) = None.
Proof.
  intros H. unfold S_SSM_PREFIX. cbn [strip_prefix]. destruct (N.eqb_spec 123 c) as [E|E]; [congruence | reflexivity].
Qed.
(* decided by the first character: not '{', not t/T, not f/F *)
Lemma plain_head c r : c <> 123 -> lower_cp c <> 116 -> lower_cp c <> 102 -> plain_text (c :: r) = true.
Proof.
  intros H1 H2 H3. unfold plain_text, ssm_key. rewrite (strip_prefix_head c r H1).
  assert (Hb : is_boolish (c :: r) = false).
  { unfold is_boolish, S_true, S_false, lower. cbn [map str_eqb].
    apply N.eqb_neq in H2, H3. rewrite H2, H3. reflexivity. }
  rewrite Hb. reflexivity.
Qed.
Lemma plain_low c r : c < 65 -> plain_text (c :: r) = true.
Proof. intros H. apply plain_head; [lia | rewrite lower_cp_low by assumption; lia ..]. Qed.

Lemma plain_bool_text b : plain_text (bool_text b) = true.
Proof. destruct b; vm_compute; reflexivity. Qed.
Lemma plain_undefined_param key : plain_text (undefined_param key) = true.
Proof.
  unfold undefined_param, S_UNDEF_PARAM. cbn [app].
  apply plain_head; [discriminate | intros H; vm_compute in H; discriminate H ..].
Qed.

(* str(int): a digit or '-' first *)
Lemma plain_str_of_Z z : plain_text (str_of_Z z) = true.
Proof.
  destruct z as [|p|p]; unfold str_of_Z; [reflexivity | | apply plain_low; lia].
  destruct (digits_N_head (N.pos p)) as (c & rest & -> & Hc). apply plain_low. lia.
Qed.

(* the SSM branch: which parameter names can be looked up by a dynamic reference *)
(* name ':' version, name = one or more of [A-Za-z0-9_./-], version = one or more digits *)
Definition ssm_shaped (key : str) : bool :=
  let '(name, r1) := span is_ssm_name_char key in
  match name, r1 with
  | _ :: _, c :: r2 =>
      (c =? 58) && (let '(ver, r3) := span is_digit r2 in match ver, r3 with _ :: _, [] => true | _, _ => false end)
  | _, _ => false
  end.
Lemma ssm_key_shaped s key : ssm_key s = Some key -> ssm_shaped key = true.
Proof.
  intros H. destruct (ssm_key_inv s key H) as (name & ver & _ & _ & -> & Hn & Hv & Fn & Fv).
  unfold ssm_shaped. rewrite (span_all is_ssm_name_char name 58 ver Fn eq_refl).
  destruct name as [|n0 name]; [congruence|]. cbn [N.eqb Pos.eqb andb]. rewrite (span_full is_digit ver Fv).
  destruct ver; [congruence | reflexivity].
Qed.

Definition ssm_values_fixed (ps : list (str * value)) : Prop :=
  forall key c r, ssm_shaped key = true -> lookup key ps = Some (VStr (c :: r)) -> render_str ps (c :: r) = c :: r.

(* rendering is idempotent -- given that the values an SSM reference can fetch are rendered (they are returned as they are) *)
Lemma render_str_idem ps s : ssm_values_fixed ps -> render_str ps (render_str ps s) = render_str ps s.
Proof.
  intros Hs. remember (render_str ps s) as t eqn:Ht. unfold render_str in Ht. destruct (ssm_key s) as [key|] eqn:Ek.
  - apply ssm_key_shaped in Ek.
    destruct (lookup key ps) as [[| | | [|c r] | | | |]|] eqn:El; subst t;
      try (apply plain_text_fixed, plain_undefined_param).
    exact (Hs key c r Ek El).
  - destruct (is_boolish s) eqn:Eb.
    + subst t. unfold is_boolish in Eb. apply orb_true_iff in Eb.
      destruct Eb as [Eb|Eb]; apply str_eqb_spec in Eb; rewrite Eb; apply plain_text_fixed; vm_compute; reflexivity.
    + subst t. unfold render_str. rewrite Ek, Eb. reflexivity.
Qed.

(* typed atoms and bytes are rendered as their text, as it is *)
Fixpoint atoms_fixed (ps : list (str * value)) (v : value) : bool :=
  match v with
  | VTyped _ t => str_eqb (render_str ps t) t
  | VBytes b => str_eqb (render_str ps (b64encode b)) (b64encode b)
  | VList l => forallb (atoms_fixed ps) l
  | VDict d => forallb (fun kv => atoms_fixed ps (snd kv)) d
  | _ => true
  end.
Definition param_ok (ps : list (str * value)) (kv : str * value) : bool :=
  atoms_fixed ps (snd kv) &&
  match snd kv with
  | VStr (c :: r) => negb (ssm_shaped (fst kv)) || str_eqb (render_str ps (c :: r)) (c :: r)
  | _ => true
  end.
Definition params_rendered (ps : list (str * value)) : bool := forallb (param_ok ps) ps.
Definition params_plainb (ps : list (str * value)) : bool := forallb (fun kv => nodict (snd kv)) ps.

Lemma params_rendered_lookup ps k x : params_rendered ps = true -> lookup k ps = Some x -> param_ok ps (k, x) = true.
Proof. intros H Hl. unfold params_rendered in H. rewrite forallb_forall in H. exact (H _ (lookup_In _ _ _ Hl)). Qed.
Lemma params_rendered_ssm ps : params_rendered ps = true -> ssm_values_fixed ps.
Proof.
  intros H key c r Hk Hl. pose proof (params_rendered_lookup ps key _ H Hl) as Hp.
  apply andb_true_iff in Hp. destruct Hp as [_ Hv]. cbn [fst snd] in Hv. rewrite Hk in Hv. apply str_eqb_spec. exact Hv.
Qed.
Lemma params_rendered_atoms ps k x : params_rendered ps = true -> lookup k ps = Some x -> atoms_fixed ps x = true.
Proof. intros H Hl. pose proof (params_rendered_lookup ps k x H Hl) as Hp. apply andb_true_iff in Hp. apply Hp. Qed.
Lemma params_plainb_plain e : params_plainb (params e) = true -> params_plain e.
Proof.
  intros H k v Hl. unfold params_plainb in H. rewrite forallb_forall in H. exact (H _ (lookup_In _ _ _ Hl)).
Qed.

Lemma normalize_rendered ps : ssm_values_fixed ps ->
  forall v r, atoms_fixed ps v = true -> normalize ps v = Ok r -> rendered ps r = true.
Proof.
  intros Hs v. induction v using value_ind'; intros r Ha Hr.
  - inv Hr. reflexivity.
  - inv Hr. apply plain_text_rendered, plain_bool_text.
  - inv Hr. apply plain_text_rendered, plain_str_of_Z.
  - inv Hr. cbn [rendered]. rewrite (render_str_idem ps s Hs). apply str_eqb_refl.
  - inv Hr. exact Ha.
  - inv Hr. exact Ha.
  - rewrite normalize_list in Hr. bind_inv. inv Hr. cbn [rendered atoms_fixed] in *. apply forallb_forall. intros y Hy.
    destruct (mlist_In _ _ _ _ E Hy) as (Hnv & x & Hx & Hf).
    rewrite Forall_forall in H. rewrite forallb_forall in Ha. rewrite (H x Hx y (Ha x Hx) Hf), Hnv. reflexivity.
  - rewrite normalize_dict in Hr. destruct (is_fn_dict d); [discriminate|]. bind_inv. inv Hr. cbn [rendered atoms_fixed] in *.
    apply forallb_forall. intros [k y] Hy. destruct (mdict_In _ _ _ _ _ E Hy) as (Hnv & x & Hx & Hf).
    rewrite Forall_forall in H. rewrite forallb_forall in Ha. cbn [snd]. rewrite (H _ Hx y (Ha _ Hx) Hf), Hnv. reflexivity.
Qed.

(* Ref / Fn::ImportValue: whatever the (resolved) body is *)
Lemma do_ref_rendered e b r : params_rendered (params e) = true -> do_ref e b = Ok r -> rendered (params e) r = true.
Proof.
  intros Hp H. unfold do_ref in H. destruct b; try discriminate.
  destruct (lookup s (params e)) as [x|] eqn:El.
  - eapply normalize_rendered; [apply params_rendered_ssm; exact Hp | eapply params_rendered_atoms; eassumption | exact H].
  - inv H. apply plain_text_rendered, plain_undefined_param.
Qed.

Definition text_builder (k : str) : bool :=
  str_eqb k K_Join || str_eqb k K_Sub || str_eqb k K_Split || str_eqb k K_FindInMap || str_eqb k K_Base64.
Definition cond_fn (k : str) : bool :=
  str_eqb k K_Condition || str_eqb k K_And || str_eqb k K_Or || str_eqb k K_Not || str_eqb k K_Equals.
Definition opaque_fn (k : str) : bool :=
  str_eqb k K_Ref || str_eqb k K_ImportValue || str_eqb k K_GetAtt || str_eqb k K_GetAZs.

(* no text-building function, no condition function and no unrendered atom in a position whose value reaches the result.
   (an ill-formed Fn::If / Fn::Select body makes [resolve] raise: nothing to say, hence [true]) *)
Fixpoint builds_no_text (v : value) : bool :=
  match v with
  | VList l => forallb builds_no_text l
  | VDict d =>
      match d with
      | [(k, body)] =>
          if text_builder k || cond_fn k then false
          else if opaque_fn k then true
          else if str_eqb k K_If then
            match body with VList [_; t; f] => builds_no_text t && builds_no_text f | _ => true end
          else if str_eqb k K_Select then
            match body with VList [_; l] => builds_no_text l | _ => true end
          else builds_no_text body
      | _ => forallb (fun kv => builds_no_text (snd kv)) d
      end
  | VTyped _ t => plain_text t
  | VBytes b => plain_text (b64encode b)
  | _ => true
  end.

Lemma bnt_if c t f : builds_no_text (VDict [(K_If, VList [c; t; f])]) = builds_no_text t && builds_no_text f.
Proof. reflexivity. Qed.
Lemma bnt_select i l : builds_no_text (VDict [(K_Select, VList [i; l])]) = builds_no_text l.
Proof. reflexivity. Qed.
Lemma bnt_generic d : is_fn_dict d = false -> builds_no_text (VDict d) = forallb (fun kv => builds_no_text (snd kv)) d.
Proof.
  intros H. destruct d as [|[k body] [|kv2 rest]]; try reflexivity.
  cbn [builds_no_text forallb snd]. unfold text_builder, cond_fn, opaque_fn.
  rewrite !(not_fn_key k _ H) by (apply mem_str_In; reflexivity). cbn [orb]. rewrite andb_true_r. reflexivity.
Qed.

Lemma do_select_rendered ps i l r : rendered ps l = true -> do_select i l = Ok r -> rendered ps r = true.
Proof.
  intros Hl H. destruct (do_select_member i l r H) as [-> | (ls & -> & Hin)]; [reflexivity|].
  cbn [rendered] in Hl. rewrite forallb_forall in Hl. specialize (Hl r Hin). apply andb_true_iff in Hl. apply Hl.
Qed.

Theorem resolve_rendered e v r : params_rendered (params e) = true ->
  builds_no_text v = true -> resolve e v = Ok r -> rendered (params e) r = true.
Proof.
  intros Hp. revert r. induction v using resolve_ind; intros r Hb Hr; try discriminate Hb.
  - (* atoms *) destruct v; try contradiction; inv Hr.
    + reflexivity.
    + apply plain_text_rendered, plain_bool_text.
    + apply plain_text_rendered, plain_str_of_Z.
    + cbn [rendered]. rewrite (render_str_idem _ s (params_rendered_ssm _ Hp)). apply str_eqb_refl.
    + apply plain_text_rendered, Hb.
    + apply plain_text_rendered, Hb.
  - (* list *) rewrite resolve_list in Hr. bind_inv. inv Hr. cbn [rendered builds_no_text] in *. apply forallb_forall. intros y Hy.
    destruct (mlist_In _ _ _ _ E Hy) as (Hnv & x & Hx & Hf).
    rewrite Forall_forall in H. rewrite forallb_forall in Hb. rewrite (H x Hx y (Hb x Hx) Hf), Hnv. reflexivity.
  - (* object *) rewrite resolve_dict_generic in Hr by assumption. bind_inv. inv Hr. rewrite bnt_generic in Hb by assumption.
    cbn [rendered]. apply forallb_forall. intros [k y] Hy. destruct (mdict_In _ _ _ _ _ E Hy) as (Hnv & x & Hx & Hf).
    rewrite Forall_forall in H0. rewrite forallb_forall in Hb. cbn [snd]. rewrite (H0 _ Hx y (Hb _ Hx) Hf), Hnv. reflexivity.
  - (* Ref, ImportValue *) rewrite resolve_ref_import in Hr by assumption. bind_inv. eapply do_ref_rendered; eassumption.
  - (* Select *) rewrite resolve_select in Hr. bind_inv. eapply do_select_rendered; [exact (IHv2 a0 Hb eq_refl) | exact Hr].
  - (* GetAtt *) inv Hr. reflexivity.
  - (* GetAZs *) inv Hr. reflexivity.
  - (* If *) rewrite resolve_if in Hr. bind_inv. rewrite bnt_if in Hb. apply andb_true_iff in Hb. destruct Hb, a; eauto.
  - (* ill-formed call *) rewrite (resolve_ill e k v er H) in Hr. discriminate.
Qed.

(* no function object is left, and the fixed point with every hypothesis on the INPUT *)
Lemma imp_andb_false (M : Prop) a b : (a && b = false -> M) -> (a = false -> M) /\ (b = false -> M).
Proof. intros H. split; intros ->; apply H; [reflexivity | apply andb_false_r]. Qed.

(* after resolution no function object is left.  Only Fn::FindInMap returns something of the environment as it is written there:
   the Mappings have to be plain only when one can reach the result, that is outside the fragment *)
Theorem no_function_left e v r : params_plain e -> resolve e v = Ok r ->
  fn_keys_alone v = true -> (builds_no_text v = false -> maps_plain e) -> no_fn_dict r = true.
Proof.
  intros Hp H. apply resolve_iff_eval in H. revert v r H.
  apply (Eval_mut e (fun v r _ => fn_keys_alone v = true -> (builds_no_text v = false -> maps_plain e) -> no_fn_dict r = true)
    (fun l l' _ => forallb fn_keys_alone l = true -> (forallb builds_no_text l = false -> maps_plain e) -> forallb no_fn_dict l' = true)
    (fun d d' _ => forallb (fun kv => fn_keys_alone (snd kv)) d = true ->
                   (forallb (fun kv => builds_no_text (snd kv)) d = false -> maps_plain e) ->
                   forallb (fun kv => no_fn_dict (snd kv)) d' = true)
    (fun _ _ _ => True) (fun _ _ _ => True)); intros; try reflexivity; try exact I.
  - (* list *) simpl in *. auto.
  - (* object *) rewrite (bnt_generic _ e0) in H1. simpl in H0. rewrite e0 in H0. simpl in H0.
    apply andb_true_iff in H0. destruct H0 as [Hs Hv].
    simpl. rewrite (pruned_not_fn_dict _ _ _ e1 Hs). simpl. auto.
  - (* Ref *) eapply do_ref_nofn; eauto.
  - (* Join *) eapply do_join_nofn; eauto.
  - (* Split *) eapply do_split_nofn; eauto.
  - (* Select *) rewrite bnt_select in H2. eapply do_select_nofn; [apply H0; [exact (fka_select _ _ H1) | exact H2] | eassumption].
  - (* FindInMap *) eapply do_find_in_map_nofn; [apply H3; reflexivity | eassumption].
  - (* Sub, text *) eapply do_sub_nofn; eauto.
  - (* Sub, text and map *) eapply do_sub_nofn; eauto.
  - (* Base64 *) eapply do_base64_nofn; eauto.
  - (* If, true *) rewrite bnt_if in H1. apply H; [apply (fka_if _ _ _ H0) | apply (imp_andb_false _ _ _ H1)].
  - (* If, false *) rewrite bnt_if in H1. apply H; [apply (fka_if _ _ _ H0) | apply (imp_andb_false _ _ _ H1)].
  - (* EL_keep *) simpl in H1, H2. apply andb_true_iff in H1. destruct H1, (imp_andb_false _ _ _ H2). simpl. rewrite H, H0; auto.
  - (* EL_drop *) simpl in H1, H2. apply andb_true_iff in H1. destruct H1, (imp_andb_false _ _ _ H2). auto.
  - (* ED_keep *) simpl in H1, H2. apply andb_true_iff in H1. destruct H1, (imp_andb_false _ _ _ H2). simpl. rewrite H, H0; auto.
  - (* ED_drop *) simpl in H1, H2. apply andb_true_iff in H1. destruct H1, (imp_andb_false _ _ _ H2). auto.
Qed.

(* for the fragment no hypothesis on the Mappings is needed *)
Theorem fragment_no_function_left e v r : params_plainb (params e) = true ->
  fn_keys_alone v = true -> builds_no_text v = true -> resolve e v = Ok r -> no_fn_dict r = true.
Proof.
  intros Hp Hf Hb H. apply (no_function_left e v r (params_plainb_plain e Hp) H Hf). rewrite Hb. discriminate.
Qed.

(* the MODEL: m.resolve(p).resolve(p) == m.resolve(p), hypotheses on the template only *)
(* the Type of a resource and the NAME in its Condition attribute are put back literally after resolution ([keep_type]): they
   must be texts that rendering leaves alone (and not the AWS::NoValue marker, which is pruned) *)
Definition literal_ok (ps : list (str * value)) (t : str) : bool :=
  str_eqb (render_str ps t) t && negb (str_eqb t S_NOVALUE).
(* a resource of the fragment: an object with distinct keys that is not a function object ([resource_wf]), every member in
   the fragment, a textual Type, literal Type / Condition name.  The Condition attribute needs no anchor here: the Type stays. *)
Definition resource_in_fragment (ps : list (str * value)) (r : value) : bool :=
  resource_wf ps r &&
  match r with
  | VDict fields =>
      forallb (fun kv => fn_keys_alone (snd kv) && builds_no_text (snd kv)) fields
      && match lookup K_Type fields with Some (VStr t) => literal_ok ps t | _ => false end
      && match lookup K_Condition fields with Some (VStr c) => literal_ok ps c | _ => true end
  | _ => false
  end.

Lemma has_type_not_fn_dict d v : lookup K_Type d = Some v -> is_fn_dict d = false.
Proof.
  destruct d as [|[k x] [|? ?]]; try reflexivity. cbn [lookup]. destruct (str_eqb K_Type k) eqn:E; [|discriminate].
  intros _. apply str_eqb_spec in E. subst k. reflexivity.
Qed.

Lemma keep_type_fragment ps fields d' t :
  lookup K_Type fields = Some (VStr t) -> literal_ok ps t = true ->
  match lookup K_Condition fields with Some (VStr c) => literal_ok ps c | _ => true end = true ->
  forallb (fun kv => rendered ps (snd kv) && negb (is_novalue (snd kv))) d' = true ->
  forallb (fun kv => no_fn_dict (snd kv)) d' = true ->
  rendered ps (keep_type (VDict fields) (VDict d')) = true /\ no_fn_dict (keep_type (VDict fields) (VDict d')) = true.
Proof.
  intros Ht Hlt Hlc Hr Hn. cbn [keep_type]. split.
  - cbn [rendered]. apply keep_key_forallb.
    + intros c Hc. rewrite Hc in Hlc. exact Hlc.
    + apply keep_key_forallb; [|exact Hr]. intros t' Ht'. rewrite Ht in Ht'. inv Ht'. exact Hlt.
  - cbn [no_fn_dict]. apply andb_true_iff. split.
    + apply negb_true_iff. apply (has_type_not_fn_dict _ (VStr t)). rewrite lookup_keep_key_other by reflexivity.
      exact (lookup_keep_key_same K_Type fields d' t Ht).
    + apply keep_key_forallb; [reflexivity|]. apply keep_key_forallb; [reflexivity | exact Hn].
Qed.

Lemma rdict_fragment e : params_rendered (params e) = true -> params_plainb (params e) = true ->
  forall d d', forallb (fun kv => fn_keys_alone (snd kv) && builds_no_text (snd kv)) d = true -> rdict e d = Ok d' ->
  forallb (fun kv => rendered (params e) (snd kv) && negb (is_novalue (snd kv))) d' = true /\
  forallb (fun kv => no_fn_dict (snd kv)) d' = true.
Proof.
  intros Hr Hp d d' Hd H. rewrite forallb_forall in Hd.
  assert (Hmem : forall k y, In (k, y) d' -> rendered (params e) y && negb (is_novalue y) = true /\ no_fn_dict y = true).
  { intros k y Hy. destruct (mdict_In (resolve e) d d' k y H Hy) as (Hnv & x & Hx & Hy').
    specialize (Hd _ Hx). apply andb_true_iff in Hd. destruct Hd as [Hf Hb].
    rewrite (resolve_rendered e x y Hr Hb Hy'), Hnv. split; [reflexivity | exact (fragment_no_function_left e x y Hp Hf Hb Hy')]. }
  split; apply forallb_forall; intros [k y] Hy; apply (Hmem k y Hy).
Qed.

Lemma resolve_resource_fragment e r r' : params_rendered (params e) = true -> params_plainb (params e) = true ->
  resource_in_fragment (params e) r = true -> resolve_resource e r = Ok r' ->
  no_fn_dict r' = true /\ rendered (params e) r' = true.
Proof.
  intros Hr Hp Hf H. unfold resource_in_fragment in Hf. apply andb_true_iff in Hf. destruct Hf as [Hwf Hf].
  destruct r as [| | | | | | |fields]; try discriminate.
  apply andb_true_iff in Hf. destruct Hf as [Hf Hlc]. apply andb_true_iff in Hf. destruct Hf as [Hm Hlt].
  unfold resource_wf in Hwf. apply andb_true_iff in Hwf. destruct Hwf as [Hnf _]. apply negb_true_iff in Hnf.
  unfold resolve_resource in H. rewrite (resolve_dict_generic e fields Hnf) in H.
  destruct (rdict e fields) as [d'|] eqn:Ed; cbn [bind] in H; [|discriminate]. inv H.
  destruct (rdict_fragment e Hr Hp fields d' Hm Ed) as [H1 H2].
  destruct (lookup K_Type fields) as [[| | | t | | | |]|] eqn:Et; try discriminate.
  destruct (keep_type_fragment (params e) fields d' t Et Hlt Hlc H1 H2) as [G1 G2]. split; assumption.
Qed.

(* THE MODEL-LEVEL FIXED POINT FOR THE FRAGMENT.  Hypotheses: on the bound parameters, and on the resources of the TEMPLATE that
   are kept (their gate is open under the resolved conditions [cs]); nothing about the result, the conditions, the dropped
   resources, the Mappings. *)
Theorem fragment_model_fixed_point pseudo decls extra maps cdecl rs ps cs rs' :
  bind_params pseudo decls extra = Ok ps ->
  resolve_model pseudo decls extra maps cdecl rs = Ok (model_out cs rs') ->
  params_rendered ps = true -> params_plainb ps = true ->
  (forall id r, In (id, r) rs -> gate_open (cond_bools cs) r = true -> resource_in_fragment ps r = true) ->
  resolve_model pseudo decls extra maps cs rs' = Ok (model_out cs rs').
Proof.
  intros Hps H1 Hr Hp Hres. apply (resolve_model_twice _ _ _ _ _ _ _ _ _ Hps H1).
  - intros id r' Hin. destruct (resolve_model_inv _ _ _ _ _ _ _ _ _ Hps H1) as (resolved & Hc & -> & Hrs).
    rewrite cond_bools_of_values in Hres.
    destruct (resolve_resources_In _ _ _ _ Hrs id r' Hin) as (r & Hin0 & Hg & Hrr).
    specialize (Hres id r Hin0 (proj2 (gate_open_iff _ _) Hg)).
    exact (resolve_resource_fragment {| params := ps; mappings := maps; conds := conds_fun resolved |} r r' Hr Hp Hres Hrr).
  - intros id r Hin Hg. specialize (Hres id r Hin Hg). unfold resource_in_fragment in Hres.
    apply andb_true_iff in Hres. tauto.
Qed.
(* the same with the resource hypothesis a boolean over the template alone (all resources, kept or not) *)
Corollary fragment_model_fixed_point_b pseudo decls extra maps cdecl rs ps cs rs' :
  bind_params pseudo decls extra = Ok ps ->
  resolve_model pseudo decls extra maps cdecl rs = Ok (model_out cs rs') ->
  params_rendered ps = true -> params_plainb ps = true ->
  forallb (fun kv => resource_in_fragment ps (snd kv)) rs = true ->
  resolve_model pseudo decls extra maps cs rs' = Ok (model_out cs rs').
Proof.
  intros Hps H1 Hr Hp Hres. apply (fragment_model_fixed_point _ _ _ _ _ _ _ _ _ Hps H1 Hr Hp).
  intros id r Hin _. rewrite forallb_forall in Hres. exact (Hres _ Hin).
Qed.

(* the hypotheses hold on a realistic environment; each is needed *)
(* AWS::Region = us-east-1, AWS::AccountId = 123456789012, Env = "True" (an ORDINARY parameter may be unrendered: Ref lower-cases
   it), Subnets = [subnet-a, subnet-b], Ratio = 1.5 (a float atom), and the SSM value /cfg/ami:3 = ami-0abc *)
Definition s_ssm_ami : str := [47;99;102;103;47;97;109;105;58;51].
Definition ps_real : list (str * value) :=
  [([65;87;83;58;58;82;101;103;105;111;110], VStr [117;115;45;101;97;115;116;45;49]);
   ([65;87;83;58;58;65;99;99;111;117;110;116;73;100], VStr [49;50;51;52;53;54;55;56;57;48;49;50]);
   ([69;110;118], VStr S_True);
   ([83;117;98;110;101;116;115], VList [VStr [115;117;98;110;101;116;45;97]; VStr [115;117;98;110;101;116;45;98]]);
   ([82;97;116;105;111], VTyped KFloat [49;46;53]);
   (s_ssm_ami, VStr [97;109;105;45;48;97;98;99])].
Definition e_real : env := {| params := ps_real; mappings := []; conds := fun _ => Ok true |}.
(* {"A": {"Ref": "Env"}, "B": {"Fn::If": ["c", {"Ref": "Subnets"}, {"Ref": "AWS::NoValue"}]}, "C": "{{resolve:ssm:/cfg/ami:3}}",
    "D": {"Fn::Select": ["1", {"Ref": "Subnets"}]}, "E": [true, 7, 1.5, {"Fn::GetAtt": ["x", "Arn"]}, {"Ref": "Missing"}]} *)
Definition v_real : value :=
  VDict [([65], VDict [(K_Ref, VStr [69;110;118])]);
         ([66], VDict [(K_If, VList [VStr [99]; VDict [(K_Ref, VStr [83;117;98;110;101;116;115])]; VDict [(K_Ref, VStr S_NOVALUE)]])]);
         ([67], VStr (S_SSM_PREFIX ++ s_ssm_ami ++ [125;125]));
         ([68], VDict [(K_Select, VList [VStr [49]; VDict [(K_Ref, VStr [83;117;98;110;101;116;115])]])]);
         ([69], VList [VBool true; VInt 7; VTyped KFloat [49;46;53]; VDict [(K_GetAtt, VList [VStr [120]; VStr [65;114;110]])];
                       VDict [(K_Ref, VStr [77;105;115;115;105;110;103])]])].
Example env_hyps_hold :
  params_rendered ps_real = true /\ params_plainb ps_real = true /\
  fn_keys_alone v_real = true /\ builds_no_text v_real = true /\
  exists r, resolve e_real v_real = Ok r /\ r <> v_real /\ resolve e_real r = Ok r.
Proof.
  split; [vm_compute; reflexivity|]. split; [vm_compute; reflexivity|]. split; [vm_compute; reflexivity|].
  split; [vm_compute; reflexivity|]. eexists. split; [vm_compute; reflexivity|].
  split; [discriminate | vm_compute; reflexivity].
Qed.

(* (1) of [params_rendered] is needed: the value fetched by an SSM reference is returned as it is.  "/p:1" = "TRUE": the plain
   text leaf "{{resolve:ssm:/p:1}}" resolves to "TRUE", which is not rendered, and a second resolution gives "true". *)
Definition ps_ssm_TRUE : list (str * value) := [([47;112;58;49], VStr [84;82;85;69])].
Definition e_ssm_TRUE : env := {| params := ps_ssm_TRUE; mappings := []; conds := fun _ => Ok true |}.
Definition v_ssm_ref : value := VStr (S_SSM_PREFIX ++ [47;112;58;49;125;125]).
Example ssm_value_must_be_rendered :
  params_rendered ps_ssm_TRUE = false /\ builds_no_text v_ssm_ref = true /\
  resolve e_ssm_TRUE v_ssm_ref = Ok (VStr [84;82;85;69]) /\ rendered ps_ssm_TRUE (VStr [84;82;85;69]) = false /\
  resolve e_ssm_TRUE (VStr [84;82;85;69]) = Ok (VStr S_true).
Proof. vm_compute. repeat split. Qed.
(* the same value under an ordinary name is harmless: the hypothesis looks at SSM-shaped names only *)
Example ordinary_TRUE_is_fine :
  params_rendered [([80], VStr [84;82;85;69])] = true /\
  resolve {| params := [([80], VStr [84;82;85;69])]; mappings := []; conds := fun _ => Ok true |} (VDict [(K_Ref, VStr [80])])
    = Ok (VStr S_true).
Proof. vm_compute. repeat split. Qed.
(* (2) of [params_rendered] is needed: a typed atom in a parameter value is rendered as its text, as it is *)
Example atom_in_parameter_must_be_rendered :
  params_rendered [([80], VTyped KFloat [84;82;85;69])] = false /\
  resolve {| params := [([80], VTyped KFloat [84;82;85;69])]; mappings := []; conds := fun _ => Ok true |} (VDict [(K_Ref, VStr [80])])
    = Ok (VStr [84;82;85;69]).
Proof. vm_compute. repeat split. Qed.
(* [params_plainb] is needed (no function left): pruning AWS::NoValue inside an object-valued parameter can leave a function object *)
Definition ps_objparam : list (str * value) := [([80], VDict [(K_Ref, VStr [120]); ([121], VStr S_NOVALUE)])].
Example object_parameter_breaks_no_fn :
  params_plainb ps_objparam = false /\ params_rendered ps_objparam = true /\
  exists r, resolve {| params := ps_objparam; mappings := []; conds := fun _ => Ok true |} (VDict [(K_Ref, VStr [80])]) = Ok r /\
            no_fn_dict r = false.
Proof. split; [vm_compute; reflexivity|]. split; [vm_compute; reflexivity|]. eexists. split; vm_compute; reflexivity. Qed.

(* the boundary of the fragment is tight: one witness per excluded construct, using that construct and literals only;
   each result is NOT rendered and a second resolution CHANGES it *)
Definition not_fixed (e : env) (v : value) : Prop :=
  builds_no_text v = false /\
  exists r r2, resolve e v = Ok r /\ rendered (params e) r = false /\ resolve e r = Ok r2 /\ r2 <> r.
(* the two reasons: the result spells TRUE, which a second resolution lower-cases; or it is a Python bool, which a second
   resolution renders as text *)
Definition s_TRUE : str := [84;82;85;69].
Lemma not_fixed_TRUE e v : builds_no_text v = false -> resolve e v = Ok (VStr s_TRUE) -> not_fixed e v.
Proof. intros Hb Hr. split; [exact Hb|]. exists (VStr s_TRUE), (VStr S_true). repeat split; [exact Hr | discriminate]. Qed.
Lemma not_fixed_bool e v b : builds_no_text v = false -> resolve e v = Ok (VBool b) -> not_fixed e v.
Proof. intros Hb Hr. split; [exact Hb|]. exists (VBool b), (VStr (bool_text b)). repeat split; [exact Hr | discriminate]. Qed.

(* {"Fn::Join": ["", ["TR", "UE"]]} -> "TRUE" -> "true" *)
Example boundary_join : not_fixed e_empty join_TR_UE.
Proof. apply not_fixed_TRUE; vm_compute; reflexivity. Qed.
(* {"Fn::Sub": ["${A}${B}", {"A": "TR", "B": "UE"}]} -> "TRUE" -> "true" *)
Definition sub_TR_UE : value :=
  VDict [(K_Sub, VList [VStr [36;123;65;125;36;123;66;125]; VDict [([65], VStr [84;82]); ([66], VStr [85;69])]])].
Example boundary_sub : not_fixed e_empty sub_TR_UE.
Proof. apply not_fixed_TRUE; vm_compute; reflexivity. Qed.
(* {"Fn::Split": [",", "TRUE,x"]} -> ["TRUE", "x"] -> ["true", "x"] *)
Definition split_TRUE_x : value := VDict [(K_Split, VList [VStr [44]; VStr [84;82;85;69;44;120]])].
Example boundary_split : not_fixed e_empty split_TRUE_x.
Proof.
  split; [reflexivity|]. exists (VList [VStr s_TRUE; VStr [120]]), (VList [VStr S_true; VStr [120]]).
  repeat split; [vm_compute; reflexivity .. | discriminate].
Qed.
(* Mappings {"M": {"a": {"b": "TRUE"}}};  {"Fn::FindInMap": ["M", "a", "b"]} -> "TRUE" -> "true"   (F14b) *)
Definition e_map_TRUE : env :=
  {| params := []; mappings := [([77], VDict [([97], VDict [([98], VStr s_TRUE)])])]; conds := fun _ => Ok false |}.
Definition find_TRUE : value := VDict [(K_FindInMap, VList [VStr [77]; VStr [97]; VStr [98]])].
Example boundary_find_in_map : not_fixed e_map_TRUE find_TRUE.
Proof. apply not_fixed_TRUE; vm_compute; reflexivity. Qed.
(* {"Fn::Base64": "M\u0015\u0004"} -> "TRUE" (the base64 text of the bytes 4D 15 04) -> "true" *)
Definition base64_TRUE : value := VDict [(K_Base64, VStr [77;21;4])].
Example boundary_base64 : not_fixed e_empty base64_TRUE.
Proof. apply not_fixed_TRUE; vm_compute; reflexivity. Qed.
(* the bytes 4D 15 04 as a leaf: rendered as their base64 text "TRUE" -> "true" *)
Example boundary_bytes : not_fixed e_empty (VBytes [77;21;4]).
Proof. apply not_fixed_TRUE; vm_compute; reflexivity. Qed.
(* a typed atom whose text is not plain (no float / date / network prints like this; the model's atoms carry any text) *)
Example boundary_typed : not_fixed e_empty (VTyped KFloat s_TRUE).
Proof. apply not_fixed_TRUE; reflexivity. Qed.
(* a condition function in a value position: {"Fn::Equals": ["a", "a"]} -> True (a Python bool) -> "true" *)
Definition equals_a_a : value := VDict [(K_Equals, VList [VStr [97]; VStr [97]])].
Example boundary_condition_function : not_fixed e_empty equals_a_a.
Proof. apply (not_fixed_bool _ _ true); vm_compute; reflexivity. Qed.
Example boundary_condition_functions_all :
  not_fixed e_empty (VDict [(K_Condition, VStr [99])]) /\ not_fixed e_empty (VDict [(K_And, VList [VStr S_true])]) /\
  not_fixed e_empty (VDict [(K_Or, VList [VStr S_true])]) /\ not_fixed e_empty (VDict [(K_Not, VList [VStr S_true])]).
Proof.
  split; [apply (not_fixed_bool _ _ false); reflexivity|]. split; [apply (not_fixed_bool _ _ true); vm_compute; reflexivity|].
  split; [apply (not_fixed_bool _ _ true) | apply (not_fixed_bool _ _ false)]; vm_compute; reflexivity.
Qed.
(* Fn::Select is INSIDE the fragment: it builds nothing, it returns a member of an already resolved list.  It only passes on what
   an excluded construct built: {"Fn::Select": ["0", {"Fn::Split": [",", "TRUE,x"]}]} -> "TRUE" *)
Example select_only_passes_on :
  builds_no_text (VDict [(K_Select, VList [VStr [48]; VList [VStr s_TRUE; VStr [120]]])]) = true /\
  resolve e_empty (VDict [(K_Select, VList [VStr [48]; VList [VStr s_TRUE; VStr [120]]])]) = Ok (VStr S_true) /\
  not_fixed e_empty (VDict [(K_Select, VList [VStr [48]; split_TRUE_x])]).
Proof. split; [reflexivity|]. split; [vm_compute; reflexivity|]. apply not_fixed_TRUE; vm_compute; reflexivity. Qed.

(* the model-level theorem applies to the template of ModelFix.v (parameter E, conditions IsP / NotP, three resources with
   Ref and Fn::If, one of them dropped): every hypothesis is a computation on the template *)
Example fragment_model_ex :
  exists ps,
    bind_params [] ex_decls [] = Ok ps /\ params_rendered ps = true /\ params_plainb ps = true /\
    forallb (fun kv => resource_in_fragment ps (snd kv)) ex_rs = true /\
    resolve_model [] ex_decls [] [] ex_cdecl ex_rs = Ok (model_out ex_cs ex_rs').
Proof. eexists. split; [vm_compute; reflexivity|]. vm_compute. repeat split. Qed.
