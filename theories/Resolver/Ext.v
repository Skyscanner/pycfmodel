(* resolve depends on its environment only through lookups: environments with the same lookups give the same results. *)
From Coq Require Import List NArith ZArith.
From PV Require Import Base.Str Base.Value Resolver.Text Resolver.Resolve Resolver.Spec.
Import ListNotations.
Local Open Scope N_scope.

Definition same_lookups {A} (a b : list (str * A)) : Prop := forall k, lookup k a = lookup k b.
Definition env_eq (e e' : env) : Prop :=
  same_lookups (params e) (params e') /\ same_lookups (mappings e) (mappings e') /\ (forall n, conds e n = conds e' n).

Lemma render_str_ext ps ps' s : same_lookups ps ps' -> render_str ps s = render_str ps' s.
Proof. intros H. unfold render_str. destruct (ssm_key s); [rewrite H|]; reflexivity. Qed.

Lemma normalize_ext ps ps' : same_lookups ps ps' -> forall v, normalize ps v = normalize ps' v.
Proof.
  intros H v. induction v using value_ind'; simpl; try reflexivity.
  - rewrite (render_str_ext ps ps' s H). reflexivity.
  - f_equal. induction H0 as [|x xs Hx Hxs IH]; [reflexivity|]. rewrite Hx, IH. reflexivity.
  - destruct (is_fn_dict d); [reflexivity|]. f_equal.
    induction H0 as [|[k x] xs Hx Hxs IH]; [reflexivity|]. simpl in Hx. rewrite Hx, IH. reflexivity.
Qed.

Lemma do_ref_ext e e' b : same_lookups (params e) (params e') -> do_ref e b = do_ref e' b.
Proof.
  intros Hp. unfold do_ref. destruct b; try reflexivity. rewrite (Hp s).
  destruct (lookup s (params e')); [apply normalize_ext; assumption | reflexivity].
Qed.
Lemma do_find_in_map_ext e e' m k1 k2 : same_lookups (mappings e) (mappings e') ->
  do_find_in_map e m k1 k2 = do_find_in_map e' m k1 k2.
Proof. intros Hm. unfold do_find_in_map. destruct m, k1, k2; try reflexivity. rewrite (Hm s). reflexivity. Qed.
Lemma render_var_ext e e' custom n : same_lookups (params e) (params e') -> render_var e custom n = render_var e' custom n.
Proof.
  intros Hp. unfold render_var.
  destruct (lookup n custom); [rewrite (normalize_ext _ _ Hp); reflexivity|].
  rewrite (Hp n). destruct (lookup n (params e')); [rewrite (normalize_ext _ _ Hp)|]; reflexivity.
Qed.
Lemma do_sub_ext e e' text custom : same_lookups (params e) (params e') -> do_sub e text custom = do_sub e' text custom.
Proof.
  intros H. unfold do_sub. f_equal. induction (sub_tokens text) as [|t ts IH]; [reflexivity|].
  simpl. rewrite IH. destruct t; simpl; try reflexivity. rewrite (render_var_ext e e' custom name H). reflexivity.
Qed.

Section ExtLists.
Variables e e' : env.
Definition SameAt (v : value) : Prop := resolve e v = resolve e' v.
Lemma rlist_ext l : Forall SameAt l -> rlist e l = rlist e' l.
Proof. induction 1 as [|x xs Hx Hxs IH]; [reflexivity|]. simpl. rewrite Hx, IH. reflexivity. Qed.
Lemma rdict_ext d : Forall (fun kv => SameAt (snd kv)) d -> rdict e d = rdict e' d.
Proof. induction 1 as [|[k x] xs Hx Hxs IH]; [reflexivity|]. simpl in *. rewrite Hx, IH. reflexivity. Qed.
Lemma rall_ext l : Forall SameAt l -> rall e l = rall e' l.
Proof. induction 1 as [|x xs Hx Hxs IH]; [reflexivity|]. simpl. rewrite Hx, IH. reflexivity. Qed.
Lemma rany_ext l : Forall SameAt l -> rany e l = rany e' l.
Proof. induction 1 as [|x xs Hx Hxs IH]; [reflexivity|]. simpl. rewrite Hx, IH. reflexivity. Qed.
End ExtLists.

Theorem resolve_env_eq e e' v : env_eq e e' -> resolve e v = resolve e' v.
Proof.
  intros (Hp & Hm & Hc). revert v. apply resolve_ind.
  - intros [] Hv; try contradiction; try reflexivity. simpl. rewrite (render_str_ext _ _ s Hp). reflexivity.
  - intros l IH. rewrite !resolve_list, (rlist_ext e e' l IH). reflexivity.
  - intros d Hf IH. rewrite !resolve_dict_generic, (rdict_ext e e' d IH) by assumption. reflexivity.
  - intros k body Hk IH. rewrite !resolve_ref_import, IH by assumption.
    destruct (resolve e' body); [apply do_ref_ext; assumption | reflexivity].
  - intros dl l IH1 IH2. rewrite !resolve_join, IH1, IH2. reflexivity.
  - intros dl s IH1 IH2. rewrite !resolve_split, IH1, IH2. reflexivity.
  - intros i l IH1 IH2. rewrite !resolve_select, IH1, IH2. reflexivity.
  - intros m k1 k2 IH1 IH2 IH3. rewrite !resolve_find_in_map, IH1, IH2, IH3.
    destruct (resolve e' m); [|reflexivity]. destruct (resolve e' k1); [|reflexivity].
    destruct (resolve e' k2); [apply do_find_in_map_ext; assumption | reflexivity].
  - intros text. apply do_sub_ext. assumption.
  - intros text vars IH _. rewrite !resolve_sub_vars, IH.
    destruct (resolve e' vars) as [[]|]; try reflexivity. apply do_sub_ext. assumption.
  - intros body IH. rewrite !resolve_base64, IH. reflexivity.
  - reflexivity.
  - reflexivity.
  - intros name. rewrite !resolve_condition, (Hc name). reflexivity.
  - intros c t f IH1 IH2. rewrite !resolve_if, (Hc c), IH1, IH2. reflexivity.
  - intros parts IH. rewrite !resolve_and, (rall_ext e e' parts IH). reflexivity.
  - intros parts IH. rewrite !resolve_or, (rany_ext e e' parts IH). reflexivity.
  - intros x rest IH. rewrite !resolve_not, IH. reflexivity.
  - intros a b IH1 IH2. rewrite !resolve_equals, IH1, IH2. reflexivity.
  - intros k body er H. rewrite !(resolve_ill _ k body er H). reflexivity.
Qed.

Theorem resolve_ext e e' : env_eq e e' -> forall n v, (vsize v < n)%nat -> resolve e v = resolve e' v.
Proof. intros He n v _. apply resolve_env_eq, He. Qed.
