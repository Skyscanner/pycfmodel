(* C03 at the level of the MODEL: CFModel.resolve applied to its own result.

   The second resolution starts from the output of the first one: the Conditions section holds plain booleans,
   every kept resource still carries its [Condition: name] attribute and its literal [Type], a dropped resource is gone,
   Parameters / Mappings are the ones of the template.  For the template driver of Resolver/Template.v: a condition declared
   as a boolean evaluates to that boolean, so the Conditions section is reproduced; the second resolution of a function-free,
   rendered result returns the SAME result exactly when the gate of every resolved resource is still open, which holds when
   the resource was an object (not a function object) with distinct keys.  The fixed point is about the SAME assignment:
   with other parameters the resolved model does not follow the template any more ([resolved_model_is_frozen]). *)
From Coq Require Import List Bool NArith ZArith Lia.
From PV Require Import Base.Str Base.Value Resolver.Consts Resolver.Resolve Resolver.Spec Resolver.Template Resolver.ParamFacts
  Resolver.CondFacts Resolver.FixFacts Resolver.PermFacts.
Import ListNotations.
Local Open Scope N_scope.

(* the Conditions section of a resolved model *)
(* how resolve_model writes the condition values out ... *)
Definition bools_as_values (l : list (str * bool)) : list (str * value) := map (fun nb => (fst nb, VBool (snd nb))) l.
(* ... and how they are read back from a Conditions section *)
Definition cond_bools (cs : list (str * value)) : list (str * bool) :=
  flat_map (fun kv => match snd kv with VBool b => [(fst kv, b)] | _ => [] end) cs.

Lemma cond_bools_of_values l : cond_bools (bools_as_values l) = l.
Proof. induction l as [|[n b] l IH]; [reflexivity|]. simpl. rewrite IH. reflexivity. Qed.
Lemma keys_bools l : keys (bools_as_values l) = keys l.
Proof. exact (keys_map_values (fun nb => VBool (snd nb)) l). Qed.
Lemma lookup_bools n l : lookup n (bools_as_values l) = option_map VBool (lookup n l).
Proof. exact (lookup_map_values (fun _ => VBool) n l). Qed.

(* rendering a boolean and reading it back: both truth values survive *)
Lemma ext_bool_bool_text b : ext_bool (VStr (bool_text b)) = Ok b.
Proof. destruct b; vm_compute; reflexivity. Qed.

(* a condition DECLARED as a boolean has that value: for all parameters and mappings, whatever else is declared *)
Lemma cond_root_of_bool ps maps cdecl n b : lookup n cdecl = Some (VBool b) -> cond_root ps maps cdecl n = Ok b.
Proof.
  intros Hl. unfold cond_root.
  rewrite (cond_val_step ps maps cdecl (length cdecl) (keys cdecl) n (VBool b) (lookup_Some_mem_keys _ _ _ Hl) Hl).
  cbn [resolve bind]. apply ext_bool_bool_text.
Qed.

Lemma cond_all_of_bools_gen ps maps cdecl l :
  (forall n b, In (n, b) l -> lookup n cdecl = Some (VBool b)) -> cond_all ps maps cdecl (keys l) = Ok l.
Proof.
  induction l as [|[n b] l IH]; intros H; [reflexivity|]. cbn [keys map fst cond_all].
  rewrite (cond_root_of_bool ps maps cdecl n b (H n b (or_introl eq_refl))). cbn [bind].
  change (map fst l) with (keys l). rewrite IH by (intros n' b' Hin; apply H; right; exact Hin). reflexivity.
Qed.

(* what cond_all returns: the names asked for, each with its root value; so equal names carry equal values *)
Lemma cond_all_keys ps maps decl names l : cond_all ps maps decl names = Ok l -> keys l = names.
Proof. exact (PermFacts.cond_all_keys ps maps decl names l). Qed.
Lemma cond_all_In ps maps decl names l : cond_all ps maps decl names = Ok l ->
  forall n b, In (n, b) l -> cond_root ps maps decl n = Ok b.
Proof.
  revert l; induction names as [|n0 r IH]; intros l H n b Hin; simpl in H.
  - inv H. destruct Hin.
  - bind_inv. inv H. destruct Hin as [Heq|Hin]; [inv Heq; assumption | eapply IH; [reflexivity | exact Hin]].
Qed.
Lemma cond_all_functional ps maps decl names l : cond_all ps maps decl names = Ok l ->
  forall n b, In (n, b) l -> lookup n l = Some b.
Proof.
  intros H n b Hin. destruct (lookup n l) as [b'|] eqn:E.
  - apply lookup_In in E. pose proof (cond_all_In _ _ _ _ _ H n b Hin) as H1.
    pose proof (cond_all_In _ _ _ _ _ H n b' E) as H2. congruence.
  - apply lookup_None in E. exfalso. apply E. eapply In_keys; eassumption.
Qed.

(* the Conditions section written by one resolution is reproduced by the next one -- with ANY parameters and mappings,
   and also when a name was declared twice *)
Theorem cond_all_twice ps maps decl names l ps' maps' : cond_all ps maps decl names = Ok l ->
  cond_all ps' maps' (bools_as_values l) (keys (bools_as_values l)) = Ok l.
Proof.
  intros H. rewrite keys_bools. apply cond_all_of_bools_gen. intros n b Hin.
  rewrite lookup_bools, (cond_all_functional _ _ _ _ _ H n b Hin). reflexivity.
Qed.

Lemma set_key_same k v d : lookup k d = Some v -> set_key k v d = d.
Proof.
  induction d as [|[k' x] d IH]; simpl; [discriminate|]. destruct (str_eqb k k') eqn:E.
  - intros H. inv H. reflexivity.
  - intros H. rewrite (IH H). reflexivity.
Qed.
Lemma keep_key_same k d : keep_key k d d = d.
Proof.
  unfold keep_key. destruct (lookup k d) as [v|] eqn:E; [|reflexivity]. destruct v; try reflexivity.
  apply set_key_same. exact E.
Qed.
(* keep_type puts back a Type and a Condition name that are already there *)
Lemma keep_type_same r : keep_type r r = r.
Proof.
  destruct r as [| | | | | | |d]; try reflexivity. unfold keep_type. rewrite !keep_key_same. reflexivity.
Qed.

Definition gate_open (resolved : list (str * bool)) (r : value) : bool :=
  match gate resolved r with Ok true => true | _ => false end.
Lemma gate_open_iff resolved r : gate_open resolved r = true <-> gate resolved r = Ok true.
Proof. unfold gate_open. destruct (gate resolved r) as [[|]|]; split; intros H; try reflexivity; discriminate. Qed.

(* a list of resources that are all kept and all fixed points of [resolve] is a fixed point of [resolve_resources] *)
Lemma resolve_resources_fixed e resolved rs :
  (forall id r, In (id, r) rs -> gate resolved r = Ok true /\ resolve e r = Ok r) ->
  resolve_resources e resolved rs = Ok rs.
Proof.
  induction rs as [|[id r] rest IH]; intros H; [reflexivity|].
  destruct (H id r (or_introl eq_refl)) as [Hg Hr]. cbn [resolve_resources]. rewrite Hg. cbn [bind].
  unfold resolve_resource. rewrite Hr. cbn [bind]. rewrite keep_type_same.
  rewrite IH by (intros id' r' Hin; apply (H id' r'); right; exact Hin). reflexivity.
Qed.
(* conversely a resource whose gate is closed is dropped, so the list cannot come back unchanged *)
Lemma resolve_resources_length e resolved rs rs' : resolve_resources e resolved rs = Ok rs' -> (length rs' <= length rs)%nat.
Proof.
  revert rs'; induction rs as [|[id r] rest IH]; intros rs' H; simpl in H.
  - inv H. simpl. lia.
  - destruct (gate resolved r) as [keep|]; simpl in H; [|discriminate]. destruct keep.
    + bind_inv. inv H. simpl. specialize (IH _ eq_refl). lia.
    + specialize (IH _ H). simpl. lia.
Qed.
Lemma resolve_resources_same_gates e resolved rs : resolve_resources e resolved rs = Ok rs ->
  forall id r, In (id, r) rs -> gate resolved r = Ok true.
Proof.
  induction rs as [|[id0 r0] rest IH]; intros H id r Hin; [destruct Hin|]. simpl in H.
  destruct (gate resolved r0) as [keep|] eqn:Eg; simpl in H; [|discriminate]. destruct keep.
  - bind_inv. inv H. destruct Hin as [Heq|Hin]; [inv Heq; assumption|]. exact (IH eq_refl id r Hin).
  - apply resolve_resources_length in H. simpl in H. lia.
Qed.

(* where a resolved resource comes from *)
Lemma resolve_resources_In e resolved rs rs' : resolve_resources e resolved rs = Ok rs' ->
  forall id r', In (id, r') rs' -> exists r, In (id, r) rs /\ gate resolved r = Ok true /\ resolve_resource e r = Ok r'.
Proof.
  revert rs'; induction rs as [|[k r] rest IH]; intros rs' H id r' Hin; simpl in H.
  - inv H. destruct Hin.
  - destruct (gate resolved r) as [keep|] eqn:Eg; simpl in H; [|discriminate]. destruct keep.
    + bind_inv. inv H. destruct Hin as [Heq|Hin].
      * inv Heq. exists r. split; [left; reflexivity|]. split; assumption.
      * destruct (IH _ eq_refl id r' Hin) as (r0 & H1 & H2 & H3). exists r0. split; [right; assumption|]. split; assumption.
    + destruct (IH _ H id r' Hin) as (r0 & H1 & H2 & H3). exists r0. split; [right; assumption|]. split; assumption.
Qed.

(* what the input side must satisfy for the gate to stay open: the resource is an object with distinct keys and not a function
   object.  (CFModel.resolve puts the literal NAME of the Condition attribute back -- repair F27; Findings/F27.v has the model
   of the code before that repair, where "True" became "true", and the witness -- so nothing is asked about rendering the name.) *)
Definition resource_wf (ps : list (str * value)) (r : value) : bool :=
  match r with
  | VDict fields => negb (is_fn_dict fields) && nodupb (keys fields)
  | _ => false
  end.


(* the gate of the resolved resource reads the SAME condition name as the gate of its definition *)
Lemma gate_still_open e resolved fields r' :
  resource_wf (params e) (VDict fields) = true ->
  gate resolved (VDict fields) = Ok true -> resolve_resource e (VDict fields) = Ok r' -> gate resolved r' = Ok true.
Proof.
  intros Hwf Hg Hr. unfold resource_wf in Hwf. apply andb_true_iff in Hwf. destruct Hwf as [Hf Hnd].
  apply negb_true_iff in Hf. apply nodupb_spec in Hnd.
  unfold resolve_resource in Hr. rewrite (resolve_dict_generic e fields Hf) in Hr.
  destruct (rdict e fields) as [d'|] eqn:Ed; cbn [bind] in Hr; [|discriminate]. inv Hr.
  rewrite rdict_mdict in Ed. unfold keep_type, gate in *. unfold keep_key at 1.
  (* the Condition attribute of the definition is a name ([keep_key] writes it back), null (it resolves to null and is kept)
     or absent (resolution adds no key) *)
  destruct (lookup K_Condition fields) as [v|] eqn:Ec.
  - destruct v as [| | | c | | | |]; try discriminate.
    + rewrite lookup_keep_key_other by reflexivity.
      rewrite (lookup_NoDup_In K_Condition VNull d' (mdict_keys_nodup _ _ _ Ed Hnd)
                 (mdict_keeps _ _ _ _ _ _ Ed (lookup_In _ _ _ Ec) eq_refl eq_refl)). reflexivity.
    + rewrite lookup_set_key, str_eqb_refl. exact Hg.
  - rewrite lookup_keep_key_other by reflexivity. apply lookup_None in Ec.
    replace (lookup K_Condition d') with (@None value); [reflexivity|]. symmetry. apply lookup_None.
    intros Hin. exact (Ec (mdict_keys_incl _ _ _ Ed _ Hin)).
Qed.

Definition model_out (cs rs : list (str * value)) : value := VDict [(K_Conditions, VDict cs); (K_Resources, VDict rs)].

Lemma resolve_model_inv pseudo decls extra maps cdecl rs ps cs rs' :
  bind_params pseudo decls extra = Ok ps ->
  resolve_model pseudo decls extra maps cdecl rs = Ok (model_out cs rs') ->
  exists resolved, cond_all ps maps cdecl (keys cdecl) = Ok resolved /\ cs = bools_as_values resolved /\
    resolve_resources {| params := ps; mappings := maps; conds := conds_fun resolved |} resolved rs = Ok rs'.
Proof.
  intros Hps H. unfold resolve_model in H. rewrite Hps in H. cbn [bind] in H.
  destruct (cond_all ps maps cdecl (keys cdecl)) as [resolved|] eqn:Ec; cbn [bind] in H; [|discriminate].
  match type of H with bind ?g _ = _ => destruct g as [out|] eqn:Er end; cbn [bind] in H; [|discriminate].
  unfold model_out in H. inv H. exists resolved. split; [reflexivity|]. split; [reflexivity | exact Er].
Qed.

(* the exact condition: the second resolution of a function-free, rendered result gives the same result again
       if and only if the gate of every resolved resource is still open *)
Theorem resolve_model_twice_iff pseudo decls extra maps cdecl rs ps cs rs' :
  bind_params pseudo decls extra = Ok ps ->
  resolve_model pseudo decls extra maps cdecl rs = Ok (model_out cs rs') ->
  (forall id r', In (id, r') rs' -> no_fn_dict r' = true /\ rendered ps r' = true) ->
  (resolve_model pseudo decls extra maps cs rs' = Ok (model_out cs rs')
   <-> forallb (fun kv => gate_open (cond_bools cs) (snd kv)) rs' = true).
Proof.
  intros Hps H1 Hfix. destruct (resolve_model_inv _ _ _ _ _ _ _ _ _ Hps H1) as (resolved & Hc & -> & Hr).
  rewrite cond_bools_of_values. unfold resolve_model. rewrite Hps. cbn [bind].
  rewrite (cond_all_twice _ _ _ _ _ ps maps Hc). cbn [bind].
  set (e := {| params := ps; mappings := maps; conds := conds_fun resolved |}) in *.
  split.
  - intros H2. destruct (resolve_resources e resolved rs') as [out|] eqn:E2; cbn [bind] in H2; [|discriminate].
    unfold model_out in H2. inv H2. apply forallb_forall. intros [id r] Hin. simpl.
    apply gate_open_iff. eapply resolve_resources_same_gates; eassumption.
  - intros Hg. rewrite forallb_forall in Hg. rewrite resolve_resources_fixed; [reflexivity|].
    intros id r Hin. split.
    + apply gate_open_iff. exact (Hg (id, r) Hin).
    + destruct (Hfix id r Hin) as [Hn Hrd]. apply (rendered_fixed_point e r Hn Hrd).
Qed.

(* the model-level fixed point.  Hypotheses on the OUTPUT of the first resolution: those of C03_fixed_point (function-free,
       rendered), which the correspondence evaluates per case.  Hypothesis on the INPUT: [resource_wf] for the resources that
       were kept.  Nothing is asked of the conditions (they may even be declared twice), of the resource ids, or of the
       resources that were dropped. *)
Theorem resolve_model_twice pseudo decls extra maps cdecl rs ps cs rs' :
  bind_params pseudo decls extra = Ok ps ->
  resolve_model pseudo decls extra maps cdecl rs = Ok (model_out cs rs') ->
  (forall id r', In (id, r') rs' -> no_fn_dict r' = true /\ rendered ps r' = true) ->
  (forall id r, In (id, r) rs -> gate_open (cond_bools cs) r = true -> resource_wf ps r = true) ->
  resolve_model pseudo decls extra maps cs rs' = Ok (model_out cs rs').
Proof.
  intros Hps H1 Hfix Hwf. apply (resolve_model_twice_iff _ _ _ _ _ _ _ _ _ Hps H1 Hfix).
  destruct (resolve_model_inv _ _ _ _ _ _ _ _ _ Hps H1) as (resolved & Hc & -> & Hr).
  rewrite cond_bools_of_values in *. apply forallb_forall. intros [id r'] Hin. simpl.
  destruct (resolve_resources_In _ _ _ _ Hr id r' Hin) as (r & Hin0 & Hg & Hrr).
  specialize (Hwf id r Hin0 (proj2 (gate_open_iff _ _) Hg)).
  apply gate_open_iff. destruct r as [| | | | | | |fields]; try discriminate.
  exact (gate_still_open {| params := ps; mappings := maps; conds := conds_fun resolved |} resolved fields r' Hwf Hg Hrr).
Qed.

(* the same with every hypothesis a boolean over the first resolution's input and output *)
Corollary resolve_model_twice_b pseudo decls extra maps cdecl rs ps cs rs' :
  bind_params pseudo decls extra = Ok ps ->
  resolve_model pseudo decls extra maps cdecl rs = Ok (model_out cs rs') ->
  forallb (fun kv => no_fn_dict (snd kv) && rendered ps (snd kv)) rs' = true ->
  forallb (fun kv => negb (gate_open (cond_bools cs) (snd kv)) || resource_wf ps (snd kv)) rs = true ->
  resolve_model pseudo decls extra maps cs rs' = Ok (model_out cs rs').
Proof.
  intros Hps H1 Hfix Hwf. rewrite forallb_forall in Hfix, Hwf.
  apply (resolve_model_twice _ _ _ _ _ _ _ _ _ Hps H1).
  - intros id r' Hin. specialize (Hfix _ Hin). simpl in Hfix. apply andb_true_iff in Hfix. exact Hfix.
  - intros id r Hin Hg. specialize (Hwf _ Hin). simpl in Hwf. rewrite Hg in Hwf. exact Hwf.
Qed.

(* a concrete template *)
(* Parameters: E (Default "prod").   Conditions: IsP = Equals(Ref E, "prod"), NotP = Not(Condition IsP).
   Resources:  A  Condition IsP   Properties {N: {Ref: E}, T: {Fn::If: [IsP, "p", "d"]}}     (kept when E = prod)
               B  Condition NotP  Properties {N: {Ref: E}}                                  (dropped when E = prod)
               C  no Condition    Properties {T: {Fn::If: [NotP, "p", "d"]}} *)
Definition s_E : str := [69].
Definition s_prod : str := [112;114;111;100].
Definition s_dev : str := [100;101;118].
Definition s_IsP : str := [73;115;80].
Definition s_NotP : str := [78;111;116;80].
Definition s_Properties : str := [80;114;111;112;101;114;116;105;101;115].
Definition s_Bucket : str := [65;87;83;58;58;83;51;58;58;66;117;99;107;101;116].
Definition s_String : str := [83;116;114;105;110;103].
Definition ex_decls : list (str * value) := [(s_E, VDict [(K_Type, VStr s_String); (K_Default, VStr s_prod)])].
Definition ex_cdecl : list (str * value) :=
  [(s_IsP, VDict [(K_Equals, VList [VDict [(K_Ref, VStr s_E)]; VStr s_prod])]);
   (s_NotP, VDict [(K_Not, VList [VDict [(K_Condition, VStr s_IsP)]])])].
Definition ex_rs : list (str * value) :=
  [([65], VDict [(K_Type, VStr s_Bucket); (K_Condition, VStr s_IsP);
                 (s_Properties, VDict [([78], VDict [(K_Ref, VStr s_E)]);
                                       ([84], VDict [(K_If, VList [VStr s_IsP; VStr [112]; VStr [100]])])])]);
   ([66], VDict [(K_Type, VStr s_Bucket); (K_Condition, VStr s_NotP);
                 (s_Properties, VDict [([78], VDict [(K_Ref, VStr s_E)])])]);
   ([67], VDict [(K_Type, VStr s_Bucket);
                 (s_Properties, VDict [([84], VDict [(K_If, VList [VStr s_NotP; VStr [112]; VStr [100]])])])])].
Definition ex_cs : list (str * value) := [(s_IsP, VBool true); (s_NotP, VBool false)].
Definition ex_rs' : list (str * value) :=
  [([65], VDict [(K_Type, VStr s_Bucket); (K_Condition, VStr s_IsP);
                 (s_Properties, VDict [([78], VStr s_prod); ([84], VStr [112])])]);
   ([67], VDict [(K_Type, VStr s_Bucket); (s_Properties, VDict [([84], VStr [100])])])].

(* one true and one false condition, a kept and a dropped gated resource, a Ref and two Fn::If: the first resolution gives
   [model_out ex_cs ex_rs'], the hypotheses of [resolve_model_twice_b] hold of it, and the second resolution gives the same *)
Example model_fixed_point_ex :
  exists ps,
    bind_params [] ex_decls [] = Ok ps /\
    resolve_model [] ex_decls [] [] ex_cdecl ex_rs = Ok (model_out ex_cs ex_rs') /\
    forallb (fun kv => no_fn_dict (snd kv) && rendered ps (snd kv)) ex_rs' = true /\
    forallb (fun kv => negb (gate_open (cond_bools ex_cs) (snd kv)) || resource_wf ps (snd kv)) ex_rs = true /\
    resolve_model [] ex_decls [] [] ex_cs ex_rs' = Ok (model_out ex_cs ex_rs').
Proof. eexists. split; [vm_compute; reflexivity|]. vm_compute. repeat split. Qed.

(* condition NAMES are literals: "True" and "true" are both legal logical ids.  A resource gated by condition True (which holds)
   keeps the name True in the resolved model, so the second resolution gates it on the same condition and keeps it -- also when a
   condition called true is declared and false.  (Before repair F27 the code rendered the name to "true" and the second resolution
   dropped the resource: finding F27, Findings/F27.v.) *)
Definition tt_cdecl : list (str * value) := [(S_True, VBool true); (S_true, VBool false)].
Definition tt_rs : list (str * value) := [([65], VDict [(K_Type, VStr s_Bucket); (K_Condition, VStr S_True)])].
Example condition_names_are_kept :
  exists cs,
    resolve_model [] [] [] [] tt_cdecl tt_rs = Ok (model_out cs tt_rs) /\
    resolve_model [] [] [] [] cs tt_rs = Ok (model_out cs tt_rs).
Proof. exists tt_cdecl. split; reflexivity. Qed.

(* the fixed point is about the SAME assignment.  Resolve the template above with E = prod, then resolve the RESULT with
   E = dev: nothing changes (the Ref text "prod" is plain text, the conditions are booleans), although the template itself
   resolves quite differently under E = dev (IsP false: A dropped, B kept).  So
   "resolve p2 (resolve p1 m) = resolve p2 m" is false: a resolved model does not follow its parameters. *)
Definition ex_extra_dev : list (str * value) := [(s_E, VStr s_dev)].
Example resolved_model_is_frozen :
  exists out1 cs1 rs1 out2,
    resolve_model [] ex_decls [] [] ex_cdecl ex_rs = Ok out1 /\ out1 = model_out cs1 rs1 /\
    resolve_model [] ex_decls ex_extra_dev [] cs1 rs1 = Ok out1 /\
    resolve_model [] ex_decls ex_extra_dev [] ex_cdecl ex_rs = Ok out2 /\ out2 <> out1.
Proof.
  exists (model_out ex_cs ex_rs'), ex_cs, ex_rs'. eexists.
  split; [vm_compute; reflexivity|]. split; [reflexivity|]. split; [vm_compute; reflexivity|].
  split; [vm_compute; reflexivity|]. intros H. vm_compute in H. discriminate H.
Qed.
