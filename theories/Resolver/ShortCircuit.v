(* Python's all(...) / any(...) over a generator of results that may raise: a fold that stops at the first result equal to
   [Ok stop] (all: stop = false; any: stop = true) or at the first exception, and answers [Ok (negb stop)] when there is none.
   Fn::And / Fn::Or (Resolver/CondAlgebra.v) and the loop of has_hardcoded_credentials (Resolver/CredFacts.v) are instances.
   Iam/ShortCircuit.v has the same loop for the IAM condition evaluator, over [option bool] and with its own names; the two
   files share no lemma. *)
From Coq Require Import List Bool.
From PV Require Import Base.Value.
Import ListNotations.

Fixpoint sc (stop : bool) (l : list (res bool)) : res bool :=
  match l with
  | [] => Ok (negb stop)
  | r :: rs => b <- r ;; if eqb b stop then Ok stop else sc stop rs
  end.
Lemma sc_nil stop : sc stop [] = Ok (negb stop).
Proof. reflexivity. Qed.
Lemma sc_cons stop r rs : sc stop (r :: rs) = (b <- r ;; if eqb b stop then Ok stop else sc stop rs).
Proof. reflexivity. Qed.

Lemma sc_app stop a b : sc stop (a ++ b) = (x <- sc stop a ;; if eqb x stop then Ok stop else sc stop b).
Proof.
  induction a as [|r rs IH]; cbn [app]; [rewrite sc_nil; destruct stop; reflexivity|]. rewrite !sc_cons.
  destruct r as [x|k]; cbn [bind]; [|reflexivity]. destruct (eqb x stop); [cbn [bind]; rewrite eqb_reflx; reflexivity | exact IH].
Qed.
Lemma sc_oks {A} stop (f : A -> bool) l :
  sc stop (map (fun x => Ok (f x)) l) = Ok (if stop then existsb f l else forallb f l).
Proof.
  induction l as [|x xs IH]; [rewrite sc_nil; destruct stop; reflexivity|]. cbn [map existsb forallb]. rewrite sc_cons, IH.
  destruct stop, (f x); reflexivity.
Qed.

(* the outcome is [Ok (negb stop)] iff every result is ... *)
Lemma sc_undecided_iff stop rs : sc stop rs = Ok (negb stop) <-> Forall (fun x => x = Ok (negb stop)) rs.
Proof.
  split.
  - induction rs as [|r rs IH]; [constructor|]. rewrite sc_cons.
    destruct r as [x|k]; cbn [bind]; [|discriminate]. destruct (eqb x stop) eqn:E.
    + intros H. inv H. destruct stop; discriminate.
    + intros H. constructor; [destruct x, stop; try discriminate; reflexivity | exact (IH H)].
  - induction 1 as [|r rs Hr Hrs IH]; [apply sc_nil|]. rewrite sc_cons, Hr, IH. destruct stop; reflexivity.
Qed.
(* ... and such results in front do not count *)
Lemma sc_prefix stop a b : Forall (fun r => r = Ok (negb stop)) a -> sc stop (a ++ b) = sc stop b.
Proof. intros H. rewrite sc_app, (proj2 (sc_undecided_iff stop a) H). destruct stop; reflexivity. Qed.
(* [Ok stop] decides, provided what stands in front of it does not raise *)
Lemma sc_decided stop a b : sc stop (a ++ Ok stop :: b) = (x <- sc stop a ;; Ok stop).
Proof. rewrite sc_app, sc_cons. cbn [bind]. rewrite eqb_reflx. destruct (sc stop a) as [x|k]; cbn [bind]; [destruct (eqb x stop)|]; reflexivity. Qed.
(* a second occurrence of a result: if it is reached at all, the first occurrence did not decide and did not raise *)
Lemma sc_dup stop a r b c : sc stop (a ++ r :: b ++ r :: c) = sc stop (a ++ r :: b ++ c).
Proof.
  rewrite !(sc_app stop a), !sc_cons. destruct r as [x|k]; [|reflexivity]. cbn [bind]. destruct (eqb x stop) eqn:E; [reflexivity|].
  rewrite !(sc_app stop b), sc_cons. cbn [bind]. rewrite E. reflexivity.
Qed.
Lemma sc_flatten stop a m c : sc stop (a ++ sc stop m :: c) = sc stop (a ++ m ++ c).
Proof. rewrite !(sc_app stop a), sc_cons, (sc_app stop m). reflexivity. Qed.

(* any other outcome r -- [Ok stop] or an exception -- iff r is the first result that is not [Ok (negb stop)], whatever follows it *)
Lemma sc_outcome_iff stop rs r : r <> Ok (negb stop) ->
  (sc stop rs = r <-> exists a b, rs = a ++ r :: b /\ Forall (fun x => x = Ok (negb stop)) a).
Proof.
  intros Hr. split.
  - induction rs as [|r0 rs IH]; [rewrite sc_nil; intros H; symmetry in H; contradiction|].
    rewrite sc_cons. intros H. destruct r0 as [x|k]; cbn [bind] in H.
    + destruct (eqb x stop) eqn:E.
      * apply eqb_prop in E. subst x r. exists [], rs. split; [reflexivity | constructor].
      * destruct (IH H) as (a & b & -> & Ha). exists (Ok x :: a), b. split; [reflexivity|]. constructor; [|exact Ha].
        destruct x, stop; try discriminate; reflexivity.
    + subst r. exists [], rs. split; [reflexivity | constructor].
  - intros (a & b & -> & Ha). rewrite (sc_prefix stop a _ Ha), sc_cons.
    destruct r as [x|k]; [|reflexivity]. cbn [bind]. destruct x, stop; try reflexivity; contradiction.
Qed.
(* the same for the results of a function over a list *)
Lemma sc_map_undecided_iff {A} stop (g : A -> res bool) l :
  sc stop (map g l) = Ok (negb stop) <-> Forall (fun x => g x = Ok (negb stop)) l.
Proof. rewrite sc_undecided_iff. apply Forall_map. Qed.
Lemma sc_map_outcome_iff {A} stop (g : A -> res bool) l r : r <> Ok (negb stop) ->
  (sc stop (map g l) = r <-> exists l1 x l2, l = l1 ++ x :: l2 /\ Forall (fun y => g y = Ok (negb stop)) l1 /\ g x = r).
Proof.
  intros Hr. rewrite (sc_outcome_iff stop _ r Hr). split.
  - intros (a & b & Hm & Ha). apply map_eq_app in Hm. destruct Hm as (l1 & l2' & -> & <- & Hm).
    apply map_eq_cons in Hm. destruct Hm as (x & l2 & -> & Hx & _).
    exists l1, x, l2. split; [reflexivity | split; [apply Forall_map in Ha; exact Ha | exact Hx]].
  - intros (l1 & x & l2 & -> & H1 & <-). exists (map g l1), (map g l2). split; [apply map_app | apply Forall_map; exact H1].
Qed.
