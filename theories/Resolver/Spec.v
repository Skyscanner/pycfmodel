(* How [resolve] computes, in the form proofs use it. The inner loops of [resolve] get names ([rlist], [rdict] prune
   AWS::NoValue members; [rall], [rany] are Fn::And / Fn::Or; [mlist], [mdict] are the pruning loops for any member function,
   shared with [normalize]); one unfolding equation per function ([resolve_list] ... [resolve_equals]); [ill_call] collects the
   argument shapes a function rejects before resolving anything ([resolve_ill]); [resolve_ind] is induction over values
   the way [resolve] dispatches on them. Last, the relation [Eval] restates the dispatch as rules over the executable
   helpers [do_ref], [do_join], ... of Resolve.v, and [resolve_iff_eval] says [resolve] computes exactly it. *)
From Coq Require Import List Bool NArith ZArith Lia.
From PV Require Import Base.Str Base.Value Resolver.Consts Resolver.Text Resolver.Resolve.
Import ListNotations.
Local Open Scope N_scope.

Inductive Eval (e : env) : value -> value -> Prop :=
(* scalars are rendered as strings *)
| E_null : Eval e VNull VNull
| E_bool b : Eval e (VBool b) (VStr (bool_text b))
| E_int z : Eval e (VInt z) (VStr (str_of_Z z))
| E_str s : Eval e (VStr s) (VStr (render_str (params e) s))
| E_typed k t : Eval e (VTyped k t) (VStr t)
| E_bytes b : Eval e (VBytes b) (VStr (b64encode b))
(* containers: members resolved in place, AWS::NoValue members removed *)
| E_list l l' : EvalList e l l' -> Eval e (VList l) (VList l')
| E_dict d d' : is_fn_dict d = false -> EvalDict e d d' -> Eval e (VDict d) (VDict d')
(* value functions *)
| E_ref k body b r : k = K_Ref \/ k = K_ImportValue ->
    Eval e body b -> do_ref e b = Ok r -> Eval e (VDict [(k, body)]) r
| E_join dl l d' l' r : Eval e dl d' -> Eval e l l' -> do_join d' l' = Ok r ->
    Eval e (VDict [(K_Join, VList [dl; l])]) r
| E_split dl s d' s' r : Eval e dl d' -> Eval e s s' -> do_split d' s' = Ok r ->
    Eval e (VDict [(K_Split, VList [dl; s])]) r
| E_select i l i' l' r : Eval e i i' -> Eval e l l' -> do_select i' l' = Ok r ->
    Eval e (VDict [(K_Select, VList [i; l])]) r
| E_find_in_map m k1 k2 m' k1' k2' r : Eval e m m' -> Eval e k1 k1' -> Eval e k2 k2' ->
    do_find_in_map e m' k1' k2' = Ok r -> Eval e (VDict [(K_FindInMap, VList [m; k1; k2])]) r
| E_sub_text text r : do_sub e text [] = Ok r -> Eval e (VDict [(K_Sub, VStr text)]) r
| E_sub_vars text vars custom r : Eval e vars (VDict custom) -> do_sub e text custom = Ok r ->
    Eval e (VDict [(K_Sub, VList [VStr text; vars])]) r
| E_base64 body b r : Eval e body b -> do_base64 b = Ok r -> Eval e (VDict [(K_Base64, body)]) r
| E_getatt body : Eval e (VDict [(K_GetAtt, body)]) (VStr S_GETATT)
| E_getazs body : Eval e (VDict [(K_GetAZs, body)]) (VStr S_GETAZS)
(* condition functions *)
| E_condition name b : conds e name = Ok b -> Eval e (VDict [(K_Condition, VStr name)]) (VBool b)
| E_if_true c t f r : conds e c = Ok true -> Eval e t r -> Eval e (VDict [(K_If, VList [VStr c; t; f])]) r
| E_if_false c t f r : conds e c = Ok false -> Eval e f r -> Eval e (VDict [(K_If, VList [VStr c; t; f])]) r
| E_and parts b : EvalAll e parts b -> Eval e (VDict [(K_And, VList parts)]) (VBool b)
| E_or parts b : EvalAny e parts b -> Eval e (VDict [(K_Or, VList parts)]) (VBool b)
| E_not x rest r b : Eval e x r -> ext_bool r = Ok b -> Eval e (VDict [(K_Not, VList (x :: rest))]) (VBool (negb b))
| E_equals a b a' b' r : Eval e a a' -> Eval e b b' -> py_eq a' b' = Ok r ->
    Eval e (VDict [(K_Equals, VList [a; b])]) (VBool r)
with EvalList (e : env) : list value -> list value -> Prop :=
| EL_nil : EvalList e [] []
| EL_keep x x' xs xs' : Eval e x x' -> is_novalue x' = false -> EvalList e xs xs' -> EvalList e (x :: xs) (x' :: xs')
| EL_drop x x' xs xs' : Eval e x x' -> is_novalue x' = true -> EvalList e xs xs' -> EvalList e (x :: xs) xs'
with EvalDict (e : env) : list (str * value) -> list (str * value) -> Prop :=
| ED_nil : EvalDict e [] []
| ED_keep k x x' xs xs' : Eval e x x' -> is_novalue x' = false -> EvalDict e xs xs' ->
    EvalDict e ((k, x) :: xs) ((k, x') :: xs')
| ED_drop k x x' xs xs' : Eval e x x' -> is_novalue x' = true -> EvalDict e xs xs' -> EvalDict e ((k, x) :: xs) xs'
(* Fn::And = all, Fn::Or = any, left to right, later operands not evaluated once decided *)
with EvalAll (e : env) : list value -> bool -> Prop :=
| EA_nil : EvalAll e [] true
| EA_false x r xs : Eval e x r -> ext_bool r = Ok false -> EvalAll e (x :: xs) false
| EA_true x r xs b : Eval e x r -> ext_bool r = Ok true -> EvalAll e xs b -> EvalAll e (x :: xs) b
with EvalAny (e : env) : list value -> bool -> Prop :=
| EO_nil : EvalAny e [] false
| EO_true x r xs : Eval e x r -> ext_bool r = Ok true -> EvalAny e (x :: xs) true
| EO_false x r xs b : Eval e x r -> ext_bool r = Ok false -> EvalAny e xs b -> EvalAny e (x :: xs) b.

Scheme Eval_mut := Induction for Eval Sort Prop
  with EvalList_mut := Induction for EvalList Sort Prop
  with EvalDict_mut := Induction for EvalDict Sort Prop
  with EvalAll_mut := Induction for EvalAll Sort Prop
  with EvalAny_mut := Induction for EvalAny Sort Prop.
Combined Scheme Eval_mutind from Eval_mut, EvalList_mut, EvalDict_mut, EvalAll_mut, EvalAny_mut.

Definition rlist (e : env) : list value -> res (list value) :=
  fix go (l : list value) : res (list value) :=
    match l with
    | [] => Ok []
    | x :: xs => x' <- resolve e x ;; xs' <- go xs ;; Ok (if is_novalue x' then xs' else x' :: xs')
    end.
Definition rdict (e : env) : list (str * value) -> res (list (str * value)) :=
  fix go (d : list (str * value)) : res (list (str * value)) :=
    match d with
    | [] => Ok []
    | (k, x) :: xs => x' <- resolve e x ;; xs' <- go xs ;; Ok (if is_novalue x' then xs' else (k, x') :: xs')
    end.
Definition rall (e : env) : list value -> res bool :=
  fix all_go (l : list value) : res bool :=
    match l with
    | [] => Ok true
    | x :: xs => r <- resolve e x ;; b <- ext_bool r ;; if b then all_go xs else Ok false
    end.
Definition rany (e : env) : list value -> res bool :=
  fix any_go (l : list value) : res bool :=
    match l with
    | [] => Ok false
    | x :: xs => r <- resolve e x ;; b <- ext_bool r ;; if b then Ok true else any_go xs
    end.

Lemma rlist_cons e x xs : rlist e (x :: xs) = (x' <- resolve e x ;; xs' <- rlist e xs ;; Ok (if is_novalue x' then xs' else x' :: xs')).
Proof. reflexivity. Qed.
Lemma rdict_cons e k x xs : rdict e ((k, x) :: xs) = (x' <- resolve e x ;; xs' <- rdict e xs ;; Ok (if is_novalue x' then xs' else (k, x') :: xs')).
Proof. reflexivity. Qed.
Lemma rall_cons e x xs : rall e (x :: xs) = (r <- resolve e x ;; b <- ext_bool r ;; if b then rall e xs else Ok false).
Proof. reflexivity. Qed.
Lemma rany_cons e x xs : rany e (x :: xs) = (r <- resolve e x ;; b <- ext_bool r ;; if b then Ok true else rany e xs).
Proof. reflexivity. Qed.

(* the two pruning loops for an arbitrary member function: [resolve] and [normalize] share them *)
Definition mlist (f : value -> res value) : list value -> res (list value) :=
  fix go (l : list value) : res (list value) :=
    match l with
    | [] => Ok []
    | x :: xs => x' <- f x ;; xs' <- go xs ;; Ok (if is_novalue x' then xs' else x' :: xs')
    end.
Definition mdict (f : value -> res value) : list (str * value) -> res (list (str * value)) :=
  fix go (d : list (str * value)) : res (list (str * value)) :=
    match d with
    | [] => Ok []
    | (k, x) :: xs => x' <- f x ;; xs' <- go xs ;; Ok (if is_novalue x' then xs' else (k, x') :: xs')
    end.
Lemma rlist_mlist e l : rlist e l = mlist (resolve e) l.
Proof. reflexivity. Qed.
Lemma rdict_mdict e d : rdict e d = mdict (resolve e) d.
Proof. reflexivity. Qed.
Lemma normalize_list ps l : normalize ps (VList l) = (l' <- mlist (normalize ps) l ;; Ok (VList l')).
Proof. reflexivity. Qed.
Lemma normalize_dict ps d : normalize ps (VDict d) =
  if is_fn_dict d then Err EUndefined else (d' <- mdict (normalize ps) d ;; Ok (VDict d')).
Proof. reflexivity. Qed.

Lemma resolve_list e l : resolve e (VList l) = (l' <- rlist e l ;; Ok (VList l')).
Proof. reflexivity. Qed.
(* a key that is no function name fails every test of the dispatch *)
Lemma not_fn_key k K : is_fn k = false -> In K MODEL_FUNCTIONS -> str_eqb k K = false.
Proof.
  intros H HK. destruct (str_eqb k K) eqn:E; [|reflexivity].
  apply str_eqb_spec in E. subst K. apply mem_str_In in HK. unfold is_fn in H. congruence.
Qed.
Lemma resolve_dict_generic e d : is_fn_dict d = false -> resolve e (VDict d) = (d' <- rdict e d ;; Ok (VDict d')).
Proof.
  intros H. destruct d as [|[k body] [|kv2 rest]]; try reflexivity.
  cbn [resolve]. rewrite !(not_fn_key k _ H) by (apply mem_str_In; reflexivity). reflexivity.
Qed.

Lemma resolve_ref e body : resolve e (VDict [(K_Ref, body)]) = (b <- resolve e body ;; do_ref e b).
Proof. reflexivity. Qed.
Lemma resolve_import e body : resolve e (VDict [(K_ImportValue, body)]) = (b <- resolve e body ;; do_ref e b).
Proof. reflexivity. Qed.
Lemma resolve_join e dl l : resolve e (VDict [(K_Join, VList [dl; l])]) = (d' <- resolve e dl ;; l' <- resolve e l ;; do_join d' l').
Proof. reflexivity. Qed.
Lemma resolve_split e dl s : resolve e (VDict [(K_Split, VList [dl; s])]) = (d' <- resolve e dl ;; s' <- resolve e s ;; do_split d' s').
Proof. reflexivity. Qed.
Lemma resolve_select e i l : resolve e (VDict [(K_Select, VList [i; l])]) = (i' <- resolve e i ;; l' <- resolve e l ;; do_select i' l').
Proof. reflexivity. Qed.
Lemma resolve_find_in_map e m k1 k2 : resolve e (VDict [(K_FindInMap, VList [m; k1; k2])]) =
  (m' <- resolve e m ;; k1' <- resolve e k1 ;; k2' <- resolve e k2 ;; do_find_in_map e m' k1' k2').
Proof. reflexivity. Qed.
Lemma resolve_sub_text e text : resolve e (VDict [(K_Sub, VStr text)]) = do_sub e text [].
Proof. reflexivity. Qed.
Lemma resolve_sub_vars e text vars : resolve e (VDict [(K_Sub, VList [VStr text; vars])]) =
  (cv <- resolve e vars ;; match cv with VDict custom => do_sub e text custom | _ => Err EUndefined end).
Proof. reflexivity. Qed.
Lemma resolve_base64 e body : resolve e (VDict [(K_Base64, body)]) = (b <- resolve e body ;; do_base64 b).
Proof. reflexivity. Qed.
Lemma resolve_getatt e body : resolve e (VDict [(K_GetAtt, body)]) = Ok (VStr S_GETATT).
Proof. reflexivity. Qed.
Lemma resolve_getazs e body : resolve e (VDict [(K_GetAZs, body)]) = Ok (VStr S_GETAZS).
Proof. reflexivity. Qed.
Lemma resolve_condition e name : resolve e (VDict [(K_Condition, VStr name)]) = (b <- conds e name ;; Ok (VBool b)).
Proof. reflexivity. Qed.
Lemma resolve_if e c t f : resolve e (VDict [(K_If, VList [VStr c; t; f])]) =
  (b <- conds e c ;; if b then resolve e t else resolve e f).
Proof. reflexivity. Qed.
Lemma resolve_and e parts : resolve e (VDict [(K_And, VList parts)]) = (b <- rall e parts ;; Ok (VBool b)).
Proof. reflexivity. Qed.
Lemma resolve_or e parts : resolve e (VDict [(K_Or, VList parts)]) = (b <- rany e parts ;; Ok (VBool b)).
Proof. reflexivity. Qed.
Lemma resolve_not e x rest : resolve e (VDict [(K_Not, VList (x :: rest))]) =
  (r <- resolve e x ;; b <- ext_bool r ;; Ok (VBool (negb b))).
Proof. reflexivity. Qed.
Lemma resolve_equals e a b : resolve e (VDict [(K_Equals, VList [a; b])]) =
  (a' <- resolve e a ;; b' <- resolve e b ;; r <- py_eq a' b' ;; Ok (VBool r)).
Proof. reflexivity. Qed.

Lemma resolve_ref_import e k body : k = K_Ref \/ k = K_ImportValue ->
  resolve e (VDict [(k, body)]) = (b <- resolve e body ;; do_ref e b).
Proof. intros [-> | ->]; reflexivity. Qed.

Lemma is_fn_dict_single k body : is_fn_dict [(k, body)] = is_fn k.
Proof. reflexivity. Qed.

Definition atom (v : value) : Prop := match v with VList _ | VDict _ => False | _ => True end.
Definition not_list (v : value) : Prop := match v with VList _ => False | _ => True end.
Definition not_str (v : value) : Prop := match v with VStr _ => False | _ => True end.

Definition two_arg_keys : list str := [K_Join; K_Split; K_Select; K_Equals].
Definition three_arg_keys : list str := [K_FindInMap; K_If].
(* [ill_call k body er]: the function [k] does not take the argument [body]; the call raises [er] before anything is resolved *)
Inductive ill_call : str -> value -> err -> Prop :=
| ill_not_list k body : In k (two_arg_keys ++ three_arg_keys ++ [K_And; K_Or; K_Not]) -> not_list body -> ill_call k body EUndefined
| ill_arity2 k l : In k two_arg_keys -> length l <> 2%nat -> ill_call k (VList l) EValue
| ill_arity3 k l : In k three_arg_keys -> length l <> 3%nat -> ill_call k (VList l) EValue
| ill_sub body : not_list body -> not_str body -> ill_call K_Sub body EUndefined
| ill_sub_arity l : length l <> 2%nat -> ill_call K_Sub (VList l) EValue
| ill_sub_text t vars : not_str t -> ill_call K_Sub (VList [t; vars]) EUndefined
| ill_condition body : not_str body -> ill_call K_Condition body EUndefined
| ill_if_name c t f : not_str c -> ill_call K_If (VList [c; t; f]) EUndefined
| ill_not_nil : ill_call K_Not (VList []) EIndex.

(* from [H : ill_call k body er] to the concrete keys and argument shapes it stands for (a goal about a resolver applied to
   [VDict [(k, body)]] is then closed by evaluation); one branch per constructor of [ill_call], in their order.
   In the branch of [ill_sub_arity] the first two members of the argument list, if there, are [x] (destructed) and [y]. *)
Ltac ill_shapes H :=
  let b := fresh "b" in let l := fresh "l" in let x := fresh "x" in let y := fresh "y" in let Hk := fresh "Hk" in
  destruct H as [? b Hk ? | ? l Hk ? | ? l Hk ? | b ? ? | l ? | x ? ? | b ? | x ? ? ? | ];
  [ repeat destruct Hk as [<-|Hk]; try contradiction; simpl; destruct b; try contradiction
  | repeat destruct Hk as [<-|Hk]; try contradiction; simpl; destruct l as [|? [|? [|? ?]]]; try contradiction
  | repeat destruct Hk as [<-|Hk]; try contradiction; simpl; destruct l as [|x [|? [|? [|? ?]]]]; try contradiction; try destruct x
  | simpl; destruct b; try contradiction
  | simpl; destruct l as [|x [|y [|? ?]]]; try contradiction; try destruct x
  | simpl; destruct x; try contradiction
  | simpl; destruct b; try contradiction
  | simpl; destruct x; try contradiction
  | ].

Lemma resolve_ill e k body er : ill_call k body er -> resolve e (VDict [(k, body)]) = Err er.
Proof. intros H. ill_shapes H; reflexivity. Qed.

(* Induction over values the way [resolve] reads them. Cases, in the order a proof by [induction v using resolve_ind] meets
   them: atoms, list, object that is no call, Ref / ImportValue, Join, Split, Select, FindInMap, Sub (text), Sub (text and
   variable map), Base64, GetAtt, GetAZs, Condition, If, And, Or, Not, Equals, ill-formed call. *)
Section ResolveInd.
Variable P : value -> Prop.
Hypothesis Hatom : forall v, atom v -> P v.
Hypothesis Hlist : forall l, Forall P l -> P (VList l).
Hypothesis Hdict : forall d, is_fn_dict d = false -> Forall (fun kv => P (snd kv)) d -> P (VDict d).
Hypothesis Href : forall k body, k = K_Ref \/ k = K_ImportValue -> P body -> P (VDict [(k, body)]).
Hypothesis Hjoin : forall dl l, P dl -> P l -> P (VDict [(K_Join, VList [dl; l])]).
Hypothesis Hsplit : forall dl s, P dl -> P s -> P (VDict [(K_Split, VList [dl; s])]).
Hypothesis Hselect : forall i l, P i -> P l -> P (VDict [(K_Select, VList [i; l])]).
Hypothesis Hfim : forall m k1 k2, P m -> P k1 -> P k2 -> P (VDict [(K_FindInMap, VList [m; k1; k2])]).
Hypothesis Hsub_text : forall text, P (VDict [(K_Sub, VStr text)]).
(* the members of a variable map written as an object are at hand too: Robust/WellFormed.ty_of types them one by one *)
Hypothesis Hsub_vars : forall text vars, P vars -> (forall cd, vars = VDict cd -> Forall (fun kv => P (snd kv)) cd) ->
  P (VDict [(K_Sub, VList [VStr text; vars])]).
Hypothesis Hbase64 : forall body, P body -> P (VDict [(K_Base64, body)]).
Hypothesis Hgetatt : forall body, P (VDict [(K_GetAtt, body)]).
Hypothesis Hgetazs : forall body, P (VDict [(K_GetAZs, body)]).
Hypothesis Hcondition : forall name, P (VDict [(K_Condition, VStr name)]).
Hypothesis Hif : forall c t f, P t -> P f -> P (VDict [(K_If, VList [VStr c; t; f])]).
Hypothesis Hand : forall parts, Forall P parts -> P (VDict [(K_And, VList parts)]).
Hypothesis Hor : forall parts, Forall P parts -> P (VDict [(K_Or, VList parts)]).
Hypothesis Hnot : forall x rest, P x -> P (VDict [(K_Not, VList (x :: rest))]).
Hypothesis Hequals : forall a b, P a -> P b -> P (VDict [(K_Equals, VList [a; b])]).
Hypothesis Hill : forall k body er, ill_call k body er -> P (VDict [(k, body)]).

Lemma two_args_ind k : In k two_arg_keys ->
  (forall a b, P a -> P b -> P (VDict [(k, VList [a; b])])) ->
  forall body, (forall x, (vsize x < vsize body)%nat -> P x) -> P (VDict [(k, body)]).
Proof.
  intros Hk Hwell body IH.
  destruct body as [| | | | | | l |]; try (apply Hill with EUndefined, ill_not_list; [apply in_or_app; left; exact Hk | exact I]).
  destruct l as [|a [|b [|? ?]]]; try (apply Hill with EValue, ill_arity2; [exact Hk | discriminate]).
  apply Hwell; apply IH; simpl; lia.
Qed.

Theorem resolve_ind : forall v, P v.
Proof.
  intros v. induction v as [v IH] using value_size_ind.
  destruct v as [| | | | | | l | d]; try (apply Hatom; exact I).
  - apply Hlist, Forall_forall. intros x Hx. apply IH. exact (vsize_in_list x l Hx).
  - assert (Hgen : is_fn_dict d = false -> P (VDict d)).
    { intros Hf. apply Hdict; [exact Hf|]. apply Forall_forall. intros [k x] Hx. apply IH. exact (vsize_in_dict k x d Hx). }
    destruct d as [|[k body] [|kv2 rest]]; [apply Hgen; reflexivity | | apply Hgen; reflexivity].
    assert (Hbody : P body) by (apply IH; simpl; lia).
    assert (Hdeep : forall x, (vsize x < vsize body)%nat -> P x) by (intros x Hx; apply IH; simpl; lia).
    assert (Hin : forall l, body = VList l -> Forall P l).
    { intros l ->. apply Forall_forall. intros x Hx. apply Hdeep, vsize_in_list, Hx. }
    destruct (is_fn k) eqn:Hfn; [|apply Hgen; exact Hfn].
    (* [k] is one of the sixteen names of MODEL_FUNCTIONS: one bullet per name, in the order of that list *)
    apply mem_str_In in Hfn.
    destruct Hfn as [<-|[<-|[<-|[<-|[<-|[<-|[<-|[<-|[<-|[<-|[<-|[<-|[<-|[<-|[<-|[<-|[]]]]]]]]]]]]]]]]].
    + destruct body as [| | | name | | | |]; try (apply Hill with EUndefined, ill_condition; exact I). apply Hcondition.
    + destruct body as [| | | | | | parts |]; try (apply Hill with EUndefined, ill_not_list; [apply mem_str_In; reflexivity | exact I]).
      apply Hand, Hin. reflexivity.
    + apply Hbase64, Hbody.
    + apply two_args_ind; [apply mem_str_In; reflexivity | exact Hequals | exact Hdeep].
    + destruct body as [| | | | | | l |]; try (apply Hill with EUndefined, ill_not_list; [apply mem_str_In; reflexivity | exact I]).
      destruct l as [|m [|k1 [|k2 [|? ?]]]]; try (apply Hill with EValue, ill_arity3; [apply mem_str_In; reflexivity | discriminate]).
      apply Hfim; apply Hdeep; simpl; lia.
    + apply Hgetatt.
    + apply Hgetazs.
    + destruct body as [| | | | | | l |]; try (apply Hill with EUndefined, ill_not_list; [apply mem_str_In; reflexivity | exact I]).
      destruct l as [|c [|t [|f [|? ?]]]]; try (apply Hill with EValue, ill_arity3; [apply mem_str_In; reflexivity | discriminate]).
      destruct c as [| | | c | | | |]; try (apply Hill with EUndefined, ill_if_name; exact I).
      apply Hif; apply Hdeep; simpl; lia.
    + apply Href; [right; reflexivity | exact Hbody].
    + apply two_args_ind; [apply mem_str_In; reflexivity | exact Hjoin | exact Hdeep].
    + destruct body as [| | | | | | l |]; try (apply Hill with EUndefined, ill_not_list; [apply mem_str_In; reflexivity | exact I]).
      destruct l as [|x rest]; [apply Hill with EIndex, ill_not_nil|]. apply Hnot, Hdeep. simpl. lia.
    + destruct body as [| | | | | | parts |]; try (apply Hill with EUndefined, ill_not_list; [apply mem_str_In; reflexivity | exact I]).
      apply Hor, Hin. reflexivity.
    + apply two_args_ind; [apply mem_str_In; reflexivity | exact Hselect | exact Hdeep].
    + apply two_args_ind; [apply mem_str_In; reflexivity | exact Hsplit | exact Hdeep].
    + destruct body as [| | | text | | | l |]; try (apply Hill with EUndefined, ill_sub; exact I).
      * apply Hsub_text.
      * destruct l as [|t [|vars [|? ?]]]; try (apply Hill with EValue, ill_sub_arity; discriminate).
        destruct t as [| | | text | | | |]; try (apply Hill with EUndefined, ill_sub_text; exact I).
        apply Hsub_vars; [apply Hdeep; simpl; lia|]. intros cd ->. apply Forall_forall. intros [k x] Hx. apply Hdeep.
        pose proof (vsize_in_dict k x cd Hx). simpl in *. lia.
    + apply Href; [left; reflexivity | exact Hbody].
Qed.
End ResolveInd.

Lemma bind_ok {A B} (r : res A) (f : A -> res B) a : r = Ok a -> bind r f = f a.
Proof. intros ->. reflexivity. Qed.

(* completeness: every derivation is computed. One case per rule, in the order the rules are written; the rules for
   atoms, GetAtt, GetAZs and the empty lists hold by computation. *)
Theorem eval_complete e :
  (forall v r, Eval e v r -> resolve e v = Ok r) /\
  (forall l l', EvalList e l l' -> rlist e l = Ok l') /\
  (forall d d', EvalDict e d d' -> rdict e d = Ok d') /\
  (forall l b, EvalAll e l b -> rall e l = Ok b) /\
  (forall l b, EvalAny e l b -> rany e l = Ok b).
Proof.
  apply Eval_mutind; intros; try reflexivity.
  - rewrite resolve_list, H. reflexivity.
  - rewrite resolve_dict_generic by assumption. rewrite H. reflexivity.
  - destruct o as [-> | ->]; [rewrite resolve_ref | rewrite resolve_import]; rewrite H; simpl; assumption.
  - rewrite resolve_join, H, H0. simpl. assumption.
  - rewrite resolve_split, H, H0. simpl. assumption.
  - rewrite resolve_select, H, H0. simpl. assumption.
  - rewrite resolve_find_in_map, H, H0, H1. simpl. assumption.
  - rewrite resolve_sub_text. assumption.
  - rewrite resolve_sub_vars, H. simpl. assumption.
  - rewrite resolve_base64, H. simpl. assumption.
  - rewrite resolve_condition, e0. reflexivity.
  - rewrite resolve_if, e0. simpl. assumption.
  - rewrite resolve_if, e0. simpl. assumption.
  - rewrite resolve_and, H. reflexivity.
  - rewrite resolve_or, H. reflexivity.
  - rewrite resolve_not, H. simpl. rewrite e1. reflexivity.
  - rewrite resolve_equals, H, H0. simpl. rewrite e2. reflexivity.
  - simpl. rewrite H. simpl. rewrite H0. simpl. rewrite e1. reflexivity.
  - simpl. rewrite H. simpl. rewrite H0. simpl. rewrite e1. reflexivity.
  - simpl. rewrite H. simpl. rewrite H0. simpl. rewrite e1. reflexivity.
  - simpl. rewrite H. simpl. rewrite H0. simpl. rewrite e1. reflexivity.
  - simpl. rewrite H. simpl. rewrite e1. reflexivity.
  - simpl. rewrite H. simpl. rewrite e1. simpl. assumption.
  - simpl. rewrite H. simpl. rewrite e1. reflexivity.
  - simpl. rewrite H. simpl. rewrite e1. simpl. assumption.
Qed.

(* soundness: whatever [resolve] returns is derivable *)
Section Sound.
Variable e : env.
Definition SoundAt (v : value) : Prop := forall r, resolve e v = Ok r -> Eval e v r.

Lemma rlist_sound l : Forall SoundAt l -> forall l', rlist e l = Ok l' -> EvalList e l l'.
Proof.
  induction 1 as [|x xs Hx Hxs IH]; intros l' H; simpl in H.
  - inv H. constructor.
  - bind_inv. inv H. destruct (is_novalue a) eqn:En.
    + eapply EL_drop; eauto.
    + eapply EL_keep; eauto.
Qed.
Lemma rdict_sound d : Forall (fun kv => SoundAt (snd kv)) d -> forall d', rdict e d = Ok d' -> EvalDict e d d'.
Proof.
  induction 1 as [|[k x] xs Hx Hxs IH]; intros d' H; simpl in H.
  - inv H. constructor.
  - bind_inv. inv H. simpl in Hx. destruct (is_novalue a) eqn:En.
    + eapply ED_drop; eauto.
    + eapply ED_keep; eauto.
Qed.
Lemma rall_sound l : Forall SoundAt l -> forall b, rall e l = Ok b -> EvalAll e l b.
Proof.
  induction 1 as [|x xs Hx Hxs IH]; intros b H; simpl in H.
  - inv H. constructor.
  - bind_inv. destruct a0.
    + eapply EA_true; eauto.
    + inv H. eapply EA_false; eauto.
Qed.
Lemma rany_sound l : Forall SoundAt l -> forall b, rany e l = Ok b -> EvalAny e l b.
Proof.
  induction 1 as [|x xs Hx Hxs IH]; intros b H; simpl in H.
  - inv H. constructor.
  - bind_inv. destruct a0.
    + inv H. eapply EO_true; eauto.
    + eapply EO_false; eauto.
Qed.
End Sound.

Theorem eval_sound e v r : resolve e v = Ok r -> Eval e v r.
Proof.
  revert v r. apply (resolve_ind (SoundAt e)); unfold SoundAt.
  - intros [] Hv r Hr; try contradiction; inv Hr; constructor.
  - intros l IH r Hr. rewrite resolve_list in Hr. bind_inv. inv Hr. constructor. eapply rlist_sound; eauto.
  - intros d Hf IH r Hr. rewrite resolve_dict_generic in Hr by assumption. bind_inv. inv Hr.
    apply E_dict; [assumption|]. eapply rdict_sound; eauto.
  - intros k body Hk IH r Hr. rewrite resolve_ref_import in Hr by assumption. bind_inv. eapply E_ref; eauto.
  - intros dl l IH1 IH2 r Hr. rewrite resolve_join in Hr. bind_inv. eapply E_join; eauto.
  - intros dl s IH1 IH2 r Hr. rewrite resolve_split in Hr. bind_inv. eapply E_split; eauto.
  - intros i l IH1 IH2 r Hr. rewrite resolve_select in Hr. bind_inv. eapply E_select; eauto.
  - intros m k1 k2 IH1 IH2 IH3 r Hr. rewrite resolve_find_in_map in Hr. bind_inv. eapply E_find_in_map; eauto.
  - intros text r Hr. apply E_sub_text. exact Hr.
  - intros text vars IH _ r Hr. rewrite resolve_sub_vars in Hr. bind_inv. destruct a as [| | | | | | | custom]; try discriminate.
    eapply E_sub_vars; eauto.
  - intros body IH r Hr. rewrite resolve_base64 in Hr. bind_inv. eapply E_base64; eauto.
  - intros body r Hr. inv Hr. constructor.
  - intros body r Hr. inv Hr. constructor.
  - intros name r Hr. rewrite resolve_condition in Hr. bind_inv. inv Hr. constructor. assumption.
  - intros c t f IH1 IH2 r Hr. rewrite resolve_if in Hr. bind_inv. destruct a; [eapply E_if_true | eapply E_if_false]; eauto.
  - intros parts IH r Hr. rewrite resolve_and in Hr. bind_inv. inv Hr. constructor. eapply rall_sound; eauto.
  - intros parts IH r Hr. rewrite resolve_or in Hr. bind_inv. inv Hr. constructor. eapply rany_sound; eauto.
  - intros x rest IH r Hr. rewrite resolve_not in Hr. bind_inv. inv Hr. eapply E_not; eauto.
  - intros a b IH1 IH2 r Hr. rewrite resolve_equals in Hr. bind_inv. inv Hr. eapply E_equals; eauto.
  - intros k body er H r Hr. rewrite (resolve_ill e k body er H) in Hr. discriminate.
Qed.

Theorem resolve_iff_eval e v r : resolve e v = Ok r <-> Eval e v r.
Proof. split; [apply eval_sound | apply eval_complete]. Qed.
