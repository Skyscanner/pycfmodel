(* C07, "adding unused parameters, mappings or conditions changes nothing" -- with the SEMANTIC notion of unused.

   [resolve_tr] is [resolve] (Resolver/Resolve.v) instrumented with the list of environment accesses it makes:
     AParam k   every  lookup k (params e) : Ref / Fn::ImportValue (do_ref), a Fn::Sub placeholder that is not bound by the
                expression's own variable map (render_var), and the key of a "{{resolve:ssm:NAME:VERSION}}" string, wherever
                such a string is rendered: a leaf of the expression, a leaf of a parameter VALUE that Ref / Fn::Sub insert
                (normalize), a leaf of a Fn::Sub variable value;
     AMap m     every  lookup m (mappings e) : Fn::FindInMap;
     ACond n    every  conds e n             : Condition, Fn::If.
   The trace is produced on error runs too (the accesses made until the exception).

   The file has four parts.  First [resolve_tr], that it returns what [resolve] returns ([resolve_tr_result]), and the frame
   theorem: two environments that agree on every access made give the same result and the same trace ([resolve_tr_frame]), so what
   is never read can be added, removed or changed ([change_unread_parameters] ..., [add_unused_parameter_anywhere] ...).  Then the
   same at template level: the traces of the resource loop, of the declared conditions and of the whole model ([resources_trace],
   [cond_trace], [model_trace]), each with its frame theorem.  Then two lemmas on parameter binding: one more declaration changes
   the lookup of that name only.  Last a syntactic sufficient condition: where names are not computed ([literal_names]) the names
   read are among those that occur as text ([syn_trace_sound_at]). *)
From Coq Require Import List Bool NArith ZArith.
From PV Require Import Base.Str Base.Value Resolver.Consts Resolver.Text Resolver.Resolve Resolver.Spec Resolver.Ext
  Resolver.Template Resolver.SubSpec.
Import ListNotations.
Local Open Scope N_scope.

Inductive access := AParam (k : str) | AMap (k : str) | ACond (k : str).
Definition trace := list access.
Definition tres (A : Type) : Type := (res A * trace)%type.
Definition tpure {A} (r : res A) : tres A := (r, []).
(* [t] happens, then [r] *)
Definition tlog {A} (t : trace) (r : tres A) : tres A := (fst r, t ++ snd r).
Definition tbind {A B} (r : tres A) (f : A -> tres B) : tres B :=
  match r with
  | (Ok a, t) => let p := f a in (fst p, t ++ snd p)
  | (Err e, t) => (Err e, t)                 (* the exception stops the walk; the accesses made so far stay *)
  end.
Notation "x <~~ r ;; k" := (tbind r (fun x => k)) (at level 61, r at next level, right associativity).

(* leaves: the only access is the SSM key, and it does not depend on the environment *)
Definition ssm_trace (s : str) : trace := match ssm_key s with Some key => [AParam key] | None => [] end.

(* a parameter value being rendered *)
Fixpoint normalize_tr (ps : list (str * value)) (v : value) {struct v} : tres value :=
  match v with
  | VList l =>
      l' <~~ (fix go (l : list value) : tres (list value) :=
                match l with
                | [] => tpure (Ok [])
                | x :: xs => x' <~~ normalize_tr ps x ;; xs' <~~ go xs ;;
                             tpure (Ok (if is_novalue x' then xs' else x' :: xs'))
                end) l ;;
      tpure (Ok (VList l'))
  | VDict d =>
      if is_fn_dict d then tpure (Err EUndefined) else
      d' <~~ (fix go (d : list (str * value)) : tres (list (str * value)) :=
                match d with
                | [] => tpure (Ok [])
                | (k, x) :: xs => x' <~~ normalize_tr ps x ;; xs' <~~ go xs ;;
                                  tpure (Ok (if is_novalue x' then xs' else (k, x') :: xs'))
                end) d ;;
      tpure (Ok (VDict d'))
  | VNull => tpure (Ok VNull)
  | VBool b => tpure (Ok (VStr (bool_text b)))
  | VInt z => tpure (Ok (VStr (str_of_Z z)))
  | VStr s => (Ok (VStr (render_str ps s)), ssm_trace s)
  | VTyped _ t => tpure (Ok (VStr t))
  | VBytes b => tpure (Ok (VStr (b64encode b)))
  end.

Definition do_ref_tr (e : env) (b : value) : tres value :=
  match b with
  | VStr s =>
      tlog [AParam s]
        match lookup s (params e) with
        | Some x => normalize_tr (params e) x
        | None => tpure (Ok (VStr (undefined_param s)))
        end
  | VList _ | VDict _ => tpure (Err EType)
  | _ => tpure (Err EUndefined)
  end.

Definition do_find_in_map_tr (e : env) (m k1 k2 : value) : tres value :=
  (do_find_in_map e m k1 k2,
   match m, k1, k2 with VStr ms, VStr _, VStr _ => [AMap ms] | _, _, _ => [] end).

Definition as_text (x : value) : res str := match x with VStr s => Ok s | _ => Err EUndefined end.
Definition render_var_tr (e : env) (custom : list (str * value)) (name : str) : tres str :=
  match lookup name custom with
  | Some x => x' <~~ normalize_tr (params e) x ;; tpure (as_text x')
  | None =>
      tlog [AParam name]
        match lookup name (params e) with
        | Some x => x' <~~ normalize_tr (params e) x ;; tpure (as_text x')
        | None => tpure (Ok (36 :: 123 :: name ++ [125]))
        end
  end.
Definition render_tok_tr (e : env) (custom : list (str * value)) (t : stok) : tres str :=
  match t with
  | TText c => tpure (Ok [c])
  | TBang name => tpure (Ok (36 :: 123 :: name ++ [125]))
  | TVar name => render_var_tr e custom name
  end.
Fixpoint render_toks_tr (e : env) (custom : list (str * value)) (ts : list stok) : tres str :=
  match ts with
  | [] => tpure (Ok [])
  | t :: r => a <~~ render_tok_tr e custom t ;; b <~~ render_toks_tr e custom r ;; tpure (Ok (a ++ b))
  end.
Definition do_sub_tr (e : env) (text : str) (custom : list (str * value)) : tres value :=
  s <~~ render_toks_tr e custom (sub_tokens text) ;; tpure (Ok (VStr s)).

(* the instrumented resolver: same shape as [resolve], line by line *)
Fixpoint resolve_tr (e : env) (v : value) {struct v} : tres value :=
  match v with
  | VList l =>
      l' <~~ (fix go (l : list value) : tres (list value) :=
                match l with
                | [] => tpure (Ok [])
                | x :: xs => x' <~~ resolve_tr e x ;; xs' <~~ go xs ;;
                             tpure (Ok (if is_novalue x' then xs' else x' :: xs'))
                end) l ;;
      tpure (Ok (VList l'))
  | VDict d =>
      let generic := fun _ : unit =>
        d' <~~ (fix go (d : list (str * value)) : tres (list (str * value)) :=
                  match d with
                  | [] => tpure (Ok [])
                  | (k, x) :: xs => x' <~~ resolve_tr e x ;; xs' <~~ go xs ;;
                                    tpure (Ok (if is_novalue x' then xs' else (k, x') :: xs'))
                  end) d ;;
        tpure (Ok (VDict d')) in
      match d with
      | [(k, body)] =>
          if str_eqb k K_Ref || str_eqb k K_ImportValue then
            b <~~ resolve_tr e body ;; do_ref_tr e b
          else if str_eqb k K_Join then
            match body with
            | VList [dl; l] => d' <~~ resolve_tr e dl ;; l' <~~ resolve_tr e l ;; tpure (do_join d' l')
            | VList _ => tpure (Err EValue)
            | _ => tpure (Err EUndefined)
            end
          else if str_eqb k K_Split then
            match body with
            | VList [dl; s] => d' <~~ resolve_tr e dl ;; s' <~~ resolve_tr e s ;; tpure (do_split d' s')
            | VList _ => tpure (Err EValue)
            | _ => tpure (Err EUndefined)
            end
          else if str_eqb k K_Select then
            match body with
            | VList [i; l] => i' <~~ resolve_tr e i ;; l' <~~ resolve_tr e l ;; tpure (do_select i' l')
            | VList _ => tpure (Err EValue)
            | _ => tpure (Err EUndefined)
            end
          else if str_eqb k K_FindInMap then
            match body with
            | VList [m; k1; k2] =>
                m' <~~ resolve_tr e m ;; k1' <~~ resolve_tr e k1 ;; k2' <~~ resolve_tr e k2 ;;
                do_find_in_map_tr e m' k1' k2'
            | VList _ => tpure (Err EValue)
            | _ => tpure (Err EUndefined)
            end
          else if str_eqb k K_Sub then
            match body with
            | VStr text => do_sub_tr e text []
            | VList [VStr text; vars] =>
                cv <~~ resolve_tr e vars ;;
                match cv with VDict custom => do_sub_tr e text custom | _ => tpure (Err EUndefined) end
            | VList [_; _] => tpure (Err EUndefined)
            | VList _ => tpure (Err EValue)
            | _ => tpure (Err EUndefined)
            end
          else if str_eqb k K_Base64 then
            b <~~ resolve_tr e body ;; tpure (do_base64 b)
          else if str_eqb k K_GetAtt then tpure (Ok (VStr S_GETATT))
          else if str_eqb k K_GetAZs then tpure (Ok (VStr S_GETAZS))
          else if str_eqb k K_Condition then
            match body with
            | VStr name => tlog [ACond name] (tpure (b <- conds e name ;; Ok (VBool b)))
            | _ => tpure (Err EUndefined)
            end
          else if str_eqb k K_If then
            match body with
            | VList [VStr c; t; f] =>
                tlog [ACond c] (b <~~ tpure (conds e c) ;; if b then resolve_tr e t else resolve_tr e f)
            | VList [_; _; _] => tpure (Err EUndefined)
            | VList _ => tpure (Err EValue)
            | _ => tpure (Err EUndefined)
            end
          else if str_eqb k K_And then
            match body with
            | VList parts =>
                b <~~ (fix all_go (l : list value) : tres bool :=
                         match l with
                         | [] => tpure (Ok true)
                         | x :: xs => r <~~ resolve_tr e x ;; b <~~ tpure (ext_bool r) ;;
                                      if b then all_go xs else tpure (Ok false)
                         end) parts ;;
                tpure (Ok (VBool b))
            | _ => tpure (Err EUndefined)
            end
          else if str_eqb k K_Or then
            match body with
            | VList parts =>
                b <~~ (fix any_go (l : list value) : tres bool :=
                         match l with
                         | [] => tpure (Ok false)
                         | x :: xs => r <~~ resolve_tr e x ;; b <~~ tpure (ext_bool r) ;;
                                      if b then tpure (Ok true) else any_go xs
                         end) parts ;;
                tpure (Ok (VBool b))
            | _ => tpure (Err EUndefined)
            end
          else if str_eqb k K_Not then
            match body with
            | VList (x :: _) => r <~~ resolve_tr e x ;; tpure (b <- ext_bool r ;; Ok (VBool (negb b)))
            | VList [] => tpure (Err EIndex)
            | _ => tpure (Err EUndefined)
            end
          else if str_eqb k K_Equals then
            match body with
            | VList [a; b] => a' <~~ resolve_tr e a ;; b' <~~ resolve_tr e b ;; tpure (r <- py_eq a' b' ;; Ok (VBool r))
            | VList _ => tpure (Err EValue)
            | _ => tpure (Err EUndefined)
            end
          else generic tt
      | _ => generic tt
      end
  | VNull => tpure (Ok VNull)
  | VBool b => tpure (Ok (VStr (bool_text b)))
  | VInt z => tpure (Ok (VStr (str_of_Z z)))
  | VStr s => (Ok (VStr (render_str (params e) s)), ssm_trace s)
  | VTyped _ t => tpure (Ok (VStr t))
  | VBytes b => tpure (Ok (VStr (b64encode b)))
  end.

(* the accesses made while resolving [v] in [e] *)
Definition trace_of (e : env) (v : value) : trace := snd (resolve_tr e v).

Definition tmlist (f : value -> tres value) : list value -> tres (list value) :=
  fix go (l : list value) : tres (list value) :=
    match l with
    | [] => tpure (Ok [])
    | x :: xs => x' <~~ f x ;; xs' <~~ go xs ;; tpure (Ok (if is_novalue x' then xs' else x' :: xs'))
    end.
Definition tmdict (f : value -> tres value) : list (str * value) -> tres (list (str * value)) :=
  fix go (d : list (str * value)) : tres (list (str * value)) :=
    match d with
    | [] => tpure (Ok [])
    | (k, x) :: xs => x' <~~ f x ;; xs' <~~ go xs ;; tpure (Ok (if is_novalue x' then xs' else (k, x') :: xs'))
    end.
Definition tall (e : env) : list value -> tres bool :=
  fix all_go (l : list value) : tres bool :=
    match l with
    | [] => tpure (Ok true)
    | x :: xs => r <~~ resolve_tr e x ;; b <~~ tpure (ext_bool r) ;; if b then all_go xs else tpure (Ok false)
    end.
Definition tany (e : env) : list value -> tres bool :=
  fix any_go (l : list value) : tres bool :=
    match l with
    | [] => tpure (Ok false)
    | x :: xs => r <~~ resolve_tr e x ;; b <~~ tpure (ext_bool r) ;; if b then tpure (Ok true) else any_go xs
    end.

Lemma nt_list ps l : normalize_tr ps (VList l) = (l' <~~ tmlist (normalize_tr ps) l ;; tpure (Ok (VList l'))).
Proof. reflexivity. Qed.
Lemma nt_dict ps d : normalize_tr ps (VDict d) =
  if is_fn_dict d then tpure (Err EUndefined) else (d' <~~ tmdict (normalize_tr ps) d ;; tpure (Ok (VDict d'))).
Proof. reflexivity. Qed.
Lemma tmlist_cons f x xs : tmlist f (x :: xs) =
  (x' <~~ f x ;; xs' <~~ tmlist f xs ;; tpure (Ok (if is_novalue x' then xs' else x' :: xs'))).
Proof. reflexivity. Qed.
Lemma tmdict_cons f k x xs : tmdict f ((k, x) :: xs) =
  (x' <~~ f x ;; xs' <~~ tmdict f xs ;; tpure (Ok (if is_novalue x' then xs' else (k, x') :: xs'))).
Proof. reflexivity. Qed.

Lemma rt_list e l : resolve_tr e (VList l) = (l' <~~ tmlist (resolve_tr e) l ;; tpure (Ok (VList l'))).
Proof. reflexivity. Qed.
Lemma rt_dict_generic e d : is_fn_dict d = false -> resolve_tr e (VDict d) = (d' <~~ tmdict (resolve_tr e) d ;; tpure (Ok (VDict d'))).
Proof.
  intros H. destruct d as [|[k body] [|kv2 rest]]; try reflexivity.
  cbn [resolve_tr]. rewrite !(not_fn_key k _ H) by (apply mem_str_In; reflexivity). reflexivity.
Qed.
Lemma rt_ref_import e k body : k = K_Ref \/ k = K_ImportValue ->
  resolve_tr e (VDict [(k, body)]) = (b <~~ resolve_tr e body ;; do_ref_tr e b).
Proof. intros [-> | ->]; reflexivity. Qed.
Lemma rt_join e dl l : resolve_tr e (VDict [(K_Join, VList [dl; l])]) =
  (d' <~~ resolve_tr e dl ;; l' <~~ resolve_tr e l ;; tpure (do_join d' l')).
Proof. reflexivity. Qed.
Lemma rt_split e dl s : resolve_tr e (VDict [(K_Split, VList [dl; s])]) =
  (d' <~~ resolve_tr e dl ;; s' <~~ resolve_tr e s ;; tpure (do_split d' s')).
Proof. reflexivity. Qed.
Lemma rt_select e i l : resolve_tr e (VDict [(K_Select, VList [i; l])]) =
  (i' <~~ resolve_tr e i ;; l' <~~ resolve_tr e l ;; tpure (do_select i' l')).
Proof. reflexivity. Qed.
Lemma rt_find_in_map e m k1 k2 : resolve_tr e (VDict [(K_FindInMap, VList [m; k1; k2])]) =
  (m' <~~ resolve_tr e m ;; k1' <~~ resolve_tr e k1 ;; k2' <~~ resolve_tr e k2 ;; do_find_in_map_tr e m' k1' k2').
Proof. reflexivity. Qed.
Lemma rt_sub_text e text : resolve_tr e (VDict [(K_Sub, VStr text)]) = do_sub_tr e text [].
Proof. reflexivity. Qed.
Lemma rt_sub_vars e text vars : resolve_tr e (VDict [(K_Sub, VList [VStr text; vars])]) =
  (cv <~~ resolve_tr e vars ;; match cv with VDict custom => do_sub_tr e text custom | _ => tpure (Err EUndefined) end).
Proof. reflexivity. Qed.
Lemma rt_base64 e body : resolve_tr e (VDict [(K_Base64, body)]) = (b <~~ resolve_tr e body ;; tpure (do_base64 b)).
Proof. reflexivity. Qed.
Lemma rt_condition e name : resolve_tr e (VDict [(K_Condition, VStr name)]) =
  tlog [ACond name] (tpure (b <- conds e name ;; Ok (VBool b))).
Proof. reflexivity. Qed.
Lemma rt_if e c t f : resolve_tr e (VDict [(K_If, VList [VStr c; t; f])]) =
  tlog [ACond c] (b <~~ tpure (conds e c) ;; if b then resolve_tr e t else resolve_tr e f).
Proof. reflexivity. Qed.
Lemma rt_and e parts : resolve_tr e (VDict [(K_And, VList parts)]) = (b <~~ tall e parts ;; tpure (Ok (VBool b))).
Proof. reflexivity. Qed.
Lemma rt_or e parts : resolve_tr e (VDict [(K_Or, VList parts)]) = (b <~~ tany e parts ;; tpure (Ok (VBool b))).
Proof. reflexivity. Qed.
Lemma rt_not e x rest : resolve_tr e (VDict [(K_Not, VList (x :: rest))]) =
  (r <~~ resolve_tr e x ;; tpure (b <- ext_bool r ;; Ok (VBool (negb b)))).
Proof. reflexivity. Qed.
Lemma rt_equals e a b : resolve_tr e (VDict [(K_Equals, VList [a; b])]) =
  (a' <~~ resolve_tr e a ;; b' <~~ resolve_tr e b ;; tpure (r <- py_eq a' b' ;; Ok (VBool r))).
Proof. reflexivity. Qed.
Lemma rt_ill e k body er : ill_call k body er -> resolve_tr e (VDict [(k, body)]) = tpure (Err er).
Proof. intros H. ill_shapes H; reflexivity. Qed.

Lemma tall_cons e x xs : tall e (x :: xs) =
  (r <~~ resolve_tr e x ;; b <~~ tpure (ext_bool r) ;; if b then tall e xs else tpure (Ok false)).
Proof. reflexivity. Qed.
Lemma tany_cons e x xs : tany e (x :: xs) =
  (r <~~ resolve_tr e x ;; b <~~ tpure (ext_bool r) ;; if b then tpure (Ok true) else tany e xs).
Proof. reflexivity. Qed.

(* the instrumentation does not change the result *)
Lemma fst_tbind {A B} (r : tres A) (f : A -> tres B) r0 g :
  fst r = r0 -> (forall a, fst (f a) = g a) -> fst (tbind r f) = bind r0 g.
Proof. intros <- H. destruct r as [[a|err] t]; [apply H | reflexivity]. Qed.
Lemma snd_tbind {A B} (r : tres A) (f : A -> tres B) :
  snd (tbind r f) = snd r ++ match fst r with Ok a => snd (f a) | Err _ => [] end.
Proof. destruct r as [[a|err] t]; simpl; [reflexivity | rewrite app_nil_r; reflexivity]. Qed.
Lemma snd_tlog {A} t (r : tres A) : snd (tlog t r) = t ++ snd r.
Proof. reflexivity. Qed.

Lemma tmlist_fst f g l : Forall (fun x => fst (f x) = g x) l -> fst (tmlist f l) = mlist g l.
Proof.
  induction 1 as [|x xs Hx Hxs IH]; [reflexivity|].
  rewrite tmlist_cons. apply fst_tbind; [exact Hx|]. intros x'. apply fst_tbind; [exact IH | reflexivity].
Qed.
Lemma tmdict_fst f g d : Forall (fun kv => fst (f (snd kv)) = g (snd kv)) d -> fst (tmdict f d) = mdict g d.
Proof.
  induction 1 as [|[k x] xs Hx Hxs IH]; [reflexivity|].
  rewrite tmdict_cons. apply fst_tbind; [exact Hx|]. intros x'. apply fst_tbind; [exact IH | reflexivity].
Qed.
Lemma normalize_tr_result ps v : fst (normalize_tr ps v) = normalize ps v.
Proof.
  induction v using value_ind'; try reflexivity.
  - rewrite nt_list, normalize_list. apply fst_tbind; [apply tmlist_fst; exact H | reflexivity].
  - rewrite nt_dict, normalize_dict. destruct (is_fn_dict d); [reflexivity|]. apply fst_tbind; [apply tmdict_fst; exact H | reflexivity].
Qed.
Lemma do_ref_tr_result e b : fst (do_ref_tr e b) = do_ref e b.
Proof.
  destruct b; try reflexivity. unfold do_ref_tr, do_ref. cbn [tlog fst].
  destruct (lookup s (params e)); [apply normalize_tr_result | reflexivity].
Qed.
Lemma render_var_tr_result e custom name : fst (render_var_tr e custom name) = render_var e custom name.
Proof.
  unfold render_var_tr, render_var. destruct (lookup name custom).
  - apply fst_tbind; [apply normalize_tr_result|]. intros []; reflexivity.
  - cbn [tlog fst]. destruct (lookup name (params e)); [|reflexivity].
    apply fst_tbind; [apply normalize_tr_result|]. intros []; reflexivity.
Qed.
Lemma render_toks_tr_result e custom ts : fst (render_toks_tr e custom ts) = render_toks e custom ts.
Proof.
  induction ts as [|t r IH]; [reflexivity|].
  cbn [render_toks_tr render_toks]. apply fst_tbind; [|intros a; apply fst_tbind; [exact IH | reflexivity]].
  destruct t; try reflexivity. apply render_var_tr_result.
Qed.
Lemma do_sub_tr_result e text custom : fst (do_sub_tr e text custom) = do_sub e text custom.
Proof. apply fst_tbind; [apply render_toks_tr_result | reflexivity]. Qed.

Section ResultLists.
Variable e : env.
Definition FstAt (v : value) : Prop := fst (resolve_tr e v) = resolve e v.
Lemma tall_fst l : Forall FstAt l -> fst (tall e l) = rall e l.
Proof.
  induction 1 as [|x xs Hx Hxs IH]; [reflexivity|].
  rewrite tall_cons, rall_cons. apply fst_tbind; [exact Hx|]. intros r. apply fst_tbind; [reflexivity|].
  intros [|]; [exact IH | reflexivity].
Qed.
Lemma tany_fst l : Forall FstAt l -> fst (tany e l) = rany e l.
Proof.
  induction 1 as [|x xs Hx Hxs IH]; [reflexivity|].
  rewrite tany_cons, rany_cons. apply fst_tbind; [exact Hx|]. intros r. apply fst_tbind; [reflexivity|].
  intros [|]; [reflexivity | exact IH].
Qed.
End ResultLists.

Theorem resolve_tr_result e : forall v, fst (resolve_tr e v) = resolve e v.
Proof.
  apply resolve_ind.
  - intros [] Hv; try contradiction; reflexivity.
  - intros l IH. rewrite rt_list, resolve_list. apply fst_tbind; [apply tmlist_fst, IH | reflexivity].
  - intros d Hf IH. rewrite rt_dict_generic, resolve_dict_generic by assumption. apply fst_tbind; [apply tmdict_fst, IH | reflexivity].
  - intros k body Hk IH. rewrite rt_ref_import, resolve_ref_import by assumption. apply fst_tbind; [exact IH | apply do_ref_tr_result].
  - intros dl l IH1 IH2. rewrite rt_join, resolve_join. apply fst_tbind; [exact IH1|]. intros d'. apply fst_tbind; [exact IH2 | reflexivity].
  - intros dl s IH1 IH2. rewrite rt_split, resolve_split. apply fst_tbind; [exact IH1|]. intros d'. apply fst_tbind; [exact IH2 | reflexivity].
  - intros i l IH1 IH2. rewrite rt_select, resolve_select. apply fst_tbind; [exact IH1|]. intros i'. apply fst_tbind; [exact IH2 | reflexivity].
  - intros m k1 k2 IH1 IH2 IH3. rewrite rt_find_in_map, resolve_find_in_map.
    apply fst_tbind; [exact IH1|]. intros m'. apply fst_tbind; [exact IH2|]. intros k1'. apply fst_tbind; [exact IH3 | reflexivity].
  - intros text. apply do_sub_tr_result.
  - intros text vars IH _. rewrite rt_sub_vars, resolve_sub_vars. apply fst_tbind; [exact IH|].
    intros []; try reflexivity. apply do_sub_tr_result.
  - intros body IH. rewrite rt_base64, resolve_base64. apply fst_tbind; [exact IH | reflexivity].
  - reflexivity.
  - reflexivity.
  - reflexivity.
  - intros c t f IH1 IH2. rewrite rt_if, resolve_if. cbn [tlog fst]. apply fst_tbind; [reflexivity|]. intros [|]; assumption.
  - intros parts IH. rewrite rt_and, resolve_and. apply fst_tbind; [apply tall_fst, IH | reflexivity].
  - intros parts IH. rewrite rt_or, resolve_or. apply fst_tbind; [apply tany_fst, IH | reflexivity].
  - intros x rest IH. rewrite rt_not, resolve_not. apply fst_tbind; [exact IH | reflexivity].
  - intros a b IH1 IH2. rewrite rt_equals, resolve_equals. apply fst_tbind; [exact IH1|]. intros a'. apply fst_tbind; [exact IH2 | reflexivity].
  - intros k body er H. rewrite (rt_ill e k body er H), (resolve_ill e k body er H). reflexivity.
Qed.

(* what it means for two environments to give the same answer to one access *)
Definition agree_on (e e' : env) (a : access) : Prop :=
  match a with
  | AParam k => lookup k (params e) = lookup k (params e')
  | AMap k => lookup k (mappings e) = lookup k (mappings e')
  | ACond n => conds e n = conds e' n
  end.
Definition agree (e e' : env) (t : trace) : Prop := forall a, In a t -> agree_on e e' a.

Lemma agree_app e e' t1 t2 : agree e e' (t1 ++ t2) <-> agree e e' t1 /\ agree e e' t2.
Proof.
  unfold agree. split.
  - intros H. split; intros a Ha; apply H; apply in_or_app; [left | right]; assumption.
  - intros [H1 H2] a Ha. apply in_app_or in Ha. destruct Ha; [apply H1 | apply H2]; assumption.
Qed.
Lemma agree_nil e e' : agree e e' [].
Proof. intros a []. Qed.
Lemma agree_one e e' a : agree e e' [a] <-> agree_on e e' a.
Proof. unfold agree. split; [intros H; apply H; left; reflexivity | intros H b [<-|[]]; exact H]. Qed.
Lemma agree_on_sym e e' a : agree_on e e' a -> agree_on e' e a.
Proof. destruct a; simpl; intros H; symmetry; exact H. Qed.
Lemma agree_sym e e' t : agree e e' t -> agree e' e t.
Proof. intros H a Ha. apply agree_on_sym. apply H. exact Ha. Qed.
Lemma agree_split e e' t :
  agree e e' t <->
  (forall k, In (AParam k) t -> lookup k (params e) = lookup k (params e')) /\
  (forall k, In (AMap k) t -> lookup k (mappings e) = lookup k (mappings e')) /\
  (forall n, In (ACond n) t -> conds e n = conds e' n).
Proof.
  split.
  - intros H. repeat split; intros k Hk; exact (H _ Hk).
  - intros (Hp & Hm & Hc) [k|k|k] Ha; simpl; auto.
Qed.

Section FrameSec.
Variables e e' : env.

(* [r'] (computed in e') equals [r] (computed in e) as soon as the environments agree on the accesses of [r] *)
Definition Frame {A} (r' r : tres A) : Prop := agree e e' (snd r) -> r' = r.

Lemma frame_refl {A} (r : tres A) : Frame r r.
Proof. intros _. reflexivity. Qed.
Lemma frame_bind {A B} (r r' : tres A) (f f' : A -> tres B) :
  Frame r' r -> (forall a, Frame (f' a) (f a)) -> Frame (tbind r' f') (tbind r f).
Proof.
  intros Hr Hf Ha. rewrite snd_tbind in Ha. apply agree_app in Ha. destruct Ha as [H1 H2].
  rewrite (Hr H1). destruct r as [[a|err] t]; [|reflexivity].
  cbn [fst] in H2. cbn [tbind]. rewrite (Hf a H2). reflexivity.
Qed.
Lemma frame_log {A} t (r r' : tres A) : (agree e e' t -> Frame r' r) -> Frame (tlog t r') (tlog t r).
Proof.
  intros H Ha. rewrite snd_tlog in Ha. apply agree_app in Ha. destruct Ha as [H1 H2].
  rewrite (H H1 H2). reflexivity.
Qed.

Lemma render_str_frame s : agree e e' (ssm_trace s) -> render_str (params e') s = render_str (params e) s.
Proof.
  unfold ssm_trace, render_str. destruct (ssm_key s) as [key|]; [|reflexivity].
  intros H. apply agree_one in H. simpl in H. rewrite H. reflexivity.
Qed.
Lemma leaf_frame s : Frame (Ok (VStr (render_str (params e') s)), ssm_trace s) (Ok (VStr (render_str (params e) s)), ssm_trace s).
Proof. intros H. cbn [snd] in H. rewrite (render_str_frame s H). reflexivity. Qed.

Lemma tmlist_frame f f' l : Forall (fun x => Frame (f' x) (f x)) l -> Frame (tmlist f' l) (tmlist f l).
Proof.
  induction 1 as [|x xs Hx Hxs IH]; [apply frame_refl|].
  rewrite !tmlist_cons. apply frame_bind; [exact Hx|]. intros x'. apply frame_bind; [exact IH | intros; apply frame_refl].
Qed.
Lemma tmdict_frame f f' d : Forall (fun kv => Frame (f' (snd kv)) (f (snd kv))) d -> Frame (tmdict f' d) (tmdict f d).
Proof.
  induction 1 as [|[k x] xs Hx Hxs IH]; [apply frame_refl|].
  rewrite !tmdict_cons. apply frame_bind; [exact Hx|]. intros x'. apply frame_bind; [exact IH | intros; apply frame_refl].
Qed.
Lemma normalize_frame v : Frame (normalize_tr (params e') v) (normalize_tr (params e) v).
Proof.
  induction v using value_ind'; try apply frame_refl.
  - apply leaf_frame.
  - rewrite !nt_list. apply frame_bind; [apply tmlist_frame; exact H | intros; apply frame_refl].
  - rewrite !nt_dict. destruct (is_fn_dict d); [apply frame_refl|].
    apply frame_bind; [apply tmdict_frame; exact H | intros; apply frame_refl].
Qed.
Lemma do_ref_frame b : Frame (do_ref_tr e' b) (do_ref_tr e b).
Proof.
  destruct b; try apply frame_refl. unfold do_ref_tr. apply frame_log. intros Hk.
  apply agree_one in Hk. simpl in Hk. rewrite <- Hk.
  destruct (lookup s (params e)); [apply normalize_frame | apply frame_refl].
Qed.
Lemma do_find_in_map_frame m k1 k2 : Frame (do_find_in_map_tr e' m k1 k2) (do_find_in_map_tr e m k1 k2).
Proof.
  unfold do_find_in_map_tr, do_find_in_map. destruct m, k1, k2; try apply frame_refl.
  intros H. cbn [snd] in H. apply agree_one in H. simpl in H. rewrite H. reflexivity.
Qed.
Lemma render_var_frame custom name : Frame (render_var_tr e' custom name) (render_var_tr e custom name).
Proof.
  unfold render_var_tr. destruct (lookup name custom).
  - apply frame_bind; [apply normalize_frame | intros; apply frame_refl].
  - apply frame_log. intros Hk. apply agree_one in Hk. simpl in Hk. rewrite <- Hk.
    destruct (lookup name (params e)); [|apply frame_refl].
    apply frame_bind; [apply normalize_frame | intros; apply frame_refl].
Qed.
Lemma render_toks_frame custom ts : Frame (render_toks_tr e' custom ts) (render_toks_tr e custom ts).
Proof.
  induction ts as [|t r IH]; [apply frame_refl|]. cbn [render_toks_tr].
  apply frame_bind.
  - destruct t; try apply frame_refl. apply render_var_frame.
  - intros a. apply frame_bind; [exact IH | intros; apply frame_refl].
Qed.
Lemma do_sub_frame text custom : Frame (do_sub_tr e' text custom) (do_sub_tr e text custom).
Proof. unfold do_sub_tr. apply frame_bind; [apply render_toks_frame | intros; apply frame_refl]. Qed.

Definition FrameAt (v : value) : Prop := Frame (resolve_tr e' v) (resolve_tr e v).
Lemma tall_frame l : Forall FrameAt l -> Frame (tall e' l) (tall e l).
Proof.
  induction 1 as [|x xs Hx Hxs IH]; [apply frame_refl|].
  rewrite !tall_cons. apply frame_bind; [exact Hx|]. intros r.
  apply frame_bind; [apply frame_refl|]. intros [|]; [exact IH | apply frame_refl].
Qed.
Lemma tany_frame l : Forall FrameAt l -> Frame (tany e' l) (tany e l).
Proof.
  induction 1 as [|x xs Hx Hxs IH]; [apply frame_refl|].
  rewrite !tany_cons. apply frame_bind; [exact Hx|]. intros r.
  apply frame_bind; [apply frame_refl|]. intros [|]; [apply frame_refl | exact IH].
Qed.

Theorem resolve_tr_frame_at : forall v, FrameAt v.
Proof.
  unfold FrameAt. apply resolve_ind.
  - intros [] Hv; try contradiction; try apply frame_refl. apply leaf_frame.
  - intros l IH. rewrite !rt_list. apply frame_bind; [apply tmlist_frame, IH | intros; apply frame_refl].
  - intros d Hf IH. rewrite !rt_dict_generic by assumption. apply frame_bind; [apply tmdict_frame, IH | intros; apply frame_refl].
  - intros k body Hk IH. rewrite !rt_ref_import by assumption. apply frame_bind; [exact IH | intros; apply do_ref_frame].
  - intros dl l IH1 IH2. rewrite !rt_join. apply frame_bind; [exact IH1|]. intros d'.
    apply frame_bind; [exact IH2 | intros; apply frame_refl].
  - intros dl s IH1 IH2. rewrite !rt_split. apply frame_bind; [exact IH1|]. intros d'.
    apply frame_bind; [exact IH2 | intros; apply frame_refl].
  - intros i l IH1 IH2. rewrite !rt_select. apply frame_bind; [exact IH1|]. intros i'.
    apply frame_bind; [exact IH2 | intros; apply frame_refl].
  - intros m k1 k2 IH1 IH2 IH3. rewrite !rt_find_in_map. apply frame_bind; [exact IH1|]. intros m'.
    apply frame_bind; [exact IH2|]. intros k1'. apply frame_bind; [exact IH3 | intros; apply do_find_in_map_frame].
  - intros text. apply do_sub_frame.
  - intros text vars IH _. rewrite !rt_sub_vars. apply frame_bind; [exact IH|]. intros []; try apply frame_refl. apply do_sub_frame.
  - intros body IH. rewrite !rt_base64. apply frame_bind; [exact IH | intros; apply frame_refl].
  - intros body. apply frame_refl.
  - intros body. apply frame_refl.
  - intros name. rewrite !rt_condition. apply frame_log. intros Hc. apply agree_one in Hc. simpl in Hc. rewrite <- Hc. apply frame_refl.
  - intros c t f IH1 IH2. rewrite !rt_if. apply frame_log. intros Hc. apply agree_one in Hc. simpl in Hc. rewrite <- Hc.
    apply frame_bind; [apply frame_refl|]. intros [|]; assumption.
  - intros parts IH. rewrite !rt_and. apply frame_bind; [apply tall_frame, IH | intros; apply frame_refl].
  - intros parts IH. rewrite !rt_or. apply frame_bind; [apply tany_frame, IH | intros; apply frame_refl].
  - intros x rest IH. rewrite !rt_not. apply frame_bind; [exact IH | intros; apply frame_refl].
  - intros a b IH1 IH2. rewrite !rt_equals. apply frame_bind; [exact IH1|]. intros a'.
    apply frame_bind; [exact IH2 | intros; apply frame_refl].
  - intros k body er H. rewrite !(rt_ill _ k body er H). apply frame_refl.
Qed.
End FrameSec.

Theorem resolve_tr_frame e e' v : agree e e' (trace_of e v) -> resolve_tr e' v = resolve_tr e v.
Proof. apply resolve_tr_frame_at. Qed.
Corollary resolve_frame e e' v : agree e e' (trace_of e v) -> resolve e' v = resolve e v.
Proof. intros H. rewrite <- !resolve_tr_result. rewrite (resolve_tr_frame e e' v H). reflexivity. Qed.
Corollary trace_frame e e' v : agree e e' (trace_of e v) -> trace_of e' v = trace_of e v.
Proof. intros H. unfold trace_of. rewrite (resolve_tr_frame e e' v H). reflexivity. Qed.

(* [env_eq] (Ext.v: same answer to EVERY access) is the special case *)
Lemma env_eq_agree e e' t : env_eq e e' -> agree e e' t.
Proof. intros (Hp & Hm & Hc). apply agree_split. repeat split; intros; auto. Qed.

(* adding, removing or changing what is never read *)
Definition with_params (e : env) (ps : list (str * value)) : env :=
  {| params := ps; mappings := mappings e; conds := conds e |}.
Definition with_mappings (e : env) (ms : list (str * value)) : env :=
  {| params := params e; mappings := ms; conds := conds e |}.
Definition with_conds (e : env) (c : str -> res bool) : env :=
  {| params := params e; mappings := mappings e; conds := c |}.

Lemma lookup_insert {A} (k k' : str) (x : A) l1 l2 : k' <> k -> lookup k' (l1 ++ (k, x) :: l2) = lookup k' (l1 ++ l2).
Proof.
  intros Hne. rewrite !lookup_app. destruct (lookup k' l1); [reflexivity|]. simpl.
  apply str_eqb_neq in Hne. rewrite Hne. reflexivity.
Qed.

(* the general forms: ANY change of the parameters / mappings / condition values that keeps the answers to the accesses made *)
Theorem change_unread_parameters e ps' v :
  (forall k, In (AParam k) (trace_of e v) -> lookup k ps' = lookup k (params e)) ->
  resolve (with_params e ps') v = resolve e v.
Proof.
  intros H. apply resolve_frame. apply agree_split. repeat split; intros k Hk; simpl; try reflexivity.
  symmetry. apply H. exact Hk.
Qed.
Theorem change_unread_mappings e ms' v :
  (forall m, In (AMap m) (trace_of e v) -> lookup m ms' = lookup m (mappings e)) ->
  resolve (with_mappings e ms') v = resolve e v.
Proof.
  intros H. apply resolve_frame. apply agree_split. repeat split; intros k Hk; simpl; try reflexivity.
  symmetry. apply H. exact Hk.
Qed.
Theorem change_unread_conditions e c' v :
  (forall n, In (ACond n) (trace_of e v) -> c' n = conds e n) ->
  resolve (with_conds e c') v = resolve e v.
Proof.
  intros H. apply resolve_frame. apply agree_split. repeat split; intros k Hk; simpl; try reflexivity.
  symmetry. apply H. exact Hk.
Qed.

(* a binding for a name that is never read, put anywhere (in front it would shadow an older binding of the same name) *)
Theorem add_unused_parameter_anywhere e v k x l1 l2 : params e = l1 ++ l2 -> ~ In (AParam k) (trace_of e v) ->
  resolve (with_params e (l1 ++ (k, x) :: l2)) v = resolve e v.
Proof.
  intros Hps Hk. apply change_unread_parameters. intros k' Hk'. rewrite Hps. apply lookup_insert.
  intros ->. contradiction.
Qed.
Theorem add_unused_mapping_anywhere e v m x l1 l2 : mappings e = l1 ++ l2 -> ~ In (AMap m) (trace_of e v) ->
  resolve (with_mappings e (l1 ++ (m, x) :: l2)) v = resolve e v.
Proof.
  intros Hms Hk. apply change_unread_mappings. intros k' Hk'. rewrite Hms. apply lookup_insert.
  intros ->. contradiction.
Qed.

(* "unused" does not depend on which of the two environments is asked *)
Theorem unused_symmetric e e' v a : agree e e' (trace_of e v) -> (In a (trace_of e' v) <-> In a (trace_of e v)).
Proof. intros H. rewrite (trace_frame e e' v H). reflexivity. Qed.

(* a name can be COMPUTED: {"Ref": {"Fn::Join": ["", ["a", "b"]]}} reads parameter "ab", a text that occurs nowhere *)
Fixpoint prefixb (p s : str) : bool :=
  match p, s with
  | [], _ => true
  | x :: p', y :: s' => N.eqb x y && prefixb p' s'
  | _ :: _, [] => false
  end.
Fixpoint occursb (k s : str) : bool :=
  prefixb k s || match s with [] => false | _ :: r => occursb k r end.
(* the text [k] occurs inside some string leaf or some key of [v] *)
Fixpoint mentions (k : str) (v : value) : bool :=
  match v with
  | VStr s => occursb k s
  | VList l => existsb (mentions k) l
  | VDict d => existsb (fun kv => occursb k (fst kv) || mentions k (snd kv)) d
  | _ => false
  end.

Definition s_ab : str := [97; 98].
Definition e_ab : env := {| params := [(s_ab, VStr [120])]; mappings := []; conds := fun _ => Ok false |}.
Definition v_ab : value := VDict [(K_Ref, VDict [(K_Join, VList [VStr []; VList [VStr [97]; VStr [98]]])])].
Lemma ex_computed_name :
  mentions s_ab v_ab = false /\
  trace_of e_ab v_ab = [AParam s_ab] /\
  resolve e_ab v_ab = Ok (VStr [120]) /\
  resolve (with_params e_ab []) v_ab = Ok (VStr (undefined_param s_ab)).
Proof. vm_compute. repeat split; reflexivity. Qed.

(* template level.  Resources: the accesses made while resolving the resources whose gate is open, until the first exception *)
Fixpoint resources_trace (e : env) (resolved : list (str * bool)) (rs : list (str * value)) : trace :=
  match rs with
  | [] => []
  | (id, r) :: rest =>
      match gate resolved r with
      | Ok true => trace_of e r ++ match resolve e r with Ok _ => resources_trace e resolved rest | Err _ => [] end
      | Ok false => resources_trace e resolved rest
      | Err _ => []
      end
  end.
(* the condition names that gate a resource (its "Condition" attribute) *)
Definition gate_name (r : value) : list str :=
  match r with
  | VDict fields => match lookup K_Condition fields with Some (VStr c) => [c] | _ => [] end
  | _ => []
  end.
Definition gate_names (rs : list (str * value)) : list str := flat_map (fun kv => gate_name (snd kv)) rs.

Lemma gate_frame resolved resolved' r :
  (forall c, In c (gate_name r) -> lookup c resolved = lookup c resolved') -> gate resolved' r = gate resolved r.
Proof.
  unfold gate, gate_name. destruct r; try reflexivity. destruct (lookup K_Condition d) as [[| | | c | | | |]|]; try reflexivity.
  intros H. rewrite (H c) by (left; reflexivity). reflexivity.
Qed.

Theorem resolve_resources_frame e e' resolved resolved' rs :
  (forall c, In c (gate_names rs) -> lookup c resolved = lookup c resolved') ->
  agree e e' (resources_trace e resolved rs) ->
  resolve_resources e' resolved' rs = resolve_resources e resolved rs.
Proof.
  induction rs as [|[id r] rest IH]; intros Hg Ha; [reflexivity|].
  cbn [resolve_resources resources_trace] in *.
  assert (Hg1 : gate resolved' r = gate resolved r).
  { apply gate_frame. intros c Hc. apply Hg. unfold gate_names. cbn [flat_map snd]. apply in_or_app. left. exact Hc. }
  assert (Hg2 : forall c, In c (gate_names rest) -> lookup c resolved = lookup c resolved').
  { intros c Hc. apply Hg. unfold gate_names. cbn [flat_map snd]. apply in_or_app. right. exact Hc. }
  rewrite Hg1. destruct (gate resolved r) as [[|]|]; cbn [bind]; [| apply IH; assumption | reflexivity].
  apply agree_app in Ha. destruct Ha as [Ha1 Ha2].
  unfold resolve_resource. rewrite (resolve_frame e e' r Ha1).
  destruct (resolve e r) as [r'|]; cbn [bind]; [|reflexivity].
  rewrite (IH Hg2 Ha2). reflexivity.
Qed.

(* the environment in which [resolve_model] resolves the resources *)
Definition renv (ps maps : list (str * value)) (resolved : list (str * bool)) : env :=
  {| params := ps; mappings := maps; conds := conds_fun resolved |}.

(* conditions.  A condition reads what its body reads AND what the conditions it asks about read, transitively:
   [cond_trace] follows [cond_val] (Template.v), same fuel, same in-progress set *)
Definition cond_env (ps maps decl : list (str * value)) (f : nat) (rem : list str) : env :=
  {| params := ps; mappings := maps; conds := cond_val ps maps decl f rem |}.
Fixpoint cond_trace (ps maps decl : list (str * value)) (fuel : nat) (rem : list str) (n : str) : trace :=
  match fuel with
  | O => []
  | S f =>
      if mem_str n rem then
        match lookup n decl with
        | Some body =>
            let t := trace_of (cond_env ps maps decl f (remove_str n rem)) body in
            t ++ flat_map (fun a => match a with
                                    | ACond m => cond_trace ps maps decl f (remove_str n rem) m
                                    | _ => []
                                    end) t
        | None => []
        end
      else []
  end.
Definition cond_root_trace (ps maps decl : list (str * value)) (n : str) : trace :=
  cond_trace ps maps decl (S (length decl)) (keys decl) n.
Fixpoint conds_trace (ps maps decl : list (str * value)) (names : list str) : trace :=
  match names with
  | [] => []
  | n :: r => cond_root_trace ps maps decl n ++
              match cond_root ps maps decl n with Ok _ => conds_trace ps maps decl r | Err _ => [] end
  end.

(* agreement of two (parameters, mappings) pairs on the parameter / mapping accesses of a trace *)
Definition pm_agree (ps ps' maps maps' : list (str * value)) (t : trace) : Prop :=
  (forall k, In (AParam k) t -> lookup k ps = lookup k ps') /\ (forall m, In (AMap m) t -> lookup m maps = lookup m maps').
Lemma pm_agree_app ps ps' maps maps' t1 t2 :
  pm_agree ps ps' maps maps' (t1 ++ t2) <-> pm_agree ps ps' maps maps' t1 /\ pm_agree ps ps' maps maps' t2.
Proof.
  unfold pm_agree. split.
  - intros [Hp Hm]. repeat split; intros k Hk; (apply Hp || apply Hm); apply in_or_app; auto.
  - intros [[Hp1 Hm1] [Hp2 Hm2]]. split; intros k Hk; apply in_app_or in Hk; destruct Hk; auto.
Qed.
Lemma pm_agree_incl ps ps' maps maps' t1 t2 : (forall a, In a t1 -> In a t2) ->
  pm_agree ps ps' maps maps' t2 -> pm_agree ps ps' maps maps' t1.
Proof. intros Hi [Hp Hm]. split; intros k Hk; [apply Hp | apply Hm]; apply Hi; exact Hk. Qed.

Theorem cond_val_frame ps ps' maps maps' decl : forall fuel rem n,
  pm_agree ps ps' maps maps' (cond_trace ps maps decl fuel rem n) ->
  cond_val ps' maps' decl fuel rem n = cond_val ps maps decl fuel rem n.
Proof.
  induction fuel as [|f IH]; intros rem n H; [reflexivity|].
  cbn [cond_val cond_trace] in *. destruct (mem_str n rem); [|reflexivity].
  destruct (lookup n decl) as [body|]; [|reflexivity].
  apply pm_agree_app in H. destruct H as [H1 H2].
  change {| params := ps'; mappings := maps'; conds := cond_val ps' maps' decl f (remove_str n rem) |}
    with (cond_env ps' maps' decl f (remove_str n rem)).
  change {| params := ps; mappings := maps; conds := cond_val ps maps decl f (remove_str n rem) |}
    with (cond_env ps maps decl f (remove_str n rem)).
  rewrite (resolve_frame (cond_env ps maps decl f (remove_str n rem)) (cond_env ps' maps' decl f (remove_str n rem)) body);
    [reflexivity|].
  apply agree_split. destruct H1 as [Hp Hm]. split; [exact Hp | split; [exact Hm |]].
  intros m Hm'. simpl. symmetry. apply IH.
  eapply pm_agree_incl; [|exact H2]. intros a Ha. apply in_flat_map. exists (ACond m). split; assumption.
Qed.

Lemma cond_all_frame ps ps' maps maps' decl names :
  pm_agree ps ps' maps maps' (conds_trace ps maps decl names) ->
  cond_all ps' maps' decl names = cond_all ps maps decl names.
Proof.
  induction names as [|n r IH]; intros H; [reflexivity|].
  cbn [cond_all conds_trace] in *. apply pm_agree_app in H. destruct H as [H1 H2].
  unfold cond_root in *. unfold cond_root_trace in H1. rewrite (cond_val_frame ps ps' maps maps' decl _ _ _ H1).
  destruct (cond_val ps maps decl (S (length decl)) (keys decl) n); cbn [bind]; [|reflexivity].
  rewrite (IH H2). reflexivity.
Qed.

(* the whole model, after parameter binding *)
Definition resolve_model_from (ps maps cdecl rs : list (str * value)) : res value :=
  resolved <- cond_all ps maps cdecl (keys cdecl) ;;
  rs' <- resolve_resources (renv ps maps resolved) resolved rs ;;
  Ok (VDict [(K_Conditions, VDict (map (fun nb => (fst nb, VBool (snd nb))) resolved)); (K_Resources, VDict rs')]).
Lemma resolve_model_unfold pseudo decls extra maps cdecl rs :
  resolve_model pseudo decls extra maps cdecl rs = (ps <- bind_params pseudo decls extra ;; resolve_model_from ps maps cdecl rs).
Proof. reflexivity. Qed.

(* every parameter / mapping access of a model: all declared conditions (they are all evaluated), then the kept resources *)
Definition model_trace (ps maps cdecl rs : list (str * value)) : trace :=
  conds_trace ps maps cdecl (keys cdecl) ++
  match cond_all ps maps cdecl (keys cdecl) with
  | Ok resolved => resources_trace (renv ps maps resolved) resolved rs
  | Err _ => []
  end.

Theorem resolve_model_from_frame ps ps' maps maps' cdecl rs :
  pm_agree ps ps' maps maps' (model_trace ps maps cdecl rs) ->
  resolve_model_from ps' maps' cdecl rs = resolve_model_from ps maps cdecl rs.
Proof.
  unfold model_trace, resolve_model_from. intros H. apply pm_agree_app in H. destruct H as [H1 H2].
  rewrite (cond_all_frame _ _ _ _ _ _ H1).
  destruct (cond_all ps maps cdecl (keys cdecl)) as [resolved|]; cbn [bind]; [|reflexivity].
  assert (Hr : resolve_resources (renv ps' maps' resolved) resolved rs = resolve_resources (renv ps maps resolved) resolved rs).
  { apply resolve_resources_frame; [reflexivity|].
    apply agree_split. destruct H2 as [Hp Hm]. split; [exact Hp | split; [exact Hm | intros; reflexivity]]. }
  rewrite Hr. reflexivity.
Qed.

(* binding one more declaration changes the lookup of that name only *)
Lemma bind_params_add_decl pseudo decls extra k d ov ps :
  ref_value d (supplied k extra) = Ok ov -> bind_params pseudo decls extra = Ok ps ->
  exists ps', bind_params pseudo ((k, d) :: decls) extra = Ok ps' /\ forall k', k' <> k -> lookup k' ps' = lookup k' ps.
Proof.
  unfold bind_params. intros Hd H. bind_inv. inv H. cbn [bind_declared]. rewrite Hd, E. cbn [bind].
  eexists. split; [reflexivity|]. intros k' Hne. apply str_eqb_neq in Hne.
  rewrite !lookup_app.
  rewrite (lookup_filter_keys k' extra (fun x => negb (mem_str x (keys ((k, d) :: decls))))).
  rewrite (lookup_filter_keys k' extra (fun x => negb (mem_str x (keys decls)))).
  assert (Hm : mem_str k' (keys ((k, d) :: decls)) = mem_str k' (keys decls)).
  { unfold keys, mem_str. cbn [map fst existsb]. rewrite Hne. reflexivity. }
  rewrite Hm. destruct ov as [x|]; [|reflexivity]. cbn [lookup]. rewrite Hne. reflexivity.
Qed.
Lemma bind_params_add_decl_err pseudo decls extra k d ov err :
  ref_value d (supplied k extra) = Ok ov -> bind_params pseudo decls extra = Err err ->
  bind_params pseudo ((k, d) :: decls) extra = Err err.
Proof.
  unfold bind_params. intros Hd H. cbn [bind_declared]. rewrite Hd. cbn [bind].
  destruct (bind_declared decls extra); cbn [bind] in *; [discriminate | exact H].
Qed.

(* A syntactic SUFFICIENT condition for "parameter k is not read".
   Users think syntactically: "the name occurs nowhere".  That is sound only where names are not computed.
   [literal_names v]: every Ref / Fn::ImportValue body in v is a literal string that is rendered as itself (not an SSM reference,
   not a spelling of true / false, which is lower-cased), and every Fn::Sub is in string form (the values of a Fn::Sub variable
   map are computed, and an SSM-looking result would be looked up).  Every other function may take any [literal_names] argument.
   For such v the parameter names read are among: the string leaves of v themselves, their SSM keys, their ${placeholders}
   ([syn_names v]), and the SSM keys in the leaves of the parameter VALUES ([pv_names]); in particular all of them occur as
   TEXT in a string leaf of v or of a parameter value ([mentions]). *)
Definition ssm_names_str (s : str) : list str := match ssm_key s with Some key => [key] | None => [] end.
Definition tok_names (ts : list stok) : list str := flat_map (fun t => match t with TVar n => [n] | _ => [] end) ts.
Definition leaf_names (s : str) : list str := s :: ssm_names_str s ++ tok_names (sub_tokens s).
Fixpoint syn_names (v : value) : list str :=
  match v with
  | VStr s => leaf_names s
  | VList l => flat_map syn_names l
  | VDict d => flat_map (fun kv => syn_names (snd kv)) d
  | _ => []
  end.
Fixpoint ssm_names (v : value) : list str :=
  match v with
  | VStr s => ssm_names_str s
  | VList l => flat_map ssm_names l
  | VDict d => flat_map (fun kv => ssm_names (snd kv)) d
  | _ => []
  end.
Definition pv_names (ps : list (str * value)) : list str := flat_map (fun kv => ssm_names (snd kv)) ps.

Fixpoint literal_names (v : value) : bool :=
  match v with
  | VList l => forallb literal_names l
  | VDict d =>
      match d with
      | [(k, body)] =>
          if str_eqb k K_Ref || str_eqb k K_ImportValue then
            match body with
            | VStr s => match ssm_key s with None => negb (is_boolish s) | Some _ => false end
            | _ => false
            end
          else if str_eqb k K_Sub then match body with VStr _ => true | _ => false end
          else literal_names body
      | _ => forallb (fun kv => literal_names (snd kv)) d
      end
  | _ => true
  end.

Lemma in_tbind {A B} (a : access) (r : tres A) (f : A -> tres B) :
  In a (snd (tbind r f)) -> In a (snd r) \/ exists x, fst r = Ok x /\ In a (snd (f x)).
Proof.
  rewrite snd_tbind. intros H. apply in_app_or in H. destruct H as [H|H]; [left; exact H|].
  destruct (fst r) as [x|]; [right; exists x; split; [reflexivity | exact H] | destruct H].
Qed.
Lemma in_tlog {A} (a : access) t (r : tres A) : In a (snd (tlog t r)) -> In a t \/ In a (snd r).
Proof. rewrite snd_tlog. apply in_app_or. Qed.
Lemma in_tpure {A} (a : access) (r : res A) : In a (snd (tpure r)) -> False.
Proof. intros []. Qed.
(* splits every hypothesis [In a (snd t)] along the [tbind] / [tlog] / [tpure] structure of the trace [t]; the last clause drops a
   parameter access sought in the one-access trace of a condition lookup *)
Ltac tr_inv :=
  repeat match goal with
  | H : In _ (snd (tbind _ _)) |- _ => apply in_tbind in H; destruct H as [H | (? & ? & H)]
  | H : In _ (snd (tlog _ _)) |- _ => apply in_tlog in H; destruct H as [H | H]
  | H : In _ (snd (tpure _)) |- _ => apply in_tpure in H; destruct H
  | H : In (AParam _) [ACond _] |- _ => destruct H as [H | []]; discriminate H
  end.

Lemma ssm_trace_names a s : In a (ssm_trace s) -> exists k, a = AParam k /\ In k (ssm_names_str s).
Proof.
  unfold ssm_trace, ssm_names_str. destruct (ssm_key s) as [key|]; [|intros []].
  intros [<-|[]]. exists key. split; [reflexivity | left; reflexivity].
Qed.
Lemma in_tmlist a f l : In a (snd (tmlist f l)) -> exists x, In x l /\ In a (snd (f x)).
Proof.
  induction l as [|x xs IH]; intros H; [destruct H|]. rewrite tmlist_cons in H. tr_inv.
  - exists x. split; [left; reflexivity | exact H].
  - destruct (IH H) as (y & Hy & Hay). exists y. split; [right; exact Hy | exact Hay].
Qed.
Lemma in_tmdict a f d : In a (snd (tmdict f d)) -> exists k x, In (k, x) d /\ In a (snd (f x)).
Proof.
  induction d as [|[k x] xs IH]; intros H; [destruct H|]. rewrite tmdict_cons in H. tr_inv.
  - exists k, x. split; [left; reflexivity | exact H].
  - destruct (IH H) as (k' & y & Hy & Hay). exists k', y. split; [right; exact Hy | exact Hay].
Qed.
Lemma normalize_trace_names ps x : forall a, In a (snd (normalize_tr ps x)) -> exists k, a = AParam k /\ In k (ssm_names x).
Proof.
  induction x using value_ind'; intros a Ha; try (destruct Ha; fail).
  - apply ssm_trace_names. exact Ha.
  - rewrite nt_list in Ha. tr_inv. apply in_tmlist in Ha. destruct Ha as (x & Hx & Ha). rewrite Forall_forall in H.
    destruct (H x Hx a Ha) as (k & -> & Hk). exists k. split; [reflexivity|]. cbn [ssm_names]. apply in_flat_map. exists x. split; assumption.
  - rewrite nt_dict in Ha. destruct (is_fn_dict d); [destruct Ha|]. tr_inv. apply in_tmdict in Ha. destruct Ha as (k0 & x & Hx & Ha).
    rewrite Forall_forall in H. destruct (H (k0, x) Hx a Ha) as (k & -> & Hk). exists k. split; [reflexivity|].
    cbn [ssm_names]. apply in_flat_map. exists (k0, x). split; assumption.
Qed.
Lemma lookup_pv_names k s x ps : lookup s ps = Some x -> In k (ssm_names x) -> In k (pv_names ps).
Proof. intros Hl Hk. apply lookup_In in Hl. unfold pv_names. apply in_flat_map. exists (s, x). split; assumption. Qed.

Lemma do_ref_names e s k : In (AParam k) (snd (do_ref_tr e (VStr s))) -> k = s \/ In k (pv_names (params e)).
Proof.
  unfold do_ref_tr. intros H. tr_inv.
  - destruct H as [H|[]]. inv H. left; reflexivity.
  - destruct (lookup s (params e)) as [x|] eqn:El; [|destruct H].
    apply normalize_trace_names in H. destruct H as (k' & Hk' & Hin). inv Hk'. right. eapply lookup_pv_names; eauto.
Qed.
Lemma render_toks_names e ts k :
  In (AParam k) (snd (render_toks_tr e [] ts)) -> In k (tok_names ts) \/ In k (pv_names (params e)).
Proof.
  induction ts as [|t r IH]; intros H; [destruct H|]. cbn [render_toks_tr] in H. tr_inv.
  - destruct t as [c|name|name]; try (destruct H; fail). unfold render_tok_tr, render_var_tr in H. cbn [lookup] in H. tr_inv.
    + destruct H as [H|[]]. inv H. left. cbn [tok_names flat_map]. left. reflexivity.
    + destruct (lookup name (params e)) as [x|] eqn:El; [|destruct H]. tr_inv.
      apply normalize_trace_names in H. destruct H as (k' & Hk' & Hin). inv Hk'. right. eapply lookup_pv_names; eauto.
  - destruct (IH H) as [G|G]; [left | right; exact G]. unfold tok_names in *. cbn [flat_map]. apply in_or_app. right. exact G.
Qed.
Lemma find_in_map_no_param e m k1 k2 k : ~ In (AParam k) (snd (do_find_in_map_tr e m k1 k2)).
Proof. unfold do_find_in_map_tr. cbn [snd]. destruct m, k1, k2; intros H; try (destruct H; fail); destruct H as [H|[]]; discriminate H. Qed.

Section InLists.
Variable e : env.
Lemma in_tall a l : In a (snd (tall e l)) -> exists x, In x l /\ In a (trace_of e x).
Proof.
  induction l as [|x xs IH]; intros H; [destruct H|]. rewrite tall_cons in H.
  apply in_tbind in H. destruct H as [H | (r & _ & H)].
  - exists x. split; [left; reflexivity | exact H].
  - apply in_tbind in H. destruct H as [[] | (b & _ & H)]. destruct b; [|destruct H].
    destruct (IH H) as (y & Hy & Hay). exists y. split; [right; exact Hy | exact Hay].
Qed.
Lemma in_tany a l : In a (snd (tany e l)) -> exists x, In x l /\ In a (trace_of e x).
Proof.
  induction l as [|x xs IH]; intros H; [destruct H|]. rewrite tany_cons in H.
  apply in_tbind in H. destruct H as [H | (r & _ & H)].
  - exists x. split; [left; reflexivity | exact H].
  - apply in_tbind in H. destruct H as [[] | (b & _ & H)]. destruct b; [destruct H|].
    destruct (IH H) as (y & Hy & Hay). exists y. split; [right; exact Hy | exact Hay].
Qed.
End InLists.

Lemma lit_in l : literal_names (VList l) = true -> forall x, In x l -> literal_names x = true.
Proof. cbn [literal_names]. intros H x Hx. rewrite forallb_forall in H. apply H. exact Hx. Qed.
Lemma lit_generic d : is_fn_dict d = false -> literal_names (VDict d) = forallb (fun kv => literal_names (snd kv)) d.
Proof.
  intros H. destruct d as [|[k body] [|kv2 rest]]; try reflexivity.
  cbn [literal_names forallb snd]. rewrite !(not_fn_key k _ H) by (apply mem_str_In; reflexivity). rewrite andb_true_r. reflexivity.
Qed.
Lemma lit_ref k body : k = K_Ref \/ k = K_ImportValue -> literal_names (VDict [(k, body)]) = true ->
  exists s, body = VStr s /\ ssm_key s = None /\ is_boolish s = false.
Proof.
  intros Hk H. assert (H' : match body with VStr s => match ssm_key s with None => negb (is_boolish s) | Some _ => false end | _ => false end = true).
  { destruct Hk as [-> | ->]; exact H. }
  destruct body; try discriminate. destruct (ssm_key s) eqn:E; [discriminate|].
  exists s. repeat split; [exact E|]. destruct (is_boolish s); [discriminate | reflexivity].
Qed.
Lemma syn_sub_body K body k : In k (syn_names body) -> In k (syn_names (VDict [(K, body)])).
Proof. intros H. cbn [syn_names flat_map snd]. apply in_or_app. left. exact H. Qed.

Definition SynAt (e : env) (v : value) : Prop := literal_names v = true ->
  forall k, In (AParam k) (trace_of e v) -> In k (syn_names v) \/ In k (pv_names (params e)).
(* what an argument of a call reads is accounted for in the call *)
Lemma syn_arg e K l x k : literal_names (VList l) = true -> In x l -> SynAt e x -> In (AParam k) (trace_of e x) ->
  In k (syn_names (VDict [(K, VList l)])) \/ In k (pv_names (params e)).
Proof.
  intros Hl Hx IH Ha. destruct (IH (lit_in l Hl x Hx) k Ha) as [G|G]; [left | right; exact G].
  apply syn_sub_body. cbn [syn_names]. apply in_flat_map. exists x. split; assumption.
Qed.

Theorem syn_trace_sound_at e : forall v, SynAt e v.
Proof.
  apply (resolve_ind (SynAt e)); unfold SynAt, trace_of.
  - intros [] Hv _ k0 Hin; try contradiction; try (destruct Hin; fail).
    cbn [resolve_tr snd] in Hin. apply ssm_trace_names in Hin. destruct Hin as (k' & Hk' & Hk). inv Hk'.
    left. cbn [syn_names]. unfold leaf_names. right. apply in_or_app. left. exact Hk.
  - intros l IH Hlit k0 Hin. rewrite rt_list in Hin. tr_inv. apply in_tmlist in Hin. destruct Hin as (x & Hx & Hax).
    rewrite Forall_forall in IH. destruct (IH x Hx (lit_in l Hlit x Hx) k0 Hax) as [G|G]; [left | right; exact G].
    cbn [syn_names]. apply in_flat_map. exists x. split; assumption.
  - intros d Hf IH Hlit k0 Hin. rewrite rt_dict_generic in Hin by assumption. tr_inv. apply in_tmdict in Hin.
    destruct Hin as (k' & x & Hx & Hax).
    rewrite (lit_generic d Hf) in Hlit. rename Hlit into Hl.
    rewrite forallb_forall in Hl. rewrite Forall_forall in IH.
    destruct (IH (k', x) Hx (Hl (k', x) Hx) k0 Hax) as [G|G]; [left | right; exact G].
    cbn [syn_names]. apply in_flat_map. exists (k', x). split; assumption.
  - intros k body Hk _ Hlit k0 Hin. rewrite rt_ref_import in Hin by assumption.
    destruct (lit_ref k body Hk Hlit) as (s & -> & Hssm & Hbool). tr_inv.
    + cbn [resolve_tr snd] in Hin. unfold ssm_trace in Hin. rewrite Hssm in Hin. destruct Hin.
    + cbn [resolve_tr fst] in H. unfold render_str in H. rewrite Hssm, Hbool in H. inv H.
      apply do_ref_names in Hin. destruct Hin as [->|G]; [left | right; exact G].
      apply syn_sub_body. cbn [syn_names]. left. reflexivity.
  - intros dl l IH1 IH2 Hlit k0 Hin. rewrite rt_join in Hin.
    tr_inv; [exact (syn_arg e K_Join [dl; l] dl k0 Hlit (or_introl eq_refl) IH1 Hin) | exact (syn_arg e K_Join [dl; l] l k0 Hlit (or_intror (or_introl eq_refl)) IH2 Hin)].
  - intros dl sx IH1 IH2 Hlit k0 Hin. rewrite rt_split in Hin.
    tr_inv; [exact (syn_arg e K_Split [dl; sx] dl k0 Hlit (or_introl eq_refl) IH1 Hin) | exact (syn_arg e K_Split [dl; sx] sx k0 Hlit (or_intror (or_introl eq_refl)) IH2 Hin)].
  - intros i l IH1 IH2 Hlit k0 Hin. rewrite rt_select in Hin.
    tr_inv; [exact (syn_arg e K_Select [i; l] i k0 Hlit (or_introl eq_refl) IH1 Hin) | exact (syn_arg e K_Select [i; l] l k0 Hlit (or_intror (or_introl eq_refl)) IH2 Hin)].
  - intros m k1 k2 IH1 IH2 IH3 Hlit k0 Hin. rewrite rt_find_in_map in Hin.
    tr_inv; [exact (syn_arg e K_FindInMap [m; k1; k2] m k0 Hlit (or_introl eq_refl) IH1 Hin)
            | exact (syn_arg e K_FindInMap [m; k1; k2] k1 k0 Hlit (or_intror (or_introl eq_refl)) IH2 Hin)
            | exact (syn_arg e K_FindInMap [m; k1; k2] k2 k0 Hlit (or_intror (or_intror (or_introl eq_refl))) IH3 Hin)
            | destruct (find_in_map_no_param _ _ _ _ _ Hin)].
  - intros text _ k0 Hin. rewrite rt_sub_text in Hin. unfold do_sub_tr in Hin. tr_inv. apply render_toks_names in Hin.
    destruct Hin as [G|G]; [left | right; exact G]. apply syn_sub_body. cbn [syn_names]. unfold leaf_names.
    right. apply in_or_app. right. exact G.
  - intros text vars _ _ Hlit. discriminate Hlit.
  - intros body IH Hlit k0 Hin. rewrite rt_base64 in Hin. tr_inv.
    destruct (IH Hlit k0 Hin) as [G|G]; [left; apply syn_sub_body; exact G | right; exact G].
  - intros body _ k0 [].
  - intros body _ k0 [].
  - intros name _ k0 Hin. rewrite rt_condition in Hin. tr_inv.
  - intros c t f IH1 IH2 Hlit k0 Hin. rewrite rt_if in Hin.
    apply in_tlog in Hin. destruct Hin as [[Hin|[]] | Hin]; [discriminate Hin|].
    apply in_tbind in Hin. destruct Hin as [[] | (b & _ & Hin)].
    destruct b; [exact (syn_arg e K_If [VStr c; t; f] t k0 Hlit (or_intror (or_introl eq_refl)) IH1 Hin)
                | exact (syn_arg e K_If [VStr c; t; f] f k0 Hlit (or_intror (or_intror (or_introl eq_refl))) IH2 Hin)].
  - intros parts IH Hlit k0 Hin. rewrite rt_and in Hin. tr_inv. apply in_tall in Hin. destruct Hin as (x & Hx & Ha).
    rewrite Forall_forall in IH. exact (syn_arg e K_And parts x k0 Hlit Hx (IH x Hx) Ha).
  - intros parts IH Hlit k0 Hin. rewrite rt_or in Hin. tr_inv. apply in_tany in Hin. destruct Hin as (x & Hx & Ha).
    rewrite Forall_forall in IH. exact (syn_arg e K_Or parts x k0 Hlit Hx (IH x Hx) Ha).
  - intros x rest IH Hlit k0 Hin. rewrite rt_not in Hin. tr_inv.
    exact (syn_arg e K_Not (x :: rest) x k0 Hlit (or_introl eq_refl) IH Hin).
  - intros a b IH1 IH2 Hlit k0 Hin. rewrite rt_equals in Hin.
    tr_inv; [exact (syn_arg e K_Equals [a; b] a k0 Hlit (or_introl eq_refl) IH1 Hin) | exact (syn_arg e K_Equals [a; b] b k0 Hlit (or_intror (or_introl eq_refl)) IH2 Hin)].
  - intros k body er H _ k0 Hin. rewrite (rt_ill e k body er H) in Hin. destruct Hin.
Qed.

(* every such name occurs as TEXT in a string leaf *)
Lemma prefixb_app k b : prefixb k (k ++ b) = true.
Proof. induction k as [|c k IH]; [destruct b; reflexivity|]. simpl. rewrite N.eqb_refl. exact IH. Qed.
Lemma occursb_cons k c s : occursb k s = true -> occursb k (c :: s) = true.
Proof. intros H. cbn [occursb]. rewrite H. apply orb_true_r. Qed.
Lemma occursb_skip k a s : occursb k s = true -> occursb k (a ++ s) = true.
Proof. induction a as [|c a IH]; intros H; [exact H|]. simpl app. apply occursb_cons. apply IH. exact H. Qed.
Lemma occursb_here k b : occursb k (k ++ b) = true.
Proof. destruct (k ++ b) eqn:E; cbn [occursb]; rewrite <- E, prefixb_app; reflexivity. Qed.
Lemma occursb_mid a k b : occursb k (a ++ k ++ b) = true.
Proof. apply occursb_skip. apply occursb_here. Qed.
Lemma occursb_refl k : occursb k k = true.
Proof. rewrite <- (app_nil_r k) at 2. apply occursb_here. Qed.

Lemma ssm_key_occurs s key : ssm_key s = Some key -> occursb key s = true.
Proof.
  intros H. destruct (ssm_key_inv s key H) as (name & ver & rest & -> & -> & _).
  replace (name ++ 58 :: ver ++ 125 :: 125 :: rest) with ((name ++ 58 :: ver) ++ 125 :: 125 :: rest)
    by (rewrite <- app_assoc; reflexivity).
  apply occursb_mid.
Qed.
Lemma Scan_occurs name s ts : Scan s ts -> In (TVar name) ts -> occursb name s = true.
Proof.
  induction 1 as [| s t rest ts HM _ IH | c r ts _ _ IH]; intros Hin.
  - destruct Hin.
  - destruct Hin as [-> | Hin].
    + inv HM. exact (occursb_mid [36; 123] name (125 :: rest)).
    + rewrite (Match_src _ _ _ HM). apply occursb_skip, IH, Hin.
  - destruct Hin as [Hin | Hin]; [discriminate|]. apply occursb_cons, IH, Hin.
Qed.
Lemma leaf_names_occur s k : In k (leaf_names s) -> occursb k s = true.
Proof.
  unfold leaf_names. intros [<-|H]; [apply occursb_refl|]. apply in_app_or in H. destruct H as [H|H].
  - unfold ssm_names_str in H. destruct (ssm_key s) eqn:E; [|destruct H]. destruct H as [<-|[]]. apply ssm_key_occurs. exact E.
  - unfold tok_names in H. apply in_flat_map in H. destruct H as (t & Ht & Hk).
    destruct t as [c|n|n]; try (destruct Hk; fail). destruct Hk as [<-|[]]. exact (Scan_occurs n s _ (sub_tokens_scan s) Ht).
Qed.
Lemma syn_names_mentions v k : In k (syn_names v) -> mentions k v = true.
Proof.
  induction v using value_ind'; intros Hk; try (destruct Hk; fail).
  - apply leaf_names_occur. exact Hk.
  - cbn [syn_names mentions] in *. apply in_flat_map in Hk. destruct Hk as (x & Hx & Hk).
    apply existsb_exists. exists x. split; [exact Hx|]. rewrite Forall_forall in H. apply H; assumption.
  - cbn [syn_names mentions] in *. apply in_flat_map in Hk. destruct Hk as ([k' x] & Hx & Hk).
    apply existsb_exists. exists (k', x). split; [exact Hx|]. rewrite Forall_forall in H.
    rewrite (H (k', x) Hx Hk). apply orb_true_r.
Qed.
Lemma ssm_names_syn v k : In k (ssm_names v) -> In k (syn_names v).
Proof.
  induction v using value_ind'; intros Hk; try (destruct Hk; fail).
  - cbn [ssm_names syn_names] in *. unfold leaf_names. right. apply in_or_app. left. exact Hk.
  - cbn [ssm_names syn_names] in *. apply in_flat_map in Hk. destruct Hk as (x & Hx & Hk).
    apply in_flat_map. exists x. split; [exact Hx|]. rewrite Forall_forall in H. apply H; assumption.
  - cbn [ssm_names syn_names] in *. apply in_flat_map in Hk. destruct Hk as ([k' x] & Hx & Hk).
    apply in_flat_map. exists (k', x). split; [exact Hx|]. rewrite Forall_forall in H. apply (H (k', x) Hx Hk).
Qed.

(* the fragment is needed: [v_ab] mentions "ab" nowhere and reads it ([ex_computed_name]); it is not in the fragment *)
Lemma ex_computed_name_not_literal : literal_names v_ab = false.
Proof. vm_compute. reflexivity. Qed.
