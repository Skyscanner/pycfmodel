(* Locality of template resolution: the resource loop reads its environment through lookups only.  One lemma, lifting
   [Ext.resolve_env_eq] from one expression to [resolve_resources]; it stands for itself, no other file uses it. *)
From Coq Require Import List NArith ZArith.
From PV Require Import Resolver.Ext Resolver.Template.
Import ListNotations.
Local Open Scope N_scope.

(* environments with the same lookups resolve every resource list identically *)
Lemma resolve_resources_env_eq e e' resolved rs : env_eq e e' ->
  resolve_resources e resolved rs = resolve_resources e' resolved rs.
Proof.
  intros He. induction rs as [|[id r] rest IH]; [reflexivity|]. simpl.
  unfold resolve_resource. rewrite (resolve_env_eq e e' r He), IH. reflexivity.
Qed.
