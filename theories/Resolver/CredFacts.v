(* has_hardcoded_credentials characterised: the Metadata branch (Resource), the LoginProfile branch (IAMUser), their error cases. *)
From Coq Require Import List Bool NArith ZArith Lia.
From PV Require Import Base.Str Base.Value Resolver.Consts Resolver.ShortCircuit Resolver.Creds.
Import ListNotations.
Local Open Scope N_scope.

Lemma veqb_marker v : veqb v MARKER = true <-> v = MARKER.
Proof.
  unfold MARKER. destruct v; cbn [veqb]; try (split; [discriminate | intros H; discriminate H]).
  rewrite str_eqb_spec. split; [intros ->; reflexivity | intros H; inv H; reflexivity].
Qed.
Lemma veqb_marker_false v : veqb v MARKER = false <-> v <> MARKER.
Proof. rewrite <- veqb_marker. symmetry. apply not_true_iff_false. Qed.

(* the field is absent or holds the NO_ECHO_NO_DEFAULT marker *)
Definition clean_field (d : list (str * value)) (f : str) : Prop := lookup f d = None \/ lookup f d = Some MARKER.
Definition CRED_FIELDS : list str := [K_accessKeyId; K_password; K_secretKey].
(* an authentication entry none of whose credential fields is hard-coded / one that has a hard-coded credential field *)
Definition clean_entry (a : value) : Prop := exists d, a = VDict d /\ forall f, In f CRED_FIELDS -> clean_field d f.
Definition dirty_entry (a : value) : Prop :=
  exists d f v, a = VDict d /\ In f CRED_FIELDS /\ lookup f d = Some v /\ v <> MARKER.

Lemma cred_ok_iff d f : cred_ok d f = true <-> clean_field d f.
Proof.
  unfold cred_ok, clean_field. destruct (lookup f d) as [v|].
  - rewrite veqb_marker. split; [intros ->; right; reflexivity | intros [H|H]; [discriminate | inv H; reflexivity]].
  - split; [left; reflexivity | reflexivity].
Qed.
Lemma cred_ok_false_iff d f : cred_ok d f = false <-> exists v, lookup f d = Some v /\ v <> MARKER.
Proof.
  unfold cred_ok. destruct (lookup f d) as [v|].
  - rewrite veqb_marker_false. split; [intros H; exists v; auto | intros (v' & H & Hne); inv H; assumption].
  - split; [discriminate | intros (v' & H & _); discriminate].
Qed.

Lemma auth_ok_true_iff a : auth_ok a = Ok true <-> clean_entry a.
Proof.
  unfold clean_entry, CRED_FIELDS. destruct a as [ | ? | ? | ? | ? ? | ? | ? | l]; simpl; try (split; [discriminate | intros (d & H & _); discriminate]).
  split.
  - intros H. inv H. apply andb_true_iff in H1. destruct H1 as [H H3]. apply andb_true_iff in H. destruct H as [H1 H2].
    exists l. split; [reflexivity|]. intros f [<-|[<-|[<-|[]]]]; apply cred_ok_iff; assumption.
  - intros (d & Hd & H). inv Hd.
    rewrite (proj2 (cred_ok_iff d K_accessKeyId)), (proj2 (cred_ok_iff d K_password)), (proj2 (cred_ok_iff d K_secretKey));
      [reflexivity | apply H | apply H | apply H]; simpl; auto.
Qed.
Lemma auth_ok_false_iff a : auth_ok a = Ok false <-> dirty_entry a.
Proof.
  unfold dirty_entry, CRED_FIELDS. destruct a as [ | ? | ? | ? | ? ? | ? | ? | l]; simpl; try (split; [discriminate | intros (d & f & v & H & _); discriminate]).
  split.
  - intros H. inv H. exists l.
    destruct (cred_ok l K_accessKeyId) eqn:E1; [|apply cred_ok_false_iff in E1; destruct E1 as (v & E1 & Hv);
      exists K_accessKeyId, v; simpl; auto].
    destruct (cred_ok l K_password) eqn:E2; [|apply cred_ok_false_iff in E2; destruct E2 as (v & E2 & Hv);
      exists K_password, v; simpl; auto].
    destruct (cred_ok l K_secretKey) eqn:E3; [discriminate|apply cred_ok_false_iff in E3; destruct E3 as (v & E3 & Hv);
      exists K_secretKey, v; simpl; auto 6].
  - intros (d & f & v & Hd & Hf & Hl & Hv). inv Hd.
    assert (Hc : cred_ok d f = false) by (apply cred_ok_false_iff; exists v; auto).
    destruct Hf as [<-|[<-|[<-|[]]]]; rewrite Hc; [reflexivity | rewrite andb_false_r; reflexivity | rewrite andb_false_r; reflexivity].
Qed.
Lemma auth_ok_err_iff a e : auth_ok a = Err e <-> e = EAttr /\ forall d, a <> VDict d.
Proof.
  destruct a as [ | ? | ? | ? | ? ? | ? | ? | l]; simpl; try (split; [intros H; inv H; split; [reflexivity | intros d; discriminate] | intros [-> _]; reflexivity]).
  split; [discriminate | intros [_ H]; exfalso; apply (H l); reflexivity].
Qed.

(* the loop over the authentication entries is any(...) over "this entry is not clean", stopping at the first such entry or at
   the first entry on which [auth_ok] raises: all three outcomes, no side condition *)
Definition entry_bad (ka : str * value) : res bool := ok <- auth_ok (snd ka) ;; Ok (negb ok).
Lemma any_bad_sc auths : any_bad auths = sc true (map entry_bad auths).
Proof.
  induction auths as [|[k a] r IH]; [reflexivity|]. cbn [any_bad map sc]. rewrite <- IH. unfold entry_bad. cbn [snd].
  destruct (auth_ok a) as [[|]|]; reflexivity.
Qed.
Lemma entry_bad_ok ka b : entry_bad ka = Ok b <-> auth_ok (snd ka) = Ok (negb b).
Proof. unfold entry_bad. destruct (auth_ok (snd ka)) as [[|]|], b; cbn [bind negb]; split; intros H; try reflexivity; discriminate H. Qed.
Lemma entry_bad_err ka e : entry_bad ka = Err e <-> auth_ok (snd ka) = Err e.
Proof. unfold entry_bad. destruct (auth_ok (snd ka)) as [[|]|]; cbn [bind]; split; intros H; try exact H; discriminate H. Qed.
Lemma clean_entries_iff pre : Forall (fun ka => entry_bad ka = Ok false) pre <-> forall k a, In (k, a) pre -> clean_entry a.
Proof.
  rewrite Forall_forall. split.
  - intros H k a Hin. apply auth_ok_true_iff. exact (proj1 (entry_bad_ok (k, a) false) (H (k, a) Hin)).
  - intros H [k a] Hin. apply (entry_bad_ok (k, a) false). apply auth_ok_true_iff. exact (H k a Hin).
Qed.

Theorem any_bad_false_iff_all auths : any_bad auths = Ok false <-> forall k a, In (k, a) auths -> clean_entry a.
Proof. rewrite any_bad_sc, (sc_map_undecided_iff true entry_bad auths). apply clean_entries_iff. Qed.

Theorem any_bad_true_iff auths : any_bad auths = Ok true <->
  exists pre k a post, auths = pre ++ (k, a) :: post /\ (forall k' a', In (k', a') pre -> clean_entry a') /\ dirty_entry a.
Proof.
  rewrite any_bad_sc, (sc_map_outcome_iff true entry_bad auths (Ok true)) by discriminate. split.
  - intros (pre & [k a] & post & -> & Hpre & Hx). exists pre, k, a, post. split; [reflexivity|].
    split; [apply clean_entries_iff; exact Hpre | apply auth_ok_false_iff, (entry_bad_ok (k, a) true); exact Hx].
  - intros (pre & k & a & post & -> & Hpre & Hd). exists pre, (k, a), post. split; [reflexivity|].
    split; [apply clean_entries_iff; exact Hpre | apply (entry_bad_ok (k, a) true), auth_ok_false_iff; exact Hd].
Qed.

Theorem any_bad_err_iff auths e : any_bad auths = Err e <->
  e = EAttr /\ exists pre k a post, auths = pre ++ (k, a) :: post /\ (forall k' a', In (k', a') pre -> clean_entry a') /\
                                    forall d, a <> VDict d.
Proof.
  rewrite any_bad_sc, (sc_map_outcome_iff true entry_bad auths (Err e)) by discriminate. split.
  - intros (pre & [k a] & post & -> & Hpre & Hx). apply entry_bad_err, auth_ok_err_iff in Hx. destruct Hx as [-> Hnd].
    split; [reflexivity|]. exists pre, k, a, post. split; [reflexivity | split; [apply clean_entries_iff; exact Hpre | exact Hnd]].
  - intros (-> & pre & k & a & post & -> & Hpre & Hnd). exists pre, (k, a), post. split; [reflexivity|].
    split; [apply clean_entries_iff; exact Hpre | apply entry_bad_err, auth_ok_err_iff; split; [reflexivity | exact Hnd]].
Qed.

Corollary any_bad_false_iff auths :
  (any_bad auths = Ok false <->
   forall k a, In (k, a) auths -> exists d, a = VDict d /\
     cred_ok d K_accessKeyId = true /\ cred_ok d K_password = true /\ cred_ok d K_secretKey = true).
Proof.
  rewrite any_bad_false_iff_all. split; intros H k a Hin; specialize (H k a Hin).
  - destruct H as (d & -> & Hf). exists d. split; [reflexivity|]. rewrite !cred_ok_iff. repeat split; apply Hf; simpl; auto.
  - destruct H as (d & -> & H1 & H2 & H3). exists d. split; [reflexivity|]. intros f [<-|[<-|[<-|[]]]]; apply cred_ok_iff; assumption.
Qed.

(* [md_auths md a]: [a] are the authentication entries the check iterates over -- none when there is no Metadata, no
   "AWS::CloudFormation::Authentication" key, or a falsy value (None, {}, "", 0, []) under it *)
Inductive md_auths : value -> list (str * value) -> Prop :=
| MA_no_metadata : md_auths VNull []
| MA_no_block m : lookup K_CFN_AUTH m = None -> md_auths (VDict m) []
| MA_falsy_block m v : lookup K_CFN_AUTH m = Some v -> truthy v = false -> md_auths (VDict m) []
| MA_block m a : lookup K_CFN_AUTH m = Some (VDict a) -> md_auths (VDict m) a.

Theorem has_hc_ok_iff md b : has_hc md = Ok b <-> exists a, md_auths md a /\ any_bad a = Ok b.
Proof.
  split.
  - destruct md as [ | ? | ? | ? | ? ? | ? | ? | l]; simpl; try discriminate.
    + intros H. inv H. exists []. split; [constructor | reflexivity].
    + destruct (lookup K_CFN_AUTH l) as [v|] eqn:E.
      * destruct v as [ | ? | ? | ? | ? ? | ? | ? | l0]; try (destruct (truthy _) eqn:T; [discriminate|]; intros H; inv H; exists []; split;
                          [eapply MA_falsy_block; eauto | reflexivity]).
        intros H. exists l0. split; [apply MA_block; assumption | assumption].
      * intros H. inv H. exists []. split; [apply MA_no_block; assumption | reflexivity].
  - intros (a & Hm & Hb). inv Hm; simpl in *.
    + assumption.
    + rewrite H. assumption.
    + rewrite H. destruct v as [ | ? | ? | ? | ? ? | ? | ? | l0]; try (rewrite H0; assumption). destruct l0; [assumption | discriminate].
    + rewrite H. assumption.
Qed.

(* LoginProfile of the shape the model speaks about: absent (None) or a dictionary *)
Definition login_wf (login : value) : Prop := login = VNull \/ exists lp, login = VDict lp.
(* the LoginProfile has a Password that COUNTS: present, truthy (the code tests `login_profile.get("Password")`: an empty
   password is treated like an absent one) and different from the NO_ECHO_NO_DEFAULT marker *)
Definition counted_password (login : value) : Prop :=
  exists lp p, login = VDict lp /\ lookup K_Password lp = Some p /\ truthy p = true /\ p <> MARKER.
(* ... or does not: no LoginProfile, no Password, a falsy Password, or the marker *)
Definition uncounted_password (login : value) : Prop :=
  login = VNull \/
  exists lp, login = VDict lp /\
    (lookup K_Password lp = None \/ exists p, lookup K_Password lp = Some p /\ (truthy p = false \/ p = MARKER)).

Theorem hc_user_counted login md : counted_password login -> has_hc_user login md = Ok true.
Proof.
  intros (lp & p & -> & Hl & Ht & Hm). simpl. rewrite Hl, Ht. apply veqb_marker_false in Hm. rewrite Hm. reflexivity.
Qed.
(* the password verdict is not the answer when the password does not count (what the seeded change C04-m2, DESIGN.md 7.4, breaks) *)
Theorem hc_user_uncounted login md : uncounted_password login -> has_hc_user login md = has_hc md.
Proof.
  intros [-> | (lp & -> & [Hn | (p & Hl & [Hf | ->])])]; simpl; [reflexivity | rewrite Hn; reflexivity | rewrite Hl, Hf; reflexivity |].
  rewrite Hl. rewrite (proj2 (veqb_marker MARKER) eq_refl), andb_false_r. reflexivity.
Qed.

Lemma password_cases login : login_wf login -> counted_password login \/ uncounted_password login.
Proof.
  intros [-> | [lp ->]]; [right; left; reflexivity|].
  destruct (lookup K_Password lp) as [p|] eqn:E; [|right; right; exists lp; auto].
  destruct (truthy p) eqn:T; [|right; right; exists lp; split; [reflexivity|]; right; exists p; auto].
  destruct (veqb p MARKER) eqn:M.
  - apply veqb_marker in M. right. right. exists lp. split; [reflexivity|]. right. exists p. auto.
  - apply veqb_marker_false in M. left. exists lp, p. auto.
Qed.
(* every verdict other than True is the Metadata verdict of a user whose password does not count *)
Lemma hc_user_not_true login md r : login_wf login -> r <> Ok true ->
  (has_hc_user login md = r <-> uncounted_password login /\ has_hc md = r).
Proof.
  intros Hwf Hr. split.
  - intros H. destruct (password_cases login Hwf) as [Hc|Hu].
    + rewrite (hc_user_counted login md Hc) in H. congruence.
    + split; [assumption|]. rewrite <- (hc_user_uncounted login md Hu). assumption.
  - intros [Hu H]. rewrite (hc_user_uncounted login md Hu). assumption.
Qed.

(* reading the verdict off a resolved model, as the harness does (Resources[rid]; AWS::IAM::User -> the user check) *)
Definition K_Properties : str := [80;114;111;112;101;114;116;105;101;115]%N.
Definition K_LoginProfile : str := [76;111;103;105;110;80;114;111;102;105;108;101]%N.
Definition K_Metadata : str := [77;101;116;97;100;97;116;97]%N.
Definition S_IAM_USER : str := [65;87;83;58;58;73;65;77;58;58;85;115;101;114]%N.
Definition vget (k : str) (v : value) : value :=
  match v with VDict d => match lookup k d with Some x => x | None => VNull end | _ => VNull end.
Definition hc_resolved (model : res value) (rid : str) : res bool :=
  m <- model ;;
  let r := vget rid (vget K_Resources m) in
  if veqb (vget K_Type r) (VStr S_IAM_USER)
  then has_hc_user (vget K_LoginProfile (vget K_Properties r)) (vget K_Metadata r)
  else has_hc (vget K_Metadata r).
