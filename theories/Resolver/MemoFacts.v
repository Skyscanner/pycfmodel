(* Ties Memo.v to the resolver through QTree.v: the declared condition bodies as query trees ([bodies_of]); the tree-level
   specification [cvt] over them is Template.cond_val ([cvt_is_cond_val], [cvt_all_is_cond_all]); [memo_resolve_all] is the
   memoising, taint-aware resolver of Memo.v run on the declarations.  With [Memo.mall_correct] this gives, for every set of
   declarations (cycles, self-references and undeclared names included), that it returns [cond_all]: Properties/C02.v,
   C02_memo_resolver_correct. *)
From Coq Require Import List NArith ZArith.
From PV Require Import Base.Str Base.Value Resolver.Template Resolver.Memo Resolver.QTree.
Import ListNotations.

Section Link.
Variables ps maps : list (str * value).
Variable decl : list (str * value).

(* each declared body, as a query tree *)
Definition bodies_of : list (str * qtree bool) := map (fun nb => (fst nb, body_tree ps maps (snd nb))) decl.

Lemma lookup_bodies_of n : lookup n bodies_of = option_map (body_tree ps maps) (lookup n decl).
Proof. exact (lookup_map_values (fun _ => body_tree ps maps) n decl). Qed.
Lemma keys_bodies_of : keys bodies_of = keys decl.
Proof. exact (keys_map_values (fun nb => body_tree ps maps (snd nb)) decl). Qed.

(* the tree-level specification is cond_val *)
Theorem cvt_is_cond_val : forall fuel rem n, cvt bodies_of fuel rem n = cond_val ps maps decl fuel rem n.
Proof.
  induction fuel as [|f IH]; intros rem n; [reflexivity|].
  simpl. destruct (mem_str n rem); [|reflexivity].
  rewrite lookup_bodies_of. destruct (lookup n decl) as [body|]; simpl; [|reflexivity].
  rewrite (qrun_ext _ (cond_val ps maps decl f (remove_str n rem))) by (intros m; apply IH). apply body_tree_run.
Qed.

Lemma cvt_all_is_cond_all names :
  cvt_all bodies_of (S (length decl)) (keys decl) names = cond_all ps maps decl names.
Proof.
  induction names as [|n r IH]; [reflexivity|].
  cbn [cvt_all cond_all]. unfold cond_root. rewrite cvt_is_cond_val, IH. reflexivity.
Qed.

Definition memo_init : mstate := {| cache := []; tainted := false |}.
Definition memo_resolve_all : res (list (str * bool) * mstate) :=
  mall bodies_of (S (length decl)) (keys decl) memo_init.
End Link.
