(* C01: the lemmas behind the algebraic laws of the value functions (the theorems stand in Properties/C01.v: each law proved for all
   inputs where it is true of the model, refuted with a concrete witness where it is not).  Join / Split on texts, the function
   objects applied to resolved arguments, Fn::Sub variables, Ref, the key lookup of Fn::FindInMap, the base64 round trip, and
   [Cong]: replacing sub-expressions at evaluated positions by equi-resolving ones (its soundness is C01_congruence).
   Findings F14b, F31 cited below are rows of the table in DESIGN.md 7.3.
   Robust/Validators.v is imported for [b64decode], the decoder of the base64 round trip, and nothing else. *)
From Coq Require Import List Bool NArith ZArith Lia.
From PV Require Import Base.Str Base.ListFacts Base.Value Resolver.Consts Resolver.Text Resolver.Resolve Resolver.Spec
  Resolver.SubFacts Resolver.SubSpec Resolver.FixFacts Resolver.Rendered Robust.Validators.
Import ListNotations.
Local Open Scope N_scope.

Lemma split_go_nonempty fuel d : forall cur s, split_go fuel d cur s <> [].
Proof.
  induction fuel as [|f IH]; intros cur s; simpl; [discriminate|].
  destruct s as [|c s']; [discriminate|]. destruct (starts_with d (c :: s')); [discriminate | apply IH].
Qed.

Lemma join_cons_nonempty d x l : l <> [] -> join d (x :: l) = x ++ d ++ join d l.
Proof. destruct l as [|y l]; [congruence | reflexivity]. Qed.

Lemma join_split_go fuel d : forall cur s, join d (split_go fuel d cur s) = rev cur ++ s.
Proof.
  induction fuel as [|f IH]; intros cur s; simpl; [reflexivity|].
  destruct s as [|c s']; [simpl; rewrite app_nil_r; reflexivity|].
  destruct (starts_with d (c :: s')) eqn:Es.
  - apply starts_with_spec in Es. destruct Es as [r Er].
    rewrite join_cons_nonempty by apply split_go_nonempty.
    rewrite IH. rewrite Er, skipn_length_app. reflexivity.
  - rewrite IH. simpl. rewrite <- app_assoc. reflexivity.
Qed.

Theorem join_split d s : join d (split d s) = s.
Proof. unfold split. rewrite join_split_go. reflexivity. Qed.

Lemma starts_with_app d r : starts_with d (d ++ r) = true.
Proof. apply starts_with_spec. exists r. reflexivity. Qed.

(* scanning a member that does not contain the delimiter's first code point *)
Lemma split_go_member c d' x : ~ In c x -> forall fuel cur tl,
  split_go (length x + fuel) (c :: d') cur (x ++ tl) = split_go fuel (c :: d') (rev x ++ cur) tl.
Proof.
  induction x as [|a x IH]; intros Hn fuel cur tl; [reflexivity|].
  assert (Ha : a <> c) by (intros ->; apply Hn; left; reflexivity).
  assert (Hx : ~ In c x) by (intros H; apply Hn; right; exact H).
  cbn [length Nat.add app split_go starts_with].
  replace (c =? a) with false by (symmetry; apply N.eqb_neq; congruence). cbn [andb].
  rewrite (IH Hx). cbn [rev]. rewrite <- app_assoc. reflexivity.
Qed.

Lemma split_go_delim fuel d cur r : d <> [] ->
  split_go (S fuel) d cur (d ++ r) = rev cur :: split_go fuel d [] r.
Proof.
  intros Hd. destruct d as [|c d']; [congruence|]. cbn [split_go app].
  change (c :: d' ++ r) with ((c :: d') ++ r). rewrite starts_with_app, skipn_length_app. reflexivity.
Qed.

(* by induction on l: write the fuel as length x + rest to scan the member x ([split_go_member]), then one step takes the
   delimiter ([split_go_delim]) *)
Lemma split_join_go c d' l : l <> [] -> Forall (fun x => ~ In c x) l ->
  forall fuel, (length (join (c :: d') l) < fuel)%nat -> split_go fuel (c :: d') [] (join (c :: d') l) = l.
Proof.
  induction l as [|x l IH]; intros Hne Hall fuel Hf; [congruence|].
  inversion Hall as [|x0 l0 Hx Hl]; subst.
  destruct l as [|y l].
  - cbn [join] in *.
    pose proof (split_go_member c d' x Hx (fuel - length x)%nat [] []) as HM. rewrite !app_nil_r in HM.
    replace (length x + (fuel - length x))%nat with fuel in HM by lia. rewrite HM.
    destruct (fuel - length x)%nat eqn:E; [lia|]. cbn [split_go]. rewrite rev_involutive. reflexivity.
  - rewrite join_cons_nonempty in * by discriminate.
    rewrite !app_length in Hf.
    pose proof (split_go_member c d' x Hx (fuel - length x)%nat [] ((c :: d') ++ join (c :: d') (y :: l))) as HM.
    rewrite app_nil_r in HM.
    replace (length x + (fuel - length x))%nat with fuel in HM by lia. rewrite HM.
    destruct (fuel - length x)%nat as [|f] eqn:E; [cbn [length] in Hf; lia|].
    rewrite split_go_delim by discriminate. rewrite rev_involutive. f_equal.
    apply IH; [discriminate | exact Hl |]. cbn [length] in Hf. lia.
Qed.

(* Split d (Join d l) = l : for a non-empty list none of whose members contains the FIRST code point of d *)
Theorem split_join c d' l : l <> [] -> Forall (fun x => ~ In c x) l ->
  split (c :: d') (join (c :: d') l) = l.
Proof. intros Hne Hall. unfold split. apply split_join_go; [exact Hne | exact Hall | lia]. Qed.

(* [occurs d s]: d is a substring of s *)
Fixpoint occurs (d s : str) : bool :=
  starts_with d s || match s with [] => false | _ :: r => occurs d r end.
Lemma occurs_spec d s : occurs d s = true <-> exists a b, s = a ++ d ++ b.
Proof.
  induction s as [|c s IH].
  - simpl. rewrite orb_false_r. rewrite starts_with_spec. split.
    + intros [r Hr]. exists [], r. exact Hr.
    + intros (a & b & H). destruct a; [exists b; exact H | discriminate].
  - cbn [occurs]. rewrite orb_true_iff, starts_with_spec, IH. split.
    + intros [[r Hr] | (a & b & H)]; [exists [], r; exact Hr | exists (c :: a), b; rewrite H; reflexivity].
    + intros (a & b & H). destruct a as [|x a]; [left; exists b; exact H | right].
      inversion H; subst. exists a, b. reflexivity.
Qed.
Lemma occurs_char c x : occurs [c] x = false <-> ~ In c x.
Proof.
  split.
  - intros H Hin. apply in_split in Hin. destruct Hin as (a & b & ->).
    assert (occurs [c] (a ++ c :: b) = true) by (apply occurs_spec; exists a, b; reflexivity). congruence.
  - intros H. destruct (occurs [c] x) eqn:E; [|reflexivity]. apply occurs_spec in E. destruct E as (a & b & ->).
    exfalso. apply H. apply in_or_app. right. left. reflexivity.
Qed.

Lemma join_singleton d x : join d [x] = x. Proof. reflexivity. Qed.
Lemma join_nil d : join d [] = []. Proof. reflexivity. Qed.

Lemma str_of_Z_not_novalue z : str_of_Z z <> S_NOVALUE.
Proof.
  destruct z as [|p|p]; [discriminate | | discriminate]. unfold str_of_Z.
  destruct (digits_N_head (Npos p)) as (c & rest & -> & Hc). intros C. inv C. lia.
Qed.
Lemma bool_text_not_novalue b : bool_text b <> S_NOVALUE.
Proof. destruct b; discriminate. Qed.

Definition FRef (b : value) : value := VDict [(K_Ref, b)].
Definition FImport (b : value) : value := VDict [(K_ImportValue, b)].
Definition FJoin (d l : value) : value := VDict [(K_Join, VList [d; l])].
Definition FSplit (d s : value) : value := VDict [(K_Split, VList [d; s])].
Definition FSelect (i l : value) : value := VDict [(K_Select, VList [i; l])].
Definition FFindInMap (m k1 k2 : value) : value := VDict [(K_FindInMap, VList [m; k1; k2])].
Definition FSub (text : str) : value := VDict [(K_Sub, VStr text)].
Definition FSubV (text : str) (vars : value) : value := VDict [(K_Sub, VList [VStr text; vars])].
Definition FBase64 (b : value) : value := VDict [(K_Base64, b)].

(* a function object whose arguments resolve: the function applied to the resolved arguments *)
Lemma resolve_FJoin e dl l d' l' : resolve e dl = Ok d' -> resolve e l = Ok l' -> resolve e (FJoin dl l) = do_join d' l'.
Proof. intros Hd Hl. unfold FJoin. rewrite resolve_join, Hd, Hl. reflexivity. Qed.
Lemma resolve_FSplit e dl s d' s' : resolve e dl = Ok d' -> resolve e s = Ok s' -> resolve e (FSplit dl s) = do_split d' s'.
Proof. intros Hd Hs. unfold FSplit. rewrite resolve_split, Hd, Hs. reflexivity. Qed.
Lemma resolve_FSelect e i l i' l' : resolve e i = Ok i' -> resolve e l = Ok l' -> resolve e (FSelect i l) = do_select i' l'.
Proof. intros Hi Hl. unfold FSelect. rewrite resolve_select, Hi, Hl. reflexivity. Qed.
Lemma resolve_FFindInMap e m k1 k2 m' k1' k2' : resolve e m = Ok m' -> resolve e k1 = Ok k1' -> resolve e k2 = Ok k2' ->
  resolve e (FFindInMap m k1 k2) = do_find_in_map e m' k1' k2'.
Proof. intros Hm H1 H2. unfold FFindInMap. rewrite resolve_find_in_map, Hm, H1, H2. reflexivity. Qed.
Lemma resolve_FBase64 e b b' : resolve e b = Ok b' -> resolve e (FBase64 b) = do_base64 b'.
Proof. intros H. unfold FBase64. rewrite resolve_base64, H. reflexivity. Qed.

Lemma as_strs_map ls : as_strs (map VStr ls) = Ok ls.
Proof. induction ls as [|s ls IH]; [reflexivity|]. simpl. rewrite IH. reflexivity. Qed.
Lemma as_strs_declines ls : (exists x, In x ls /\ forall s, x <> VStr s) -> as_strs ls = Err EUndefined.
Proof.
  induction ls as [|y ls IH]; intros (x & Hin & Hx); [destruct Hin|].
  destruct Hin as [-> | Hin].
  - destruct x; try reflexivity. exfalso. eapply Hx. reflexivity.
  - destruct y; try reflexivity. simpl. rewrite IH by (exists x; split; assumption). reflexivity.
Qed.

Lemma resolve_join_texts e dl l ds ts :
  resolve e dl = Ok (VStr ds) -> resolve e l = Ok (VList (map VStr ts)) -> resolve e (FJoin dl l) = Ok (VStr (join ds ts)).
Proof. intros Hd Hl. rewrite (resolve_FJoin e dl l _ _ Hd Hl). unfold do_join. rewrite as_strs_map. reflexivity. Qed.

(* scalars are rendered as strings: booleans as true/false, integers in decimal, typed atoms as their text *)
Definition leaf_text (ps : list (str * value)) (v : value) : option str :=
  match v with
  | VBool b => Some (bool_text b)
  | VInt z => Some (str_of_Z z)
  | VStr s => Some (render_str ps s)
  | VTyped _ t => Some t
  | VBytes b => Some (b64encode b)
  | VNull | VList _ | VDict _ => None
  end.
Lemma resolve_leaf e v t : leaf_text (params e) v = Some t -> resolve e v = Ok (VStr t).
Proof. destruct v; simpl; intros H; inv H; reflexivity. Qed.

Lemma rlist_leaves e l ts :
  Forall2 (fun v t => leaf_text (params e) v = Some t /\ t <> S_NOVALUE) l ts -> rlist e l = Ok (map VStr ts).
Proof.
  apply (mlist_texts (resolve e)). intros v t [Hv Hn]. eauto using resolve_leaf.
Qed.

Lemma resolve_select_spec e i l s z ls :
  resolve e i = Ok (VStr s) -> parse_int s = Some z -> resolve e l = Ok (VList ls) ->
  resolve e (FSelect i l) =
  Ok (if (0 <=? z)%Z && (z <? Z.of_nat (length ls))%Z then nth (Z.to_nat z) ls (VList []) else VList []).
Proof. intros Hi Hp Hl. rewrite (resolve_FSelect e i l _ _ Hi Hl). exact (select_spec s ls z Hp). Qed.

Definition ph (n : str) : str := 36 :: 123 :: n ++ [125].          (* "${" n "}" *)
Definition ph_bang (n : str) : str := 36 :: 123 :: 33 :: n ++ [125]. (* "${!" n "}" *)

(* a text in which "${" occurs nowhere is returned AS IT IS: the Fn::Sub text is not a literal of the template for the
   resolver -- no boolean spelling is lower-cased, no SSM reference is looked up *)
Theorem do_sub_no_placeholder e text custom :
  (forall a u, text <> a ++ 36 :: 123 :: u) -> do_sub e text custom = Ok (VStr text).
Proof.
  intros H. apply do_sub_all_text, sub_all_text_iff. intros a u -> HP. apply starts_placeholder_iff in HP.
  destruct HP as (n & rest & _ & [-> | ->]); eapply H; reflexivity.
Qed.
Definition e_nil : env := {| params := []; mappings := []; conds := fun _ => Ok false |}.
(* exactly once: the value of a variable is inserted verbatim, "${...}" inside it is not looked at again *)
Theorem do_sub_value_verbatim e custom pre n post a s c : valid_name n ->
  do_sub e pre custom = Ok (VStr a) -> render_var e custom n = Ok s -> do_sub e post custom = Ok (VStr c) ->
  do_sub e (pre ++ ph n ++ post) custom = Ok (VStr (a ++ s ++ c)).
Proof.
  intros Hv Ha Hs Hc. unfold ph. cbn [app]. rewrite <- app_assoc.
  exact (do_sub_match e custom pre _ _ post a s c (M_var n post Hv) Ha Hs Hc).
Qed.

Definition var_value (e : env) (custom : list (str * value)) (n : str) : option value :=
  match lookup n custom with Some x => Some x | None => lookup n (params e) end.
Lemma render_var_value e custom n :
  render_var e custom n =
  match var_value e custom n with
  | Some x => x' <- normalize (params e) x ;; match x' with VStr s => Ok s | _ => Err EUndefined end
  | None => Ok (ph n)
  end.
Proof. unfold render_var, var_value. destruct (lookup n custom); [reflexivity|]. destruct (lookup n (params e)); reflexivity. Qed.
Lemma normalize_leaf ps v t : leaf_text ps v = Some t -> normalize ps v = Ok (VStr t).
Proof. destruct v; simpl; intros H; inv H; reflexivity. Qed.

(* the name of a Ref is itself a literal and is rendered first; the rendered name is looked up *)
Theorem resolve_ref_literal e p :
  resolve e (FRef (VStr p)) =
  match lookup (render_str (params e) p) (params e) with
  | Some x => normalize (params e) x
  | None => Ok (VStr (undefined_param (render_str (params e) p)))
  end.
Proof. reflexivity. Qed.

(* for a name that rendering leaves alone: Ref p = the rendered value of p; UNDEFINED_PARAM_p when unbound *)
Theorem resolve_ref_plain e p : plain_text p = true ->
  resolve e (FRef (VStr p)) =
  match lookup p (params e) with Some x => normalize (params e) x | None => Ok (VStr (undefined_param p)) end.
Proof. intros Hp. rewrite resolve_ref_literal, (plain_text_fixed _ _ Hp). reflexivity. Qed.

Lemma normalize_leaves ps l ts :
  Forall2 (fun v t => leaf_text ps v = Some t /\ t <> S_NOVALUE) l ts -> normalize ps (VList l) = Ok (VList (map VStr ts)).
Proof.
  intros HF. rewrite normalize_list, (mlist_texts (normalize ps) _ l ts (fun v t H => conj (normalize_leaf ps v t (proj1 H)) (proj2 H)) HF).
  reflexivity.
Qed.

(* a parameter called "True" *)
Definition s_True : str := [84;114;117;101].
Definition e_True : env := {| params := [(s_True, VStr [118])]; mappings := []; conds := fun _ => Ok false |}.

(* any of the three levels missing (or a null leaf): no hypothesis on the shape of the other mappings.
   "Missing" for the two keys is [lookup_bk ... = None] ([lookup_bk_None]: the key is not there as written and, if it is the text
   "true" / "false", no key there lower-cases to it); with the exact [lookup] the statement is false ([lookup_bk] models the
   library's `_mapping_get`, repair F31) *)
Theorem do_find_in_map_missing e ms s1 s2 :
  lookup ms (mappings e) = None
  \/ (exists top, lookup ms (mappings e) = Some (VDict top) /\
        (lookup_bk s1 top = None
         \/ exists snd_, lookup_bk s1 top = Some (VDict snd_) /\ (lookup_bk s2 snd_ = None \/ lookup_bk s2 snd_ = Some VNull))) ->
  do_find_in_map e (VStr ms) (VStr s1) (VStr s2) = Ok (VStr (undefined_mapping ms s1 s2)).
Proof.
  unfold do_find_in_map. intros [H | (top & Ht & [H | (snd_ & Hs & [H | H])])].
  - rewrite H. reflexivity.
  - rewrite Ht, H. reflexivity.
  - rewrite Ht, Hs, H. reflexivity.
  - rewrite Ht, Hs, H. reflexivity.
Qed.

(* a key written like a boolean.  [key_text s] is the text a key written [s] (not an SSM reference) reaches the lookup as: boolean
   spellings lower-cased.  The mapping's key [s] is found by it when it is the only spelling of that boolean at its level; a key that
   is not a boolean spelling is simply looked up as written. *)
Definition key_text (s : str) : str := if is_boolish s then lower s else s.
Definition only_spelling (k : str) (d : list (str * value)) : Prop := forall k', In k' (keys d) -> lower k' = lower k -> k' = k.
Lemma render_str_key_text ps s : ssm_key s = None -> render_str ps s = key_text s.
Proof. intros H. unfold render_str, key_text. rewrite H. reflexivity. Qed.
Lemma lookup_bk_key_text k d (v : value) :
  lookup k d = Some v -> (is_boolish k = true -> only_spelling k d) -> lookup_bk (key_text k) d = Some v.
Proof.
  intros Hl Hu. unfold key_text. destruct (is_boolish k) eqn:B.
  - apply lookup_bk_spelling; [exact B | exact Hl | exact (Hu eq_refl)].
  - apply lookup_bk_exact. exact Hl.
Qed.
Theorem do_find_in_map_key_text e ms s1 s2 top snd_ leaf :
  lookup ms (mappings e) = Some (VDict top) -> lookup s1 top = Some (VDict snd_) -> lookup s2 snd_ = Some leaf -> leaf <> VNull ->
  (is_boolish s1 = true -> only_spelling s1 top) -> (is_boolish s2 = true -> only_spelling s2 snd_) ->
  do_find_in_map e (VStr ms) (VStr (key_text s1)) (VStr (key_text s2)) = Ok leaf.
Proof.
  intros H1 H2 H3 Hn U1 U2. unfold do_find_in_map.
  rewrite H1, (lookup_bk_key_text _ _ _ H2 U1), (lookup_bk_key_text _ _ _ H3 U2). destruct leaf; try reflexivity. congruence.
Qed.
(* keys given by expressions that resolve to those texts: a literal key (boolean spelling or not, looked up as written), a Ref to a
   parameter whose value is that text *)
Theorem resolve_find_in_map_key_text e m k1 k2 ms s1 s2 top snd_ leaf :
  resolve e m = Ok (VStr ms) -> resolve e k1 = Ok (VStr (key_text s1)) -> resolve e k2 = Ok (VStr (key_text s2)) ->
  lookup ms (mappings e) = Some (VDict top) -> lookup s1 top = Some (VDict snd_) -> lookup s2 snd_ = Some leaf -> leaf <> VNull ->
  (is_boolish s1 = true -> only_spelling s1 top) -> (is_boolish s2 = true -> only_spelling s2 snd_) ->
  resolve e (FFindInMap m k1 k2) = Ok leaf.
Proof. intros Hm H1 H2. rewrite (resolve_FFindInMap e m k1 k2 _ _ _ Hm H1 H2). apply do_find_in_map_key_text. Qed.
Lemma resolve_plain e s : plain_text s = true -> resolve e (VStr s) = Ok (VStr s).
Proof. intros H. cbn. rewrite (plain_text_fixed _ _ H). reflexivity. Qed.
Lemma resolve_key_text e s : ssm_key s = None -> resolve e (VStr s) = Ok (VStr (key_text s)).
Proof. intros H. cbn. rewrite (render_str_key_text _ _ H). reflexivity. Qed.
Lemma resolve_ref_key_text e p s : plain_text p = true -> lookup p (params e) = Some (VStr s) -> ssm_key s = None ->
  resolve e (FRef (VStr p)) = Ok (VStr (key_text s)).
Proof. intros Hp Hl Hk. rewrite (resolve_ref_plain e p Hp), Hl. cbn. rewrite (render_str_key_text _ _ Hk). reflexivity. Qed.

(* leaves "True" / 0 / false come out as written (F14b); the key "True" is rendered to "true" first and finds the mapping's "True"
   (finding F31, repaired in the library by commit acd13a2; [lookup_bk] models the repaired lookup) *)
Definition e_map : env :=
  {| params := [([80], VStr s_True)];
     mappings := [([77], VDict [(s_True, VDict [([107], VStr [121;101;115])]);
                                ([97], VDict [([84], VStr s_True); ([110], VInt 0); ([102], VBool false)])])];
     conds := fun _ => Ok false |}.
(* Mappings {"M":{"True":{"k":"yes"}, "a": ...}}, P = "True": FindInMap ["M","True","k"] = FindInMap ["M",{"Ref":"P"},"k"] = "yes";
   the hypotheses of the two theorems above hold on it *)
Lemma e_map_only_spelling : only_spelling s_True [(s_True, VDict [([107], VStr [121;101;115])]);
                                                  ([97], VDict [([84], VStr s_True); ([110], VInt 0); ([102], VBool false)])].
Proof. intros k' [H|[H|[]]] Hl; [symmetry; exact H | subst k'; vm_compute in Hl; discriminate]. Qed.
Theorem ex_find_in_map_boolean_key :
  mapping_leaf e_map [77] (lower s_True) [107] = Some (VStr [121;101;115]) /\
  key_text s_True = lower s_True /\ is_boolish s_True = true /\ plain_text [77] = true /\ plain_text [80] = true /\
  ssm_key s_True = None /\ ssm_key [107] = None /\ is_boolish [107] = false /\
  resolve e_map (FFindInMap (VStr [77]) (VStr s_True) (VStr [107])) = Ok (VStr [121;101;115]) /\
  resolve e_map (FFindInMap (VStr [77]) (FRef (VStr [80])) (VStr [107])) = Ok (VStr [121;101;115]).
Proof. vm_compute. repeat split. Qed.
(* two spellings of one boolean at one level: the FIRST in dictionary order answers (so "looked up as written" needs [only_spelling]);
   a key present exactly as the lookup text ("true") always answers for itself *)
Definition maps_two (first second : str) : list (str * value) :=
  [([77], VDict [(first, VDict [([107], VStr [110;111])]); (second, VDict [([107], VStr [121;101;115])])])].

(* the encoder [b64encode] (Resolver/Text.v) is inverted by the model of Python's base64.b64decode (Robust/Validators.v) *)
Definition sextets : list N := map N.of_nat (seq 0 64).
Lemma sextet_in n : n < 64 -> In n sextets.
Proof.
  intros H. unfold sextets. apply in_map_iff. exists (N.to_nat n). split; [apply N2Nat.id|].
  apply in_seq. lia.
Qed.
Lemma b64_char_facts n : n < 64 -> b64_val (b64_char n) = Some n /\ (b64_char n =? 61) = false.
Proof.
  intros H.
  assert (A : forallb (fun n => match b64_val (b64_char n) with Some m => m =? n | None => false end
                               && negb (b64_char n =? 61)) sextets = true) by (vm_compute; reflexivity).
  rewrite forallb_forall in A. specialize (A n (sextet_in n H)). apply andb_true_iff in A. destruct A as [A1 A2].
  destruct (b64_val (b64_char n)) as [m|]; [|discriminate]. apply N.eqb_eq in A1. subst m.
  apply negb_true_iff in A2. auto.
Qed.
Lemma b64_char_ascii n : (b64_char n <? 128) = true.
Proof.
  unfold b64_char. destruct (n <? 26) eqn:E1; [apply N.ltb_lt in E1; apply N.ltb_lt; lia|].
  destruct (n <? 52) eqn:E2; [apply N.ltb_lt in E2; apply N.ltb_lt; lia|].
  destruct (n <? 62) eqn:E3; [apply N.ltb_lt in E3; apply N.ltb_lt; lia|].
  destruct (n =? 62); reflexivity.
Qed.

(* one step of the decoder on a sextet: [qp] is the position in the current group of four characters, [left] the bits of the
   previous characters not yet written out *)
Lemma dec_step n r qp pads left out : n < 64 ->
  b64dec_go (b64_char n :: r) qp pads left out =
  if qp =? 0 then b64dec_go r 1 0 n out
  else if qp =? 1 then b64dec_go r 2 0 (n mod 16) ((left * 4 + n / 16) :: out)
  else if qp =? 2 then b64dec_go r 3 0 (n mod 4) ((left * 16 + n / 4) :: out)
  else b64dec_go r 0 0 0 ((left * 64 + n) :: out).
Proof.
  intros H. destruct (b64_char_facts n H) as [Hv Hp]. cbn [b64dec_go]. rewrite Hp, Hv. reflexivity.
Qed.

Lemma divmod_unique x k q r : r < k -> x = k * q + r -> x / k = q /\ x mod k = r.
Proof. intros Hr Hx. split; [symmetry; eapply N.div_unique; eauto | symmetry; eapply N.mod_unique; eauto]. Qed.
(* a number below k * m is k * q + r with r < k and q < m *)
Lemma split_at a k m : k <> 0 -> a < k * m -> exists q r, a = k * q + r /\ r < k /\ q < m /\ a / k = q /\ a mod k = r.
Proof.
  intros Hk H. exists (a / k), (a mod k).
  repeat split; [apply N.div_mod; exact Hk | apply N.mod_lt; exact Hk | apply N.div_lt_upper_bound; assumption].
Qed.

(* one group of three bytes a b c is the four sextets  a/4,  (a mod 4)*16 + b/16,  (b mod 16)*4 + c/64,  c mod 64 :
   the decoder gives back a after the second, b after the third, c after the fourth *)
Lemma dec_12 a b r out : a < 256 -> b < 256 ->
  b64dec_go (b64_char (a / 4) :: b64_char ((a mod 4) * 16 + b / 16) :: r) 0 0 0 out = b64dec_go r 2 0 (b / 16) (a :: out).
Proof.
  intros Ha Hb.
  destruct (split_at a 4 64) as (qa & ra & -> & Hra & Hqa & -> & ->); [discriminate | lia |].
  destruct (split_at b 16 16) as (qb & rb & -> & Hrb & Hqb & -> & _); [discriminate | lia |].
  rewrite dec_step by exact Hqa. rewrite dec_step by lia. cbn [N.eqb Pos.eqb].
  destruct (divmod_unique (ra * 16 + qb) 16 ra qb) as [-> ->]; [lia | lia |]. do 2 f_equal. lia.
Qed.
Lemma dec_3 b c r out : b < 256 -> c < 256 ->
  b64dec_go (b64_char ((b mod 16) * 4 + c / 64) :: r) 2 0 (b / 16) out = b64dec_go r 3 0 (c / 64) (b :: out).
Proof.
  intros Hb Hc.
  destruct (split_at b 16 16) as (qb & rb & -> & Hrb & Hqb & -> & ->); [discriminate | lia |].
  destruct (split_at c 64 4) as (qc & rc & -> & Hrc & Hqc & -> & _); [discriminate | lia |].
  rewrite dec_step by lia. cbn [N.eqb Pos.eqb].
  destruct (divmod_unique (rb * 4 + qc) 4 rb qc) as [-> ->]; [lia | lia |]. do 2 f_equal. lia.
Qed.
Lemma dec_4 c r out : c < 256 -> b64dec_go (b64_char (c mod 64) :: r) 3 0 (c / 64) out = b64dec_go r 0 0 0 (c :: out).
Proof.
  intros Hc. destruct (split_at c 64 4) as (qc & rc & -> & Hrc & Hqc & -> & ->); [discriminate | lia |].
  rewrite dec_step by exact Hrc. cbn [N.eqb Pos.eqb]. do 2 f_equal. lia.
Qed.

(* induction over byte strings as [b64encode] reads them: three bytes at a time, a last group of none, one or two *)
Lemma triples_ind (P : list N -> Prop) :
  P [] -> (forall a, P [a]) -> (forall a b, P [a; b]) -> (forall a b c r, P r -> P (a :: b :: c :: r)) -> forall l, P l.
Proof. intros H0 H1 H2 H3. fix IH 1. intros [|a [|b [|c r]]]; [exact H0 | apply H1 | apply H2 | apply H3, IH]. Qed.

(* a last group of one or two bytes is the group with zeros for the missing bytes, cut short and padded with "=" *)
Lemma b64dec_encode bs : Forall (fun b => b < 256) bs -> forall out,
  b64dec_go (b64encode bs) 0 0 0 out = Some (rev out ++ bs).
Proof.
  induction bs as [|a|a b|a b c rest IH] using triples_ind; intros HF out; cbn [b64encode].
  - cbn. rewrite app_nil_r. reflexivity.
  - inversion HF as [|? ? Ha _]; subst.
    replace ((a mod 4) * 16) with ((a mod 4) * 16 + 0 / 16) by apply N.add_0_r.
    rewrite dec_12 by (exact Ha || reflexivity). reflexivity.
  - inversion HF as [|? ? Ha HF1]; subst. inversion HF1 as [|? ? Hb _]; subst.
    replace ((b mod 16) * 4) with ((b mod 16) * 4 + 0 / 64) by apply N.add_0_r.
    rewrite dec_12, dec_3 by (assumption || reflexivity). cbn. rewrite <- app_assoc. reflexivity.
  - inversion HF as [|? ? Ha HF1]; subst. inversion HF1 as [|? ? Hb HF2]; subst. inversion HF2 as [|? ? Hc HF3]; subst.
    rewrite dec_12, dec_3, dec_4 by assumption. rewrite (IH HF3). cbn [rev]. rewrite <- !app_assoc. reflexivity.
Qed.

Lemma b64encode_ascii bs : forallb (fun c => c <? 128) (b64encode bs) = true.
Proof.
  induction bs as [|a|a b|a b c rest IH] using triples_ind; cbn [b64encode forallb]; rewrite ?b64_char_ascii; try reflexivity.
  exact IH.
Qed.

Theorem b64_roundtrip bs : Forall (fun b => b < 256) bs -> b64decode (b64encode bs) = Some bs.
Proof. intros H. unfold b64decode. rewrite b64encode_ascii. exact (b64dec_encode bs H []). Qed.

(* UTF-8 of Unicode code points is a byte string *)
Lemma utf8_bytes s : Forall (fun c => c < 1114112) s -> Forall (fun b => b < 256) (utf8 s).
Proof.
  induction 1 as [|c s Hc _ IH]; [constructor|]. unfold utf8. cbn [flat_map]. apply Forall_app. split; [|exact IH].
  unfold utf8_cp.
  assert (M64 : forall x, x mod 64 < 64) by (intros x; apply N.mod_lt; discriminate).
  destruct (c <? 128) eqn:E1; [apply N.ltb_lt in E1; repeat constructor; lia|]. apply N.ltb_ge in E1.
  destruct (c <? 2048) eqn:E2.
  { apply N.ltb_lt in E2. assert (c / 64 < 32) by (apply N.div_lt_upper_bound; [discriminate | lia]).
    pose proof (M64 c). repeat constructor; lia. }
  apply N.ltb_ge in E2. destruct (c <? 65536) eqn:E3.
  { apply N.ltb_lt in E3. assert (c / 4096 < 16) by (apply N.div_lt_upper_bound; [discriminate | lia]).
    pose proof (M64 c). pose proof (M64 (c / 64)). repeat constructor; lia. }
  assert (c / 262144 < 16) by (apply N.div_lt_upper_bound; [discriminate | lia]).
  pose proof (M64 c). pose proof (M64 (c / 64)). pose proof (M64 (c / 4096)). repeat constructor; lia.
Qed.

(* [resolve] is a congruence for "has the same resolved value", at every EVALUATED position. *)
(* [Cong e a b]: b is a with any number of sub-expressions replaced by expressions that resolve to the same thing.
   The positions are those whose value [resolve] obtains by resolving the sub-expression: members of lists and objects,
   the body of Ref / Fn::ImportValue / Fn::Base64, the arguments of Join / Split / Select / FindInMap / Equals, the variable
   map of Fn::Sub, the branches of Fn::If, the operands of And / Or / Not.  NOT the positions that are read as SYNTAX:
   the argument list itself, the text of Fn::Sub, a condition name (C01_congruence_syntax_refuted). *)
Inductive Cong (e : env) : value -> value -> Prop :=
| Cg_same a b : resolve e a = resolve e b -> Cong e a b
| Cg_list l l' : CongList e l l' -> Cong e (VList l) (VList l')
| Cg_dict d d' : is_fn_dict d = false -> CongDict e d d' -> Cong e (VDict d) (VDict d')
| Cg_body k b b' : k = K_Ref \/ k = K_ImportValue \/ k = K_Base64 -> Cong e b b' -> Cong e (VDict [(k, b)]) (VDict [(k, b')])
| Cg_join d d' l l' : Cong e d d' -> Cong e l l' -> Cong e (FJoin d l) (FJoin d' l')
| Cg_split d d' s s' : Cong e d d' -> Cong e s s' -> Cong e (FSplit d s) (FSplit d' s')
| Cg_select i i' l l' : Cong e i i' -> Cong e l l' -> Cong e (FSelect i l) (FSelect i' l')
| Cg_find_in_map m m' k1 k1' k2 k2' : Cong e m m' -> Cong e k1 k1' -> Cong e k2 k2' ->
    Cong e (FFindInMap m k1 k2) (FFindInMap m' k1' k2')
| Cg_sub text vars vars' : Cong e vars vars' -> Cong e (FSubV text vars) (FSubV text vars')
| Cg_if c t t' f f' : Cong e t t' -> Cong e f f' ->
    Cong e (VDict [(K_If, VList [VStr c; t; f])]) (VDict [(K_If, VList [VStr c; t'; f'])])
| Cg_and parts parts' : CongList e parts parts' -> Cong e (VDict [(K_And, VList parts)]) (VDict [(K_And, VList parts')])
| Cg_or parts parts' : CongList e parts parts' -> Cong e (VDict [(K_Or, VList parts)]) (VDict [(K_Or, VList parts')])
| Cg_not x x' rest rest' : Cong e x x' -> Cong e (VDict [(K_Not, VList (x :: rest))]) (VDict [(K_Not, VList (x' :: rest'))])
| Cg_equals a a' b b' : Cong e a a' -> Cong e b b' ->
    Cong e (VDict [(K_Equals, VList [a; b])]) (VDict [(K_Equals, VList [a'; b'])])
with CongList (e : env) : list value -> list value -> Prop :=
| CL_nil : CongList e [] []
| CL_cons x x' xs xs' : Cong e x x' -> CongList e xs xs' -> CongList e (x :: xs) (x' :: xs')
with CongDict (e : env) : list (str * value) -> list (str * value) -> Prop :=
| CD_nil : CongDict e [] []
| CD_cons k x x' xs xs' : Cong e x x' -> CongDict e xs xs' -> CongDict e ((k, x) :: xs) ((k, x') :: xs').

Scheme Cong_mut := Induction for Cong Sort Prop
  with CongList_mut := Induction for CongList Sort Prop
  with CongDict_mut := Induction for CongDict Sort Prop.

Lemma is_fn_dict_keys d d' : map fst d = map fst d' -> is_fn_dict d = is_fn_dict d'.
Proof.
  destruct d as [|[k x] [|kv d]], d' as [|[k' x'] [|kv' d']]; simpl; intros H; try discriminate; try reflexivity.
  inv H. reflexivity.
Qed.

Lemma cong_refl e v : Cong e v v. Proof. apply Cg_same. reflexivity. Qed.
Lemma conglist_refl e l : CongList e l l.
Proof. induction l as [|x l IH]; constructor; [apply cong_refl | exact IH]. Qed.
Lemma congdict_refl e d : CongDict e d d.
Proof. induction d as [|[k x] d IH]; constructor; [apply cong_refl | exact IH]. Qed.
(* one hole: a member of a list / of an object *)
Lemma conglist_at e pre a b post : Cong e a b -> CongList e (pre ++ a :: post) (pre ++ b :: post).
Proof. intros H. induction pre as [|x pre IH]; simpl; constructor; [exact H | apply conglist_refl | apply cong_refl | exact IH]. Qed.
Lemma congdict_at e pre k a b post : Cong e a b -> CongDict e (pre ++ (k, a) :: post) (pre ++ (k, b) :: post).
Proof.
  intros H. induction pre as [|[k0 x] pre IH]; simpl; constructor; [exact H | apply congdict_refl | apply cong_refl | exact IH].
Qed.

Lemma normalize_fixed ps r : no_fn_dict r = true -> rendered ps r = true -> normalize ps r = Ok r.
Proof.
  apply traversal_fixed; [reflexivity | reflexivity | exact (normalize_list ps) |].
  intros d Hd. rewrite normalize_dict, Hd. reflexivity.
Qed.

(* The environment and the context used by the Examples of Properties/C01.v:
   A = "1", B = "${A}", L = ["a", "TRUE", 1, true], N = 7;  Mappings {M: {a: {b: "leaf"}}} *)
Definition e1 : env :=
  {| params := [([65], VStr [49]); ([66], VStr [36;123;65;125]);
                ([76], VList [VStr [97]; VStr [84;82;85;69]; VInt 1; VBool true]); ([78], VInt 7)];
     mappings := [([77], VDict [([97], VDict [([98], VStr [108;101;97;102])])])];
     conds := fun _ => Ok false |}.
Lemma e1_mappings_wf : mappings_wf e1.
Proof.
  intros m v H. simpl in H. destruct (str_eqb m [77]); inv H. eexists. split; [reflexivity|].
  intros k1 w H. simpl in H. destruct (str_eqb k1 [97]); inv H. eexists. reflexivity.
Qed.
(* {"k": [ {"Fn::Join": ["-", [ HOLE, "x"]]}, "y"]} *)
Definition ctx1 (h : value) : value := VDict [([107], VList [FJoin (VStr [45]) (VList [h; VStr [120]]); VStr [121]])].
Lemma ctx1_cong e a b : Cong e a b -> Cong e (ctx1 a) (ctx1 b).
Proof.
  intros Hab. apply Cg_dict; [reflexivity|]. apply (congdict_at e [] [107] _ _ []). apply Cg_list.
  apply (conglist_at e [] _ _ [VStr [121]]). apply Cg_join; [apply cong_refl|]. apply Cg_list.
  apply (conglist_at e [] a b [VStr [120]]). exact Hab.
Qed.
