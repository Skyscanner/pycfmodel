(* Text-level pieces of the resolver: UTF-8 + base64 (Fn::Base64), the SSM dynamic-reference scanner,
   the Fn::Sub placeholder tokenizer, integer literals. *)
From Coq Require Import List Bool NArith ZArith Lia.
From PV Require Import Base.Str Resolver.Consts.
Import ListNotations.
Local Open Scope N_scope.

(* UTF-8 (code points below the surrogate range / above it; the harness never sends surrogates) *)
Definition utf8_cp (c : N) : list N :=
  if c <? 128 then [c]
  else if c <? 2048 then [192 + c / 64; 128 + c mod 64]
  else if c <? 65536 then [224 + c / 4096; 128 + (c / 64) mod 64; 128 + c mod 64]
  else [240 + c / 262144; 128 + (c / 4096) mod 64; 128 + (c / 64) mod 64; 128 + c mod 64].
Definition utf8 (s : str) : list N := flat_map utf8_cp s.

Definition b64_char (n : N) : N :=
  if n <? 26 then 65 + n else if n <? 52 then 97 + (n - 26) else if n <? 62 then 48 + (n - 52)
  else if n =? 62 then 43 else 47.
Fixpoint b64encode (bs : list N) : str :=
  match bs with
  | [] => []
  | [a] => [b64_char (a / 4); b64_char ((a mod 4) * 16); 61; 61]
  | [a; b] => [b64_char (a / 4); b64_char ((a mod 4) * 16 + b / 16); b64_char ((b mod 16) * 4); 61]
  | a :: b :: c :: rest =>
      b64_char (a / 4) :: b64_char ((a mod 4) * 16 + b / 16) :: b64_char ((b mod 16) * 4 + c / 64)
      :: b64_char (c mod 64) :: b64encode rest
  end.

Definition is_digit (c : N) : bool := (48 <=? c) && (c <=? 57).
Definition is_alpha (c : N) : bool := ((65 <=? c) && (c <=? 90)) || ((97 <=? c) && (c <=? 122)).
(* [is_word] is Python's \w on ASCII and on the three non-ASCII code points below, the ones the harness uses (their \w-ness is
   checked against `re` by the harness); on every other non-ASCII code point it is false, whatever Python's Unicode \w says *)
Definition WORD_EXTRA : list N := [233; 20013; 12354].   (* e-acute, CJK zhong, hiragana a *)
Definition is_word (c : N) : bool :=
  is_alpha c || is_digit c || (c =? 95) || existsb (N.eqb c) WORD_EXTRA.
Definition is_ssm_name_char (c : N) : bool :=
  is_alpha c || is_digit c || (c =? 95) || (c =? 46) || (c =? 47) || (c =? 45).

Fixpoint span (f : N -> bool) (s : str) : str * str :=
  match s with
  | [] => ([], [])
  | c :: r => if f c then let '(a, b) := span f r in (c :: a, b) else ([], s)
  end.
Lemma span_spec f s a b : span f s = (a, b) -> s = a ++ b /\ forallb f a = true /\ match b with [] => True | c :: _ => f c = false end.
Proof.
  revert a b; induction s as [|c r IH]; intros a b H; simpl in H.
  - injection H as <- <-. auto.
  - destruct (f c) eqn:Ec.
    + destruct (span f r) as [a' b']. injection H as <- <-. destruct (IH a' b' eq_refl) as (-> & F & G).
      simpl. rewrite Ec. auto.
    + injection H as <- <-. auto.
Qed.
Lemma span_all f a c r : forallb f a = true -> f c = false -> span f (a ++ c :: r) = (a, c :: r).
Proof.
  induction a as [|x a IH]; simpl; intros Ha Hc.
  - rewrite Hc. reflexivity.
  - apply andb_true_iff in Ha. destruct Ha as [Hx Ha]. rewrite Hx, (IH Ha Hc). reflexivity.
Qed.
Lemma span_full f a : forallb f a = true -> span f a = (a, []).
Proof.
  induction a as [|x a IH]; simpl; intros H; [reflexivity|].
  apply andb_true_iff in H. destruct H as [Hx Ha]. rewrite Hx, (IH Ha). reflexivity.
Qed.

Fixpoint strip_prefix (p s : str) : option str :=
  match p, s with
  | [], _ => Some s
  | x :: p', y :: s' => if x =? y then strip_prefix p' s' else None
  | _ :: _, [] => None
  end.

Lemma strip_prefix_Some p : forall s r, strip_prefix p s = Some r -> s = p ++ r.
Proof.
  induction p as [|x p IH]; intros s r H; simpl in H; [injection H as ->; reflexivity|].
  destruct s as [|y s]; [discriminate|]. destruct (N.eqb_spec x y) as [->|]; [|discriminate].
  rewrite (IH s r H). reflexivity.
Qed.

(* CONTAINS_SSM_PARAMETER.match: "{{resolve:ssm:" name ":" digits "}}" as a PREFIX of the string *)
Definition ssm_key (s : str) : option str :=
  match strip_prefix S_SSM_PREFIX s with
  | None => None
  | Some r =>
      let '(name, r1) := span is_ssm_name_char r in
      match name, r1 with
      | _ :: _, 58 :: r2 =>
          let '(ver, r3) := span is_digit r2 in
          match ver, r3 with
          | _ :: _, 125 :: 125 :: _ => Some (name ++ 58 :: ver)
          | _, _ => None
          end
      | _, _ => None
      end
  end.

(* a [match] on a code-point literal is a test for that literal *)
Lemma match_58 {A} (c : N) (x y : A) : match c with 58 => x | _ => y end = if c =? 58 then x else y.
Proof. destruct c as [|p]; [reflexivity|]. do 6 (destruct p as [p|p|]; try reflexivity). Qed.
Lemma match_125 {A} (c : N) (x y : A) : match c with 125 => x | _ => y end = if c =? 125 then x else y.
Proof. destruct c as [|p]; [reflexivity|]. do 7 (destruct p as [p|p|]; try reflexivity). Qed.

Lemma ssm_key_inv s key : ssm_key s = Some key ->
  exists name ver rest, s = S_SSM_PREFIX ++ name ++ 58 :: ver ++ 125 :: 125 :: rest /\ key = name ++ 58 :: ver /\
    name <> [] /\ ver <> [] /\ forallb is_ssm_name_char name = true /\ forallb is_digit ver = true.
Proof.
  unfold ssm_key. destruct (strip_prefix S_SSM_PREFIX s) as [r|] eqn:Ep; [|discriminate]. apply strip_prefix_Some in Ep.
  destruct (span is_ssm_name_char r) as [name r1] eqn:E1. apply span_spec in E1. destruct E1 as (-> & F1 & _).
  destruct name as [|n0 name]; [discriminate|]. destruct r1 as [|c1 r2]; [discriminate|].
  rewrite match_58. destruct (N.eqb_spec c1 58) as [->|_]; [|discriminate].
  destruct (span is_digit r2) as [ver r3] eqn:E2. apply span_spec in E2. destruct E2 as (-> & F2 & _).
  destruct ver as [|v0 ver]; [discriminate|]. destruct r3 as [|c3 [|c4 rest]]; cbv beta iota; [discriminate | |].
  { rewrite match_125. destruct (c3 =? 125); discriminate. }
  rewrite !match_125. destruct (N.eqb_spec c3 125) as [->|_]; [|discriminate]. destruct (N.eqb_spec c4 125) as [->|_]; [|discriminate].
  intros H. injection H as <-. exists (n0 :: name), (v0 :: ver), rest.
  repeat split; try assumption; discriminate.
Qed.

(* Fn::Sub placeholders:  ${name}  and  ${!name}  with name = one or more of [\w:] *)
Inductive stok := TText (c : N) | TVar (name : str) | TBang (name : str).
Definition is_name_char (c : N) : bool := is_word c || (c =? 58).

Definition placeholder_at (s : str) : option (stok * str) :=
  match s with
  | c0 :: c1 :: r =>
      if (c0 =? 36) && (c1 =? 123) then
        let bang := match r with c2 :: _ => c2 =? 33 | [] => false end in
        let r0 := if bang then tl r else r in
        let '(name, r1) := span is_name_char r0 in
        match name, r1 with
        | _ :: _, c3 :: r2 => if c3 =? 125 then Some (if bang then TBang name else TVar name, r2) else None
        | _, _ => None
        end
      else None
  | _ => None
  end.

Fixpoint sub_tokens_go (fuel : nat) (s : str) : list stok :=
  match fuel with
  | O => map TText s
  | S f =>
      match s with
      | [] => []
      | c :: r =>
          match placeholder_at s with
          | Some (t, rest) => t :: sub_tokens_go f rest
          | None => TText c :: sub_tokens_go f r
          end
      end
  end.
Definition sub_tokens (s : str) : list stok := sub_tokens_go (length s) s.

(* integer literals accepted for Fn::Select indices: optional sign, ASCII digits *)
Fixpoint digits_val (acc : N) (s : str) : option N :=
  match s with
  | [] => Some acc
  | c :: r => if is_digit c then digits_val (acc * 10 + (c - 48)) r else None
  end.
Definition parse_int (s : str) : option Z :=
  match s with
  | 45 :: (_ :: _) => option_map (fun n => Z.opp (Z.of_N n)) (digits_val 0 (tl s))
  | 43 :: (_ :: _) => option_map Z.of_N (digits_val 0 (tl s))
  | _ :: _ => option_map Z.of_N (digits_val 0 s)
  | [] => None
  end.

(* Python's str(int) ([str_of_Z], Base/Str.v) reads back under [parse_int] (C01_parse_int_roundtrip): the digits printed have the
   value printed, and a text that starts with a digit is read without a sign *)
Lemma digit_char m : is_digit (48 + m mod 10) = true /\ 48 + m mod 10 - 48 = m mod 10.
Proof.
  assert (H : m mod 10 < 10) by (apply N.mod_lt; discriminate).
  remember (m mod 10) as r eqn:Er. clear Er.
  unfold is_digit. split; [|lia]. apply andb_true_iff. split; apply N.leb_le; lia.
Qed.

Lemma digits_pos_go_val f : forall n acc a, n < 2 ^ N.of_nat f ->
  exists k, digits_val a (digits_pos_go f n acc) = digits_val (a * 10 ^ k + n) acc.
Proof.
  induction f as [|f IH]; intros n acc a Hn.
  - exists 0. cbn [digits_pos_go]. change (N.of_nat 0) with 0 in Hn. rewrite N.pow_0_r in Hn.
    assert (n = 0) by lia. subst n. f_equal. rewrite N.pow_0_r. lia.
  - cbn [digits_pos_go]. cbv zeta. destruct (digit_char n) as [Hd Hv].
    pose proof (N.div_mod n 10 ltac:(discriminate)) as Hdm.
    destruct (n / 10 =? 0) eqn:E.
    + apply N.eqb_eq in E. exists 1. cbn [digits_val]. rewrite Hd, Hv. f_equal. rewrite E in Hdm. lia.
    + assert (Hlt : n / 10 < 2 ^ N.of_nat f).
      { rewrite Nat2N.inj_succ, N.pow_succ_r' in Hn.
        apply N.div_lt_upper_bound; [discriminate|]. lia. }
      destruct (IH (n / 10) ((48 + n mod 10) :: acc) a Hlt) as [k Hk].
      exists (k + 1). rewrite Hk. cbn [digits_val]. rewrite Hd, Hv. f_equal.
      rewrite N.pow_add_r. lia.
Qed.
Lemma digits_N_val p : digits_val 0 (digits_N (Npos p)) = Some (Npos p).
Proof.
  unfold digits_N.
  destruct (digits_pos_go_val (S (N.to_nat (N.log2 (Npos p)))) (Npos p) [] 0) as [k Hk].
  - rewrite Nat2N.inj_succ, N2Nat.id. apply N.log2_spec. reflexivity.
  - rewrite Hk. simpl. reflexivity.
Qed.

Lemma parse_int_digit_head c r : 48 <= c <= 57 -> parse_int (c :: r) = option_map Z.of_N (digits_val 0 (c :: r)).
Proof.
  intros H.
  assert (Hc : c = 48 \/ c = 49 \/ c = 50 \/ c = 51 \/ c = 52 \/ c = 53 \/ c = 54 \/ c = 55 \/ c = 56 \/ c = 57) by lia.
  repeat (destruct Hc as [-> | Hc]; [reflexivity|]). subst c. reflexivity.
Qed.
