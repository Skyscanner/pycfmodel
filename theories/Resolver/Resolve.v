(* Model of pycfmodel.resolver.resolve (specified behaviour, = the code after the recorded repairs).
   One structurally recursive function over [value]; Python exceptions are explicit [Err]s;
   [Err EUndefined] marks ill-typed inputs on which the model declines to speak. *)
From Coq Require Import List Bool NArith ZArith Lia.
From PV Require Import Base.Str Base.Value Resolver.Consts Resolver.Text.
Import ListNotations.
Local Open Scope N_scope.

Record env := {
  params : list (str * value);      (* merged parameters: pseudo + declared + extra *)
  mappings : list (str * value);    (* Mappings: name -> VDict (top -> VDict (second -> leaf)) *)
  conds : str -> res bool;          (* value of a condition reference; undeclared / in progress = false *)
}.

Definition is_fn (k : str) : bool := mem_str k MODEL_FUNCTIONS.
Definition is_fn_dict (d : list (str * value)) : bool :=
  match d with [(k, _)] => is_fn k | _ => false end.
Definition is_novalue (v : value) : bool :=
  match v with VStr s => str_eqb s S_NOVALUE | _ => false end.

Definition undefined_param (s : str) : str := S_UNDEF_PARAM ++ s.
Definition undefined_mapping (m k1 k2 : str) : str :=
  S_UNDEF_MAPPING ++ m ++ S_UNDERSCORE ++ k1 ++ S_UNDERSCORE ++ k2.

Definition is_boolish (s : str) : bool := str_eqb (lower s) S_true || str_eqb (lower s) S_false.
Definition render_str (ps : list (str * value)) (s : str) : str :=
  match ssm_key s with
  | Some key =>
      match lookup key ps with
      | Some (VStr (c :: r)) => c :: r
      | _ => undefined_param key
      end
  | None => if is_boolish s then lower s else s
  end.
Definition bool_text (b : bool) : str := if b then S_true else S_false.

(* the leaf rules: how a non-container is rendered ([None] on lists and objects); [normalize] and [resolve] spell the same rules out *)
Definition render_leaf (ps : list (str * value)) (v : value) : option value :=
  match v with
  | VNull => Some VNull
  | VBool b => Some (VStr (bool_text b))
  | VInt z => Some (VStr (str_of_Z z))
  | VStr s => Some (VStr (render_str ps s))
  | VTyped _ t => Some (VStr t)
  | VBytes b => Some (VStr (b64encode b))
  | VList _ | VDict _ => None
  end.

(* rendering of a parameter value (what Ref and Fn::Sub insert): the leaf rules, applied through
   lists and objects; a parameter value that contains a function object is outside the domain *)
Fixpoint normalize (ps : list (str * value)) (v : value) {struct v} : res value :=
  match v with
  | VList l =>
      l' <- (fix go (l : list value) : res (list value) :=
               match l with
               | [] => Ok []
               | x :: xs => x' <- normalize ps x ;; xs' <- go xs ;;
                            Ok (if is_novalue x' then xs' else x' :: xs')
               end) l ;;
      Ok (VList l')
  | VDict d =>
      if is_fn_dict d then Err EUndefined else
      d' <- (fix go (d : list (str * value)) : res (list (str * value)) :=
               match d with
               | [] => Ok []
               | (k, x) :: xs => x' <- normalize ps x ;; xs' <- go xs ;;
                                 Ok (if is_novalue x' then xs' else (k, x') :: xs')
               end) d ;;
      Ok (VDict d')
  | VNull => Ok VNull
  | VBool b => Ok (VStr (bool_text b))
  | VInt z => Ok (VStr (str_of_Z z))
  | VStr s => Ok (VStr (render_str ps s))
  | VTyped _ t => Ok (VStr t)
  | VBytes b => Ok (VStr (b64encode b))
  end.

(* pydantic's lenient bool (_extended_bool) *)
Definition ext_bool (v : value) : res bool :=
  match v with
  | VBool b => Ok b
  | VStr s => if mem_str (lower s) BOOL_TRUE then Ok true
              else if mem_str (lower s) BOOL_FALSE then Ok false else Err EValidation
  | VInt 0%Z => Ok false
  | VInt 1%Z => Ok true
  | _ => Err EValidation
  end.

(* Python == on resolved values; numeric cross-type equalities (True == 1 == 1.0) are declined *)
Definition is_numeric (v : value) : bool :=
  match v with VBool _ | VInt _ | VTyped KFloat _ => true | _ => false end.
Definition same_ctor (a b : value) : bool :=
  match a, b with
  | VNull, VNull | VBool _, VBool _ | VInt _, VInt _ | VStr _, VStr _ | VBytes _, VBytes _
  | VList _, VList _ | VDict _, VDict _ => true
  | VTyped k _, VTyped k' _ => tkind_eqb k k'
  | _, _ => false
  end.
Fixpoint has_numeric (v : value) : bool :=
  match v with
  | VBool _ | VInt _ | VTyped _ _ => true
  | VList l => existsb has_numeric l
  | VDict d => existsb (fun kv => has_numeric (snd kv)) d
  | _ => false
  end.
(* resolved values are strings, null, lists and objects of those (plus bools from condition functions):
   on them Python's == is [veqb]; as soon as a raw number / typed atom is involved we decline *)
Definition py_eq (a b : value) : res bool :=
  match a, b with
  | VBool x, VBool y => Ok (Bool.eqb x y)
  | _, _ => if has_numeric a || has_numeric b then Err EUndefined else Ok (veqb a b)
  end.

Fixpoint as_strs (l : list value) : res (list str) :=
  match l with
  | [] => Ok []
  | VStr s :: r => r' <- as_strs r ;; Ok (s :: r')
  | _ :: _ => Err EUndefined
  end.

Definition do_ref (e : env) (b : value) : res value :=
  match b with
  | VStr s =>
      match lookup s (params e) with
      | Some x => normalize (params e) x
      | None => Ok (VStr (undefined_param s))
      end
  | VList _ | VDict _ => Err EType
  | _ => Err EUndefined
  end.

Definition do_join (d l : value) : res value :=
  match d, l with
  | VStr ds, VList ls => ss <- as_strs ls ;; Ok (VStr (join ds ss))
  | _, _ => Err EUndefined
  end.

Definition do_split (d s : value) : res value :=
  match d, s with
  | VStr [], VStr _ => Err EValue
  | VStr ds, VStr ss => Ok (VList (map VStr (split ds ss)))
  | _, _ => Err EUndefined
  end.

Definition do_select (i l : value) : res value :=
  match i, l with
  | VStr s, VList ls =>
      match parse_int s with
      | Some z =>
          if (z <? 0)%Z || (Z.of_nat (length ls) <=? z)%Z then Ok (VList [])
          else match nth_error ls (Z.to_nat z) with Some x => Ok x | None => Ok (VList []) end
      | None => Err EUndefined
      end
  | _, _ => Err EUndefined
  end.

(* Fn::FindInMap key lookup (library helper _mapping_get, introduced by pycfmodel's repair of finding F31, DESIGN.md 7.3): the key exactly; failing that, and only when
   the key text is "true" / "false" (how every boolean spelling reaches the lookup, see [render_str]), the first entry,
   in dictionary order, whose key lower-cases to it *)
Fixpoint lookup_ci {A} (k : str) (d : list (str * A)) : option A :=
  match d with
  | [] => None
  | (k', v) :: d' => if str_eqb (lower k') k then Some v else lookup_ci k d'
  end.
Definition is_bool_text (k : str) : bool := str_eqb k S_true || str_eqb k S_false.
Definition lookup_bk {A} (k : str) (d : list (str * A)) : option A :=
  match lookup k d with
  | Some v => Some v
  | None => if is_bool_text k then lookup_ci k d else None
  end.

Lemma lookup_bk_exact {A} k (d : list (str * A)) v : lookup k d = Some v -> lookup_bk k d = Some v.
Proof. intros H. unfold lookup_bk. rewrite H. reflexivity. Qed.
Lemma is_bool_text_false k : k <> S_true -> k <> S_false -> is_bool_text k = false.
Proof.
  intros Ht Hf. unfold is_bool_text. apply orb_false_iff. split; apply str_eqb_neq; assumption.
Qed.
Lemma is_bool_text_true k : is_bool_text k = true -> k = S_true \/ k = S_false.
Proof.
  unfold is_bool_text. intros H. apply orb_true_iff in H. destruct H as [H|H]; apply str_eqb_spec in H; auto.
Qed.
Lemma lookup_bk_plain {A} k (d : list (str * A)) : k <> S_true -> k <> S_false -> lookup_bk k d = lookup k d.
Proof.
  intros Ht Hf. unfold lookup_bk. rewrite (is_bool_text_false k Ht Hf). destruct (lookup k d); reflexivity.
Qed.
Lemma lookup_bk_nil {A} k : lookup_bk k (@nil (str * A)) = None.
Proof. unfold lookup_bk. simpl. destruct (is_bool_text k); reflexivity. Qed.
Lemma lookup_ci_In {A} k (d : list (str * A)) v : lookup_ci k d = Some v -> exists k', In (k', v) d /\ lower k' = k.
Proof.
  induction d as [|[k0 v0] d IH]; simpl; [discriminate|].
  destruct (str_eqb (lower k0) k) eqn:E.
  - apply str_eqb_spec in E. intros H. inversion H; subst. exists k0. split; [left; reflexivity | reflexivity].
  - intros H. destruct (IH H) as (k' & Hin & Hl). exists k'. split; [right; exact Hin | exact Hl].
Qed.
Lemma lookup_ci_None {A} k (d : list (str * A)) : lookup_ci k d = None <-> forall k', In k' (keys d) -> lower k' <> k.
Proof.
  induction d as [|[k0 v0] d IH]; simpl; [split; [intros _ k' [] | reflexivity]|].
  destruct (str_eqb (lower k0) k) eqn:E.
  - apply str_eqb_spec in E. split; [discriminate | intros H; exfalso; apply (H k0); [left; reflexivity | exact E]].
  - apply str_eqb_neq in E. rewrite IH. split.
    + intros H k' [C|C]; [subst; exact E | apply H; exact C].
    + intros H k' C. apply H. right. exact C.
Qed.
(* whatever is found sits in the dictionary, under the key or under a spelling of it *)
Lemma lookup_bk_In {A} k (d : list (str * A)) v :
  lookup_bk k d = Some v -> exists k', In (k', v) d /\ (k' = k \/ (is_bool_text k = true /\ lower k' = k)).
Proof.
  unfold lookup_bk. destruct (lookup k d) as [x|] eqn:E.
  - intros H. inversion H; subst. exists k. split; [apply lookup_In; exact E | left; reflexivity].
  - destruct (is_bool_text k) eqn:B; [|discriminate]. intros H.
    destruct (lookup_ci_In k d v H) as (k' & Hin & Hl). exists k'. split; [exact Hin | right; split; [reflexivity | exact Hl]].
Qed.
Lemma lookup_bk_None {A} k (d : list (str * A)) :
  lookup_bk k d = None <-> ~ In k (keys d) /\ (is_bool_text k = true -> forall k', In k' (keys d) -> lower k' <> k).
Proof.
  unfold lookup_bk. destruct (lookup k d) as [x|] eqn:E.
  - split; [discriminate|]. intros [H _]. exfalso. apply H. apply lookup_In in E. apply in_map_iff. exists (k, x). split; [reflexivity | exact E].
  - apply lookup_None in E. destruct (is_bool_text k) eqn:B.
    + rewrite lookup_ci_None. split; [intros H; split; [exact E | intros _; exact H] | intros [_ H]; apply H; reflexivity].
    + split; [intros _; split; [exact E | discriminate] | reflexivity].
Qed.

(* the entry found is the one an exact lookup of ITS spelling finds (first occurrence): facts about "every exact lookup"
   transfer to [lookup_bk] *)
Lemma lookup_ci_lookup {A} k (d : list (str * A)) v : lookup_ci k d = Some v -> exists k', lookup k' d = Some v /\ lower k' = k.
Proof.
  induction d as [|[k0 v0] d IH]; simpl; [discriminate|].
  destruct (str_eqb (lower k0) k) eqn:E.
  - apply str_eqb_spec in E. intros H. inversion H; subst. exists k0. rewrite str_eqb_refl. split; reflexivity.
  - intros H. destruct (IH H) as (k' & Hl & Hk). exists k'. split; [|exact Hk].
    destruct (str_eqb k' k0) eqn:E2; [|exact Hl].
    apply str_eqb_spec in E2. subst k0. apply str_eqb_neq in E. contradiction.
Qed.
Lemma lookup_bk_lookup {A} k (d : list (str * A)) v :
  lookup_bk k d = Some v -> exists k', lookup k' d = Some v /\ (k' = k \/ (is_bool_text k = true /\ lower k' = k)).
Proof.
  unfold lookup_bk. destruct (lookup k d) as [x|] eqn:E.
  - intros H. inversion H; subst. exists k. split; [exact E | left; reflexivity].
  - destruct (is_bool_text k) eqn:B; [|discriminate]. intros H.
    destruct (lookup_ci_lookup k d v H) as (k' & Hin & Hl). exists k'. split; [exact Hin | right; split; [reflexivity | exact Hl]].
Qed.

(* a key spelled like a boolean, the only spelling of it in the dictionary, is found by its lower-cased text *)
Lemma lookup_bk_spelling {A} k (d : list (str * A)) v :
  is_bool_text (lower k) = true -> lookup k d = Some v ->
  (forall k', In k' (keys d) -> lower k' = lower k -> k' = k) ->
  lookup_bk (lower k) d = Some v.
Proof.
  intros Hb Hl Hu.
  assert (Hin : forall k' (x : A), lookup k' d = Some x -> In k' (keys d)).
  { intros k' x H. apply lookup_In in H. apply in_map_iff. exists (k', x). split; [reflexivity | exact H]. }
  unfold lookup_bk. destruct (lookup (lower k) d) as [x|] eqn:E.
  - rewrite <- (Hu (lower k) (Hin _ _ E) (lower_idem k)) in Hl. congruence.
  - rewrite Hb. destruct (lookup_ci (lower k) d) as [x|] eqn:C.
    + destruct (lookup_ci_lookup _ _ _ C) as (k' & Hl' & Hk'). rewrite (Hu k' (Hin _ _ Hl') Hk') in Hl'. congruence.
    + exfalso. apply (proj1 (lookup_ci_None (lower k) d) C k (Hin _ _ Hl)). reflexivity.
Qed.

Definition do_find_in_map (e : env) (m k1 k2 : value) : res value :=
  match m, k1, k2 with
  | VStr ms, VStr s1, VStr s2 =>
      let undef := Ok (VStr (undefined_mapping ms s1 s2)) in
      match lookup ms (mappings e) with
      | None => undef
      | Some (VDict top) =>
          match lookup_bk s1 top with
          | None => undef
          | Some (VDict snd_) =>
              match lookup_bk s2 snd_ with
              | None | Some VNull => undef
              | Some leaf => Ok leaf
              end
          | Some _ => Err EUndefined
          end
      | Some _ => Err EUndefined
      end
  | _, _, _ => Err EUndefined
  end.

Definition do_base64 (b : value) : res value :=
  match b with VStr s => Ok (VStr (b64encode (utf8 s))) | _ => Err EUndefined end.

(* one Fn::Sub placeholder: the expression's own variables first, then the parameters; unbound stays as written *)
Definition render_var (e : env) (custom : list (str * value)) (name : str) : res str :=
  match lookup name custom with
  | Some x => x' <- normalize (params e) x ;;
              match x' with VStr s => Ok s | _ => Err EUndefined end
  | None =>
      match lookup name (params e) with
      | Some x => x' <- normalize (params e) x ;;
                  match x' with VStr s => Ok s | _ => Err EUndefined end
      | None => Ok (36 :: 123 :: name ++ [125])
      end
  end.
Definition render_tok (e : env) (custom : list (str * value)) (t : stok) : res str :=
  match t with
  | TText c => Ok [c]
  | TBang name => Ok (36 :: 123 :: name ++ [125])
  | TVar name => render_var e custom name
  end.
Fixpoint render_toks (e : env) (custom : list (str * value)) (ts : list stok) : res str :=
  match ts with
  | [] => Ok []
  | t :: r => a <- render_tok e custom t ;; b <- render_toks e custom r ;; Ok (a ++ b)
  end.
Definition do_sub (e : env) (text : str) (custom : list (str * value)) : res value :=
  s <- render_toks e custom (sub_tokens text) ;; Ok (VStr s).

(* The dispatch below is written out again, with something carried along, in QTree.resolve_t (condition lookups as questions),
   Trace.resolve_tr (environment accesses), Robust/ResolveCost.resolve_c (steps) and Robust/WellFormed.ty_of (result shapes); each
   comes with a theorem that ties it to [resolve].  Spec.v names the inner loops and gives the unfolding equations and the
   induction principle [resolve_ind] that those proofs use. *)
Fixpoint resolve (e : env) (v : value) {struct v} : res value :=
  match v with
  | VList l =>
      l' <- (fix go (l : list value) : res (list value) :=
               match l with
               | [] => Ok []
               | x :: xs => x' <- resolve e x ;; xs' <- go xs ;;
                            Ok (if is_novalue x' then xs' else x' :: xs')
               end) l ;;
      Ok (VList l')
  | VDict d =>
      (* a thunk: under call-by-value evaluation (vm_compute, the extracted runner) a plain [let] would resolve the members
         of EVERY function object a second time -- harmless for the result, exponential in the nesting depth *)
      let generic := fun _ : unit =>
        d' <- (fix go (d : list (str * value)) : res (list (str * value)) :=
                 match d with
                 | [] => Ok []
                 | (k, x) :: xs => x' <- resolve e x ;; xs' <- go xs ;;
                                   Ok (if is_novalue x' then xs' else (k, x') :: xs')
                 end) d ;;
        Ok (VDict d') in
      match d with
      | [(k, body)] =>
          if str_eqb k K_Ref || str_eqb k K_ImportValue then
            b <- resolve e body ;; do_ref e b
          else if str_eqb k K_Join then
            match body with
            | VList [dl; l] => d' <- resolve e dl ;; l' <- resolve e l ;; do_join d' l'
            | VList _ => Err EValue
            | _ => Err EUndefined
            end
          else if str_eqb k K_Split then
            match body with
            | VList [dl; s] => d' <- resolve e dl ;; s' <- resolve e s ;; do_split d' s'
            | VList _ => Err EValue
            | _ => Err EUndefined
            end
          else if str_eqb k K_Select then
            match body with
            | VList [i; l] => i' <- resolve e i ;; l' <- resolve e l ;; do_select i' l'
            | VList _ => Err EValue
            | _ => Err EUndefined
            end
          else if str_eqb k K_FindInMap then
            match body with
            | VList [m; k1; k2] =>
                m' <- resolve e m ;; k1' <- resolve e k1 ;; k2' <- resolve e k2 ;; do_find_in_map e m' k1' k2'
            | VList _ => Err EValue
            | _ => Err EUndefined
            end
          else if str_eqb k K_Sub then
            match body with
            | VStr text => do_sub e text []
            | VList [VStr text; vars] =>
                cv <- resolve e vars ;;
                match cv with VDict custom => do_sub e text custom | _ => Err EUndefined end
            | VList [_; _] => Err EUndefined
            | VList _ => Err EValue
            | _ => Err EUndefined
            end
          else if str_eqb k K_Base64 then
            b <- resolve e body ;; do_base64 b
          else if str_eqb k K_GetAtt then Ok (VStr S_GETATT)
          else if str_eqb k K_GetAZs then Ok (VStr S_GETAZS)
          else if str_eqb k K_Condition then
            match body with
            | VStr name => b <- conds e name ;; Ok (VBool b)
            | _ => Err EUndefined
            end
          else if str_eqb k K_If then
            match body with
            | VList [VStr c; t; f] => b <- conds e c ;; if b then resolve e t else resolve e f
            | VList [_; _; _] => Err EUndefined
            | VList _ => Err EValue
            | _ => Err EUndefined
            end
          else if str_eqb k K_And then
            match body with
            | VList parts =>
                b <- (fix all_go (l : list value) : res bool :=
                        match l with
                        | [] => Ok true
                        | x :: xs => r <- resolve e x ;; b <- ext_bool r ;; if b then all_go xs else Ok false
                        end) parts ;;
                Ok (VBool b)
            | _ => Err EUndefined
            end
          else if str_eqb k K_Or then
            match body with
            | VList parts =>
                b <- (fix any_go (l : list value) : res bool :=
                        match l with
                        | [] => Ok false
                        | x :: xs => r <- resolve e x ;; b <- ext_bool r ;; if b then Ok true else any_go xs
                        end) parts ;;
                Ok (VBool b)
            | _ => Err EUndefined
            end
          else if str_eqb k K_Not then
            match body with
            | VList (x :: _) => r <- resolve e x ;; b <- ext_bool r ;; Ok (VBool (negb b))
            | VList [] => Err EIndex
            | _ => Err EUndefined
            end
          else if str_eqb k K_Equals then
            match body with
            | VList [a; b] => a' <- resolve e a ;; b' <- resolve e b ;; r <- py_eq a' b' ;; Ok (VBool r)
            | VList _ => Err EValue
            | _ => Err EUndefined
            end
          else generic tt
      | _ => generic tt
      end
  | VNull => Ok VNull
  | VBool b => Ok (VStr (bool_text b))
  | VInt z => Ok (VStr (str_of_Z z))
  | VStr s => Ok (VStr (render_str (params e) s))
  | VTyped _ t => Ok (VStr t)
  | VBytes b => Ok (VStr (b64encode b))
  end.
