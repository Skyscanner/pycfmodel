(* An ALGEBRA of IAM wildcard patterns (C08), over ANY alphabet with decidable equality, for EVERY pattern and EVERY text
   (no bound on lengths): laws of the matcher [glob_match] of Glob.v.

     concatenation   a text matches p ++ q  iff  it is a text matching p followed by a text matching q
     congruence      equivalent patterns may be exchanged inside any context p ++ _ ++ q
     stars           a run of stars is one star                                   ("**"  = "*")
     commutation     star and question mark commute                               ("*?"  = "?*")
     runs            a run of wildcards with k question marks and at least one star is  ?^k *  = "at least k characters"
     BUT             "*?" is NOT "*": it needs one character more                  (the text with nothing in that place)
     normal form     [norm]: every maximal run of wildcards becomes ?^k or ?^k*; same language, idempotent, its fixed
                     points are exactly the normal patterns, no non-star symbol is touched or reordered
     minimal length  a matched text is at least as long as the pattern has non-star symbols (and that is attained)
     prefix/suffix   lit*  = "starts with lit",  *lit = "ends with lit"
     case folding    the case-insensitive matcher is the matcher on folded pattern and folded text; all laws carry over. *)
From Coq Require Import List Bool Arith Lia.
From PV Require Import Glob.Glob.
Import ListNotations.

Section GlobAlgebra.
Variable A : Type.
Variable eqb : A -> A -> bool.
Hypothesis eqb_spec : forall a b, eqb a b = true <-> a = b.
Variable star qm : A.   (* the two wildcard characters *)

Local Notation tokA := (tok A).
Local Notation gmA := (gm A).
Local Notation toks := (tokens A eqb star qm).
Local Notation tokof := (tok_of A eqb star qm).
Local Notation glob := (glob_match A eqb star qm).
Local Notation wit := (witness A eqb star).
Local Notation nowild := (no_wild A star qm).
Local Notation glob_star_any := (glob_star_any A eqb eqb_spec star qm).
Local Notation glob_lit := (glob_literal A eqb eqb_spec star qm).

Lemma eqb_same a : eqb a a = true.
Proof. apply eqb_spec. reflexivity. Qed.
Lemma eqb_neq a b : a <> b -> eqb a b = false.
Proof. intros Hne. destruct (eqb a b) eqn:E; [apply eqb_spec in E; contradiction | reflexivity]. Qed.
Lemma eqb_false_neq a b : eqb a b = false -> a <> b.
Proof. intros E Heq. subst b. rewrite eqb_same in E. discriminate. Qed.

Lemma map_repeat {B C} (f : B -> C) x n : map f (repeat x n) = repeat (f x) n.
Proof. induction n as [|n IH]; [reflexivity|]. cbn [repeat map]. rewrite IH. reflexivity. Qed.

Lemma tok_of_star : tokof star = AnyStar.
Proof. unfold tok_of. rewrite eqb_same. reflexivity. Qed.
Lemma tok_of_qm : star <> qm -> tokof qm = Any1.
Proof.
  intros Hne. unfold tok_of. rewrite (eqb_neq qm star) by congruence. rewrite eqb_same. reflexivity.
Qed.
Lemma tokens_app p q : toks (p ++ q) = toks p ++ toks q.
Proof. unfold tokens. apply map_app. Qed.
Lemma tokens_repeat_qm n : star <> qm -> toks (repeat qm n) = repeat Any1 n.
Proof. intros Hne. unfold tokens. rewrite map_repeat, (tok_of_qm Hne). reflexivity. Qed.

Lemma glob_gm p s : glob p s = true <-> gmA (toks p) s.
Proof. unfold glob_match. apply gmb_ok. exact eqb_spec. Qed.

(* CONCATENATION: a text matches p ++ q iff it splits into a text matching p and a text matching q *)

Lemma gm_app (p q : list tokA) s :
  gmA (p ++ q) s <-> exists s1 s2, s = s1 ++ s2 /\ gmA p s1 /\ gmA q s2.
Proof.
  rewrite gm_spec. setoid_rewrite gm_spec. unfold glob_spec. split.
  - intros (segs & -> & HF). apply Forall2_app_inv_l in HF. destruct HF as (g1 & g2 & HF1 & HF2 & ->).
    exists (concat g1), (concat g2). split; [apply concat_app|]. split; eexists; eauto.
  - intros (s1 & s2 & -> & (g1 & -> & HF1) & (g2 & -> & HF2)). exists (g1 ++ g2).
    split; [symmetry; apply concat_app | apply Forall2_app; assumption].
Qed.

Theorem glob_app p q s :
  glob (p ++ q) s = true <-> exists s1 s2, s = s1 ++ s2 /\ glob p s1 = true /\ glob q s2 = true.
Proof. rewrite glob_gm, tokens_app, gm_app. setoid_rewrite glob_gm. reflexivity. Qed.

(* a leading star takes any prefix of the text, a leading question mark its first character *)
Lemma glob_cons_star p s : glob (star :: p) s = true <-> exists r s', s = r ++ s' /\ glob p s' = true.
Proof.
  change (star :: p) with ([star] ++ p). rewrite glob_app. split.
  - intros (r & s' & Hs & _ & Hp). eauto.
  - intros (r & s' & Hs & Hp). exists r, s'. auto using glob_star_any.
Qed.
Lemma glob_cons_qm c p s : eqb c star = false -> eqb c qm = true ->
  (glob (c :: p) s = true <-> exists a s', s = a :: s' /\ glob p s' = true).
Proof.
  intros E1 E2. unfold glob_match. cbn [tokens map]. unfold tok_of at 1. rewrite E1, E2.
  destruct s as [|a s']; cbn [gmb]; split; try discriminate.
  - intros (a & s' & E & _). discriminate E.
  - intros H. eauto.
  - intros (a' & s'' & E & H). inversion E; subst. exact H.
Qed.

(* equivalence of patterns: same language; CONGRUENCE: equivalent patterns may be exchanged in any context *)

Definition geq (x y : list A) : Prop := forall s, glob x s = glob y s.

Lemma geq_refl x : geq x x.
Proof. intros s. reflexivity. Qed.
Lemma geq_sym x y : geq x y -> geq y x.
Proof. intros H s. symmetry. apply H. Qed.
Lemma geq_trans x y z : geq x y -> geq y z -> geq x z.
Proof. intros H1 H2 s. exact (eq_trans (H1 s) (H2 s)). Qed.

Lemma geq_app x x' y y' : geq x x' -> geq y y' -> geq (x ++ y) (x' ++ y').
Proof.
  unfold geq. intros Hx Hy s. apply eq_true_iff_eq. rewrite !glob_app. setoid_rewrite Hx. setoid_rewrite Hy. reflexivity.
Qed.
Theorem geq_ctx x y p q : geq x y -> geq (p ++ x ++ q) (p ++ y ++ q).
Proof. intros H. apply geq_app; [apply geq_refl|]. apply geq_app; [exact H | apply geq_refl]. Qed.
Lemma geq_app_l l x y : geq x y -> geq (l ++ x) (l ++ y).
Proof. apply geq_app, geq_refl. Qed.
Lemma geq_cons c x y : geq x y -> geq (c :: x) (c :: y).
Proof. exact (geq_app_l [c] x y). Qed.

(* a run of wildcards is a length constraint and nothing else: with a star "at least", without "exactly", as many
   characters as the run has symbols other than the star *)

Definition wild_run (w : list A) : Prop := Forall (fun c => c = star \/ c = qm) w.
Definition nonstar (p : list A) : nat := length (filter (fun c => negb (eqb c star)) p).
Theorem wild_run_glob w : wild_run w -> forall s,
  glob w s = true <-> (if existsb (fun c => eqb c star) w then nonstar w <= length s else length s = nonstar w).
Proof.
  unfold nonstar. induction 1 as [|c w Hc Hw IH]; intros s.
  - destruct s; cbn; split; congruence.
  - cbn [existsb filter]. destruct (eqb c star) eqn:Es; cbn [orb negb length].
    + apply eqb_spec in Es. subst c. rewrite glob_cons_star. split.
      * intros (r & s' & -> & Hp). apply IH in Hp. rewrite app_length. destruct (existsb _ w); lia.
      * intros Hlen. destruct (existsb _ w).
        -- exists [], s. split; [reflexivity|]. apply IH. exact Hlen.
        -- exists (firstn (length s - length (filter (fun c => negb (eqb c star)) w)) s),
                  (skipn (length s - length (filter (fun c => negb (eqb c star)) w)) s).
           split; [symmetry; apply firstn_skipn|]. apply IH. rewrite skipn_length. lia.
    + destruct Hc as [->| ->]; [rewrite eqb_same in Es; discriminate|].
      rewrite (glob_cons_qm qm w s Es (eqb_same qm)). split.
      * intros (a & s' & -> & Hp). apply IH in Hp. cbn [length]. destruct (existsb _ w); lia.
      * intros Hlen. destruct s as [|a s']; cbn [length] in Hlen; [destruct (existsb _ w); lia|].
        exists a, s'. split; [reflexivity|]. apply IH. destruct (existsb _ w); lia.
Qed.

Lemma wild_geq w1 w2 : wild_run w1 -> wild_run w2 ->
  existsb (fun c => eqb c star) w1 = existsb (fun c => eqb c star) w2 -> nonstar w1 = nonstar w2 -> geq w1 w2.
Proof.
  intros H1 H2 Hs Hq s. apply eq_true_iff_eq. rewrite (wild_run_glob w1 H1), (wild_run_glob w2 H2), Hs, Hq. reflexivity.
Qed.

Lemma nonstar_app p q : nonstar (p ++ q) = nonstar p + nonstar q.
Proof. unfold nonstar. rewrite filter_app, app_length. reflexivity. Qed.
Lemma nonstar_repeat_star n : nonstar (repeat star n) = 0.
Proof. unfold nonstar. induction n as [|n IH]; [reflexivity|]. cbn [repeat filter]. rewrite eqb_same. exact IH. Qed.
Lemma wild_run_repeat c n : c = star \/ c = qm -> wild_run (repeat c n).
Proof. intros Hc. apply Forall_forall. intros d Hd. apply repeat_spec in Hd. subst d. exact Hc. Qed.

(* a run of stars is one star *)
Theorem star_run p q n s : glob (p ++ repeat star (S n) ++ q) s = glob (p ++ [star] ++ q) s.
Proof.
  apply geq_ctx. apply wild_geq.
  - apply wild_run_repeat. left. reflexivity.
  - exact (wild_run_repeat star 1 (or_introl eq_refl)).
  - cbn [repeat existsb]. rewrite eqb_same. reflexivity.
  - exact (eq_trans (nonstar_repeat_star (S n)) (eq_sym (nonstar_repeat_star 1))).
Qed.

Theorem star_star p q s : glob (p ++ [star; star] ++ q) s = glob (p ++ [star] ++ q) s.
Proof. exact (star_run p q 1 s). Qed.

(* star and question mark commute (no hypothesis: if the two wildcard characters coincide both runs are two stars) *)
Theorem star_qm_commute p q s : glob (p ++ [star; qm] ++ q) s = glob (p ++ [qm; star] ++ q) s.
Proof.
  apply geq_ctx. apply wild_geq; try (apply Forall_forall; intros c [<-|[<-|[]]]; auto).
  - cbn [existsb]. rewrite eqb_same. destruct (eqb qm star); reflexivity.
  - unfold nonstar. cbn [filter]. rewrite eqb_same. destruct (eqb qm star); reflexivity.
Qed.

(* a run of wildcards: k question marks and at least one star, in any order = ?^k *  ("at least k more characters") *)
Definition qms (w : list A) : nat := length (filter (fun c => eqb c qm) w).

Lemma wild_run_nonstar w : star <> qm -> wild_run w -> nonstar w = qms w.
Proof.
  intros Hne. unfold nonstar, qms. induction 1 as [|c w [->| ->] _ IH]; [reflexivity| |]; cbn [filter].
  - rewrite eqb_same, (eqb_neq star qm Hne). exact IH.
  - rewrite eqb_same, (eqb_neq qm star) by congruence. cbn [negb length]. rewrite IH. reflexivity.
Qed.
Lemma has_star w : In star w -> existsb (fun c => eqb c star) w = true.
Proof. intros H. apply existsb_exists. exists star. split; [exact H | apply eqb_same]. Qed.

(* what such a run means: the part of the text in that place has at least k characters *)
Theorem wild_run_length w s : star <> qm -> wild_run w -> In star w ->
  (glob w s = true <-> qms w <= length s).
Proof. intros Hne Hw Hin. rewrite (wild_run_glob w Hw), (has_star w Hin), (wild_run_nonstar w Hne Hw). reflexivity. Qed.

(* minimal length *)

Theorem min_length p s : glob p s = true -> nonstar p <= length s.
Proof. intros H. exact (glob_witness_shortest A eqb eqb_spec star qm p s H). Qed.
Theorem min_length_attained p : glob p (wit p) = true /\ length (wit p) = nonstar p.
Proof. split; [exact (glob_satisfiable A eqb eqb_spec star qm p) | reflexivity]. Qed.

Lemma witness_app p q : wit (p ++ q) = wit p ++ wit q.
Proof. unfold witness. apply filter_app. Qed.

(* BUT "*?" is not "*": it asks for one character more *)

Theorem star_qm_length p q s : star <> qm ->
  glob (p ++ [star; qm] ++ q) s = true -> nonstar p + 1 + nonstar q <= length s.
Proof.
  intros Hne H. apply min_length in H. rewrite !nonstar_app in H.
  unfold nonstar at 2 in H. cbn [filter] in H. rewrite eqb_same, (eqb_neq qm star) in H by congruence.
  cbn [negb length] in H. lia.
Qed.

(* the two patterns differ on the text that has NOTHING in that place *)
Theorem star_qm_is_not_star p q : star <> qm ->
  glob (p ++ [star] ++ q) (wit p ++ wit q) = true /\ glob (p ++ [star; qm] ++ q) (wit p ++ wit q) = false.
Proof.
  intros Hne. split.
  - replace (wit p ++ wit q) with (wit (p ++ [star] ++ q)); [apply min_length_attained|].
    rewrite !witness_app. unfold witness at 2. cbn [filter]. rewrite eqb_same. reflexivity.
  - destruct (glob (p ++ [star; qm] ++ q) (wit p ++ wit q)) eqn:E; [|reflexivity]. exfalso.
    apply (star_qm_length p q _ Hne) in E. rewrite app_length in E.
    destruct (min_length_attained p) as [_ Hp]. destruct (min_length_attained q) as [_ Hq]. lia.
Qed.

(* normal form: read left to right; a star is held back ([pend]) until the run of wildcards ends, question marks pass *)

Definition pre (pend : bool) : list A := if pend then [star] else [].

Fixpoint norm_go (pend : bool) (p : list A) : list A :=
  match p with
  | [] => pre pend
  | c :: p' => if eqb c star then norm_go true p'
               else if eqb c qm then c :: norm_go pend p'
               else pre pend ++ c :: norm_go false p'
  end.
Definition norm (p : list A) : list A := norm_go false p.

Lemma norm_go_correct p : forall pend, geq (norm_go pend p) (pre pend ++ p).
Proof.
  induction p as [|c p IH]; intros pend.
  - cbn [norm_go]. rewrite app_nil_r. apply geq_refl.
  - cbn [norm_go]. destruct (eqb c star) eqn:Es.
    + apply eqb_spec in Es. subst c. eapply geq_trans; [apply IH|]. destruct pend; cbn [pre app].
      * intros s. symmetry. exact (star_star [] p s).
      * apply geq_refl.
    + destruct (eqb c qm) eqn:Eq.
      * apply eqb_spec in Eq. subst c. eapply geq_trans; [apply geq_cons; apply IH|]. destruct pend; cbn [pre app].
        -- intros s. symmetry. exact (star_qm_commute [] p s).
        -- apply geq_refl.
      * apply geq_app_l. apply geq_cons. exact (IH false).
Qed.

Theorem norm_correct p s : glob (norm p) s = glob p s.
Proof. exact (norm_go_correct p false s). Qed.

(* what "normal" means: no star is followed by a wildcard, i.e. every maximal run of wildcards is ?^k or ?^k* *)
Fixpoint normalb (p : list A) : bool :=
  match p with
  | [] => true
  | c :: p' => (if eqb c star then match p' with [] => true | d :: _ => negb (eqb d star) && negb (eqb d qm) end else true)
               && normalb p'
  end.
Definition normal (p : list A) : Prop :=
  forall l c r, p = l ++ star :: c :: r -> c <> star /\ c <> qm.

Lemma normalb_spec p : normalb p = true <-> normal p.
Proof.
  unfold normal. induction p as [|c p IH].
  - split; [|reflexivity]. intros _ l c r H. destruct l; discriminate.
  - cbn [normalb]. rewrite andb_true_iff, IH. split.
    + intros [Hhd Htl] l d r H. destruct l as [|x l]; cbn [app] in H.
      * injection H as Hc Hp. subst c p. rewrite eqb_same in Hhd.
        apply andb_true_iff in Hhd. destruct Hhd as [H1 H2]. apply negb_true_iff in H1, H2.
        split; apply eqb_false_neq; assumption.
      * injection H as Hc Hp. exact (Htl l d r Hp).
    + intros H. split.
      * destruct (eqb c star) eqn:Es; [|reflexivity]. apply eqb_spec in Es. subst c.
        destruct p as [|d p']; [reflexivity|]. destruct (H [] d p' eq_refl) as [H1 H2].
        rewrite (eqb_neq d star H1), (eqb_neq d qm H2). reflexivity.
      * intros l d r Hp. apply (H (c :: l) d r). rewrite Hp. reflexivity.
Qed.

Lemma norm_go_normal p : forall pend, normalb (norm_go pend p) = true.
Proof.
  induction p as [|c p IH]; intros pend.
  - destruct pend; cbn [norm_go pre normalb]; [rewrite eqb_same|]; reflexivity.
  - cbn [norm_go]. destruct (eqb c star) eqn:Es; [apply IH|].
    destruct (eqb c qm) eqn:Eq.
    + cbn [normalb]. rewrite Es, IH. reflexivity.
    + destruct pend; cbn [pre app normalb]; rewrite ?eqb_same, Es, ?Eq, IH; reflexivity.
Qed.
Theorem norm_is_normal p : normal (norm p).
Proof. apply normalb_spec. apply norm_go_normal. Qed.

Lemma normalb_fixed p : normalb p = true -> norm_go false p = p.
Proof.
  induction p as [|c p IH]; [reflexivity|]. cbn [normalb]. rewrite andb_true_iff. intros [Hhd Htl].
  specialize (IH Htl). cbn [norm_go]. destruct (eqb c star) eqn:Es.
  - apply eqb_spec in Es. subst c. destruct p as [|d p']; [reflexivity|].
    apply andb_true_iff in Hhd. destruct Hhd as [H1 H2]. apply negb_true_iff in H1, H2.
    cbn [norm_go] in IH |- *. rewrite H1, H2 in IH |- *. cbn [pre app] in IH |- *. rewrite IH. reflexivity.
  - destruct (eqb c qm) eqn:Eq; cbn [pre app]; rewrite IH; reflexivity.
Qed.
(* the fixed points of [norm] are exactly the normal patterns *)
Theorem norm_fixed_iff p : norm p = p <-> normal p.
Proof.
  split.
  - intros H. rewrite <- H. apply norm_is_normal.
  - intros H. apply normalb_fixed. apply normalb_spec. exact H.
Qed.

Theorem norm_idempotent p : norm (norm p) = norm p.
Proof. apply norm_fixed_iff, norm_is_normal. Qed.

(* norm touches stars only: the non-star symbols (literals AND question marks), in order, are unchanged;
   in particular the literal characters, in order, are unchanged; and nothing gets longer *)
Definition lits (p : list A) : list A := filter (fun c => negb (eqb c star) && negb (eqb c qm)) p.

Lemma norm_go_filter (f : A -> bool) : f star = false -> forall p pend, filter f (norm_go pend p) = filter f p.
Proof.
  intros Hf. assert (Hpre : forall pend, filter f (pre pend) = []) by (intros []; cbn [pre filter]; rewrite ?Hf; reflexivity).
  induction p as [|c p IH]; intros pend; cbn [norm_go]; [apply Hpre|]. destruct (eqb c star) eqn:Es.
  - apply eqb_spec in Es. subst c. cbn [filter]. rewrite Hf. apply IH.
  - destruct (eqb c qm); [|rewrite filter_app, Hpre]; cbn [app filter]; rewrite IH; reflexivity.
Qed.
Theorem norm_witness p : wit (norm p) = wit p.
Proof. apply norm_go_filter. rewrite eqb_same. reflexivity. Qed.
Theorem norm_lits p : lits (norm p) = lits p.
Proof. apply norm_go_filter. rewrite eqb_same. reflexivity. Qed.

Lemma norm_go_length p : forall pend, length (norm_go pend p) <= length (pre pend) + length p.
Proof.
  induction p as [|c p IH]; intros pend; cbn [norm_go].
  - lia.
  - destruct (eqb c star) eqn:Es.
    + specialize (IH true). cbn [pre length] in IH |- *. lia.
    + destruct (eqb c qm) eqn:Eq.
      * specialize (IH pend). cbn [length]. lia.
      * specialize (IH false). rewrite app_length. cbn [pre length] in IH |- *. lia.
Qed.
Theorem norm_length p : length (norm p) <= length p.
Proof. exact (norm_go_length p false). Qed.
Theorem norm_nonstar p : nonstar (norm p) = nonstar p.
Proof. unfold nonstar. fold (wit (norm p)). fold (wit p). rewrite norm_witness. reflexivity. Qed.

Theorem prefix_law lit s : nowild lit -> (glob (lit ++ [star]) s = true <-> exists r, s = lit ++ r).
Proof.
  intros Hl. rewrite glob_app. setoid_rewrite (glob_lit lit Hl). split.
  - intros (s1 & s2 & Hs & -> & _). eauto.
  - intros (r & Hs). exists lit, r. auto using glob_star_any.
Qed.
Theorem suffix_law lit s : nowild lit -> (glob ([star] ++ lit) s = true <-> exists r, s = r ++ lit).
Proof.
  intros Hl. rewrite glob_app. setoid_rewrite (glob_lit lit Hl). split.
  - intros (s1 & s2 & Hs & _ & ->). eauto.
  - intros (r & Hs). exists r, lit. auto using glob_star_any.
Qed.

(* the case-insensitive matcher: fold both sides, then match.  All laws carry over when the fold neither creates nor
      destroys a wildcard character. *)
Variable fold : A -> A.
Local Notation globci := (glob_match_ci A eqb star qm fold).

Theorem glob_ci_is_folded p s : globci p s = glob (map fold p) (map fold s).
Proof. reflexivity. Qed.
Theorem glob_ci_fold_pattern p s : (forall c, fold (fold c) = fold c) -> globci (map fold p) s = globci p s.
Proof.
  intros Hid. rewrite !glob_ci_is_folded. f_equal. rewrite map_map. apply map_ext. exact Hid.
Qed.

Definition geq_ci (x y : list A) : Prop := forall s, globci x s = globci y s.
Lemma geq_ci_of_geq x y : geq (map fold x) (map fold y) -> geq_ci x y.
Proof. intros H s. rewrite !glob_ci_is_folded. apply H. Qed.

Hypothesis fold_star : forall c, eqb (fold c) star = eqb c star.
Hypothesis fold_qm : forall c, eqb (fold c) qm = eqb c qm.

Lemma fold_star_fixed : fold star = star.
Proof. apply eqb_spec. rewrite fold_star. apply eqb_same. Qed.
Lemma fold_qm_fixed : fold qm = qm.
Proof. apply eqb_spec. rewrite fold_qm. apply eqb_same. Qed.

Lemma map_fold_repeat_star n : map fold (repeat star n) = repeat star n.
Proof. induction n as [|n IH]; [reflexivity|]. cbn [repeat map]. rewrite fold_star_fixed, IH. reflexivity. Qed.
Theorem ci_star_run p q n s : globci (p ++ repeat star (S n) ++ q) s = globci (p ++ [star] ++ q) s.
Proof.
  rewrite !glob_ci_is_folded, !map_app.
  rewrite map_fold_repeat_star. cbn [map]. rewrite fold_star_fixed. apply star_run.
Qed.
Theorem ci_star_star p q s : globci (p ++ [star; star] ++ q) s = globci (p ++ [star] ++ q) s.
Proof. exact (ci_star_run p q 1 s). Qed.
Theorem ci_star_qm_commute p q s : globci (p ++ [star; qm] ++ q) s = globci (p ++ [qm; star] ++ q) s.
Proof.
  rewrite !glob_ci_is_folded, !map_app. cbn [map]. rewrite fold_star_fixed, fold_qm_fixed. apply star_qm_commute.
Qed.

Lemma witness_map_fold p : map fold (wit p) = wit (map fold p).
Proof.
  unfold witness. induction p as [|c p IH]; [reflexivity|]. cbn [map filter]. rewrite fold_star.
  destruct (eqb c star); cbn [negb map]; rewrite IH; reflexivity.
Qed.
Theorem ci_star_qm_is_not_star p q : star <> qm ->
  globci (p ++ [star] ++ q) (wit p ++ wit q) = true /\ globci (p ++ [star; qm] ++ q) (wit p ++ wit q) = false.
Proof.
  intros Hne. rewrite !glob_ci_is_folded, !map_app, !witness_map_fold. cbn [map].
  rewrite fold_star_fixed, fold_qm_fixed. apply star_qm_is_not_star. exact Hne.
Qed.
Theorem ci_min_length p s : globci p s = true -> nonstar p <= length s.
Proof.
  rewrite glob_ci_is_folded. intros H. apply min_length in H. rewrite map_length in H.
  unfold nonstar in *. fold (wit (map fold p)) in H. rewrite <- witness_map_fold, map_length in H. exact H.
Qed.

Lemma no_wild_map_fold lit : nowild lit -> nowild (map fold lit).
Proof.
  unfold no_wild. intros H. apply Forall_forall. intros c Hc. apply in_map_iff in Hc. destruct Hc as (d & <- & Hd).
  rewrite Forall_forall in H. destruct (H d Hd) as [H1 H2]. split; intros Heq.
  - apply H1. apply eqb_spec. rewrite <- fold_star. apply eqb_spec. exact Heq.
  - apply H2. apply eqb_spec. rewrite <- fold_qm. apply eqb_spec. exact Heq.
Qed.
Theorem ci_prefix_law lit s : nowild lit ->
  (globci (lit ++ [star]) s = true <-> exists r, map fold s = map fold lit ++ r).
Proof.
  intros Hl. rewrite glob_ci_is_folded, map_app. cbn [map]. rewrite fold_star_fixed.
  apply prefix_law. apply no_wild_map_fold. exact Hl.
Qed.
Theorem ci_suffix_law lit s : nowild lit ->
  (globci ([star] ++ lit) s = true <-> exists r, map fold s = r ++ map fold lit).
Proof.
  intros Hl. rewrite glob_ci_is_folded, map_app. cbn [map]. rewrite fold_star_fixed.
  apply suffix_law. apply no_wild_map_fold. exact Hl.
Qed.

Lemma map_fold_pre pend : map fold (pre pend) = pre pend.
Proof. destruct pend; cbn [pre map]; [rewrite fold_star_fixed|]; reflexivity. Qed.
Lemma norm_go_map_fold p : forall pend, map fold (norm_go pend p) = norm_go pend (map fold p).
Proof.
  induction p as [|c p IH]; intros pend; cbn [norm_go map].
  - apply map_fold_pre.
  - rewrite fold_star, fold_qm. destruct (eqb c star); [apply IH|].
    destruct (eqb c qm).
    + cbn [map]. rewrite IH. reflexivity.
    + rewrite map_app, map_fold_pre. cbn [map]. rewrite IH. reflexivity.
Qed.
Theorem norm_map_fold p : map fold (norm p) = norm (map fold p).
Proof. apply norm_go_map_fold. Qed.
Theorem ci_norm_correct p s : globci (norm p) s = globci p s.
Proof. rewrite !glob_ci_is_folded, norm_map_fold. apply norm_correct. Qed.

End GlobAlgebra.
