(* IAM wildcard matching: '*' = any run, '?' = exactly one character, anything else itself, whole string.
   Model of regex_from_cf_string(p).match(s) as specified (C08), over ANY alphabet with decidable equality. *)
From Coq Require Import List Bool Arith Lia.
Import ListNotations.

Section Glob.
Variable A : Type.
Variable eqb : A -> A -> bool.
Hypothesis eqb_spec : forall a b, eqb a b = true <-> a = b.
Variable star qm : A.   (* the two wildcard characters *)

Inductive tok := Lit (a : A) | Any1 | AnyStar.

Definition tok_of (c : A) : tok := if eqb c star then AnyStar else if eqb c qm then Any1 else Lit c.
Definition tokens (p : list A) : list tok := map tok_of p.

(* matching as an inductive relation *)
Inductive gm : list tok -> list A -> Prop :=
| gm_nil : gm [] []
| gm_lit a p s : gm p s -> gm (Lit a :: p) (a :: s)
| gm_any a p s : gm p s -> gm (Any1 :: p) (a :: s)
| gm_star0 p s : gm p s -> gm (AnyStar :: p) s
| gm_star1 a p s : gm (AnyStar :: p) s -> gm (AnyStar :: p) (a :: s).

(* matching as segmentation: the candidate is cut into one segment per pattern character *)
Inductive seg_ok : tok -> list A -> Prop :=
| seg_lit a : seg_ok (Lit a) [a]
| seg_any a : seg_ok Any1 [a]
| seg_star s : seg_ok AnyStar s.
Definition glob_spec (p : list tok) (s : list A) : Prop :=
  exists segs, s = concat segs /\ Forall2 seg_ok p segs.

(* The model: structural on the pattern, inner fix on the candidate for '*' *)
Fixpoint gmb (p : list tok) : list A -> bool :=
  match p with
  | [] => fun s => match s with [] => true | _ => false end
  | Lit a :: p' => fun s => match s with c :: s' => eqb a c && gmb p' s' | [] => false end
  | Any1 :: p' => fun s => match s with _ :: s' => gmb p' s' | [] => false end
  | AnyStar :: p' =>
      fix star (s : list A) : bool :=
        gmb p' s || match s with [] => false | _ :: s' => star s' end
  end.

Definition glob_match (p s : list A) : bool := gmb (tokens p) s.

Lemma gmb_ok p : forall s, gmb p s = true <-> gm p s.
Proof.
  induction p as [|t p IH]; intros s.
  - destruct s; simpl; split; intro H; try constructor; try discriminate; inversion H.
  - destruct t.
    + destruct s as [|c s]; simpl.
      * split; [discriminate | intro H; inversion H].
      * rewrite andb_true_iff, eqb_spec, IH. split.
        -- intros [-> H]. now constructor.
        -- intro H; inversion H; subst; auto.
    + destruct s as [|c s]; simpl.
      * split; [discriminate | intro H; inversion H].
      * rewrite IH. split; intro H; [now constructor | now inversion H].
    + induction s as [|c s IHs]; simpl.
      * rewrite orb_false_r, IH. split; intro H; [now constructor|]. inversion H; auto.
      * rewrite orb_true_iff, IH. split.
        -- intros [H|H]; [now apply gm_star0|]. apply gm_star1. apply IHs. exact H.
        -- intro H; inversion H; subst; [now left|]. right. apply IHs. assumption.
Qed.

Lemma gm_star_app p s r : gm p s -> gm (AnyStar :: p) (r ++ s).
Proof. intros H. induction r as [|a r IH]; simpl; [now apply gm_star0 | now apply gm_star1]. Qed.

Lemma gm_spec p s : gm p s <-> glob_spec p s.
Proof.
  unfold glob_spec. split.
  - induction 1 as [|a p s _ (segs & -> & F)|a p s _ (segs & -> & F)|p s _ (segs & -> & F)|a p s _ (segs & -> & F)].
    + exists []. split; [reflexivity | constructor].
    + exists ([a] :: segs). split; [reflexivity | constructor; [constructor | exact F]].
    + exists ([a] :: segs). split; [reflexivity | constructor; [constructor | exact F]].
    + exists ([] :: segs). split; [reflexivity | constructor; [constructor | exact F]].
    + inversion F as [|? seg ? segs' _ F']; subst.
      exists ((a :: seg) :: segs'). split; [reflexivity | constructor; [constructor | exact F']].
  - intros (segs & -> & F). induction F as [|t seg p segs Hseg _ IH]; [constructor|]. cbn [concat].
    destruct Hseg; [now constructor | now constructor | now apply gm_star_app].
Qed.

Theorem glob_correct p s : glob_match p s = true <-> glob_spec (tokens p) s.
Proof. unfold glob_match. rewrite gmb_ok. apply gm_spec. Qed.

(* every character other than the two wildcards matches only itself; the whole string must match *)
Definition no_wild (p : list A) : Prop := Forall (fun c => c <> star /\ c <> qm) p.
Lemma tok_of_lit c : c <> star -> c <> qm -> tok_of c = Lit c.
Proof.
  intros H1 H2. unfold tok_of.
  destruct (eqb c star) eqn:E1; [apply eqb_spec in E1; contradiction|].
  destruct (eqb c qm) eqn:E2; [apply eqb_spec in E2; contradiction|]. reflexivity.
Qed.
Theorem glob_literal p : no_wild p -> forall s, glob_match p s = true <-> s = p.
Proof.
  unfold glob_match. induction 1 as [|c p [Hc1 Hc2] Hp IH]; intros s.
  - destruct s; simpl; split; congruence.
  - simpl. rewrite (tok_of_lit c Hc1 Hc2). destruct s as [|d s]; [split; discriminate|].
    rewrite andb_true_iff, eqb_spec, IH. split; [intros [-> ->]; reflexivity | intros H; inversion H; auto].
Qed.

Theorem glob_star_any s : glob_match [star] s = true.
Proof.
  unfold glob_match. apply gmb_ok. unfold tokens, tok_of. simpl.
  replace (eqb star star) with true by (symmetry; apply eqb_spec; reflexivity).
  rewrite <- (app_nil_r s). apply gm_star_app. constructor.
Qed.
Theorem glob_star_alone s : star <> qm -> glob_match [star] s = true.
Proof. intros _. apply glob_star_any. Qed.
Theorem glob_qm_alone s : star <> qm -> (glob_match [qm] s = true <-> exists c, s = [c]).
Proof.
  intros Hne. unfold glob_match, tokens, tok_of. simpl.
  destruct (eqb qm star) eqn:E1; [apply eqb_spec in E1; congruence|].
  replace (eqb qm qm) with true by (symmetry; apply eqb_spec; reflexivity).
  destruct s as [|c [|d s]]; simpl; split; try discriminate; try (intros [x Hx]; discriminate).
  - intros _. exists c. reflexivity.
  - reflexivity.
Qed.

(* "building a matcher never fails": that [glob_match] is a total function into bool is its TYPE (there is no error branch to
   exclude), so nothing is stated about that.  What can be stated is that every pattern is meaningful -- none is rejected, none
   denotes the empty language: the pattern with its stars removed is a string it matches (every other character, '?' included,
   stands for itself or for any one character), and it is the shortest one. *)
Definition witness (p : list A) : list A := filter (fun c => negb (eqb c star)) p.
Lemma gm_witness p : gm (tokens p) (witness p).
Proof.
  induction p as [|c p IH]; simpl; [constructor|]. unfold tok_of.
  destruct (eqb c star) eqn:Es; simpl; [apply gm_star0; exact IH|].
  destruct (eqb c qm); constructor; exact IH.
Qed.
Theorem glob_satisfiable p : glob_match p (witness p) = true.
Proof. unfold glob_match. apply gmb_ok. apply gm_witness. Qed.
Lemma gm_length p : forall s, gm p s -> length (filter (fun t => match t with AnyStar => false | _ => true end) p) <= length s.
Proof.
  intros s H. induction H as [|a p s H IH|a p s H IH|p s H IH|a p s H IH]; cbn [filter length] in *; lia.
Qed.
Lemma witness_length p :
  length (witness p) = length (filter (fun t => match t with AnyStar => false | _ => true end) (tokens p)).
Proof.
  unfold witness, tokens. induction p as [|c p IH]; [reflexivity|]. cbn [filter map]. unfold tok_of at 1.
  destruct (eqb c star); cbn [negb]; [exact IH|]. destruct (eqb c qm); cbn [length]; f_equal; exact IH.
Qed.
Theorem glob_witness_shortest p s : glob_match p s = true -> length (witness p) <= length s.
Proof. unfold glob_match. rewrite gmb_ok. intros H. apply gm_length in H. rewrite witness_length. exact H. Qed.

(* case-insensitive variant used for action names: fold both sides (that [fold] leaves the two wildcards alone is a
   hypothesis of the laws in GlobAlgebra.v, not needed here).  The instances on code points, [glob_cs] and [glob_ci] with
   [STAR] and [QM], are defined in Run/RState.v. *)
Variable fold : A -> A.
Definition glob_match_ci (p s : list A) : bool := gmb (tokens (map fold p)) (map fold s).
Theorem glob_ci_spec p s : glob_match_ci p s = true <-> glob_spec (tokens (map fold p)) (map fold s).
Proof. unfold glob_match_ci. rewrite gmb_ok. apply gm_spec. Qed.
Theorem glob_ci_fold_invariant p s s' :
  map fold s = map fold s' -> glob_match_ci p s = glob_match_ci p s'.
Proof. unfold glob_match_ci. intros ->. reflexivity. Qed.

End Glob.

Arguments Lit {A}. Arguments Any1 {A}. Arguments AnyStar {A}.
