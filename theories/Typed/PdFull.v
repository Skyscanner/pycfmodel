(* C13 for the modelled resource classes of the LIVE schema: the hand-written rows of PdSpec.SPEC_TABLE (18 classes,
   with their accessor overrides) extended by one row per NEWLY modelled class of gen/PdPaths.v.
   A new class that inherits Resource.policy_documents (no override) is read by the walking accessor, whose semantics does not
   depend on the class: its row is built from the generated paths.  A new class that OVERRIDES the accessor has semantics this
   development cannot know; Typed/PdCheck.v fails on it (fail-closed). *)
From Coq Require Import List Bool Ascii String.
From PV Require Import Base.Str Typed.PdSpec.
From PVGen Require PdPaths.
Import ListNotations.
Local Open Scope string_scope.

Definition gen_row := (string * (bool * list (string * string)))%type.

Definition spec_row (t : string) : option crow := find (fun r => String.eqb (c_type r) t) SPEC_TABLE.
Definition known_type (t : string) : bool := match spec_row t with Some _ => true | None => false end.
Definition walk_row (row : gen_row) : crow :=
  {| c_type := fst row; c_acc := AWalk; c_dedicated := []; c_paths := snd (snd row) |}.
(* the row of a class of the live schema:
   - a known class with an accessor OVERRIDE keeps its hand-written row (its document-capable paths are pinned: the override reads
     particular fields, a path it does not read would hide documents);
   - a known class read by the inherited WALK takes its paths from the live schema (the walk visits every field: a property added
     upstream to such a class, typed as a document or as a generic object, is searched like the others);
   - a class modelled since is a walking row. *)
Definition full_row (row : gen_row) : crow :=
  match spec_row (fst row) with
  | Some r => match c_acc r with
              | AWalk => {| c_type := c_type r; c_acc := AWalk; c_dedicated := c_dedicated r; c_paths := snd (snd row) |}
              | _ => r
              end
  | None => walk_row row
  end.
Definition EXTRA_ROWS : list gen_row := filter (fun row => negb (known_type (fst row))) PdPaths.PD_TABLE.
Definition FULL_TABLE : list crow := map full_row PdPaths.PD_TABLE.

Definition find_row_full (t : str) : option crow := find (fun r => str_eqb (of_string (c_type r)) t) FULL_TABLE.

(* decidable equality of generated rows *)
Definition pair_eqb (a b : string * string) : bool := String.eqb (fst a) (fst b) && String.eqb (snd a) (snd b).
Fixpoint pairs_eqb (a b : list (string * string)) : bool :=
  match a, b with
  | [], [] => true
  | x :: a', y :: b' => pair_eqb x y && pairs_eqb a' b'
  | _, _ => false
  end.

Lemma pair_eqb_eq a b : pair_eqb a b = true -> a = b.
Proof.
  destruct a as [a1 a2], b as [b1 b2]. unfold pair_eqb. simpl. intros H. apply andb_true_iff in H. destruct H as [H1 H2].
  apply String.eqb_eq in H1. apply String.eqb_eq in H2. subst. reflexivity.
Qed.
Lemma pairs_eqb_eq a : forall b, pairs_eqb a b = true -> a = b.
Proof.
  induction a as [|x a IH]; intros [|y b] H; simpl in H; try discriminate; [reflexivity|].
  apply andb_true_iff in H. destruct H as [H1 H2]. apply pair_eqb_eq in H1. apply IH in H2. subst. reflexivity.
Qed.

(* a row describes a generated row: same type string, same document-capable paths, same override flag -- except that for a class
   with NO document-capable path the flag is immaterial (an override that skips the walk of such a class finds what the walk finds:
   nothing; what it returns is tied by the correspondence check of the class) *)
Definition no_paths (r : crow) : bool := match c_paths r with [] => true | _ => false end.
Definition row_compat (r : crow) (row : gen_row) : bool :=
  String.eqb (c_type r) (fst row) && pairs_eqb (c_paths r) (snd (snd row)) &&
  (Bool.eqb (is_override (c_acc r)) (fst (snd row)) || no_paths r).
Lemma row_compat_spec r t ov paths : row_compat r (t, (ov, paths)) = true ->
  c_type r = t /\ c_paths r = paths /\ (ov = is_override (c_acc r) \/ paths = []).
Proof.
  unfold row_compat. simpl. intros H. apply andb_true_iff in H. destruct H as [H H3]. apply andb_true_iff in H. destruct H as [H1 H2].
  apply String.eqb_eq in H1. apply pairs_eqb_eq in H2. split; [exact H1|]. split; [exact H2|].
  apply orb_true_iff in H3. destruct H3 as [H3|H3].
  - left. apply Bool.eqb_prop in H3. symmetry. exact H3.
  - right. rewrite <- H2. unfold no_paths in H3. destruct (c_paths r); [reflexivity|discriminate].
Qed.
