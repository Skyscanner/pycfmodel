(* C15 -- the round-trip theorem for the schema interpreter: validate (dump x) = Ok x for every x that validate produced. *)
From Coq Require Import List Bool NArith ZArith Lia.
From PV Require Import Base.Str Base.ListFacts Base.Value Resolver.Consts Typed.Schema Typed.Dispatch Typed.Leaves Typed.Roundtrip.
From PV Require Policy.PolicyFacts.
Import ListNotations.
Local Open Scope N_scope.

(* [mapM] is [Policy.mapM] written again for this model; its characterisation is proved there *)
Lemma mapM_Forall2 {A B} (f : A -> res B) l : forall ys, mapM f l = Ok ys -> Forall2 (fun a y => f a = Ok y) l ys.
Proof. intros ys. exact (proj1 (PolicyFacts.mapM_ok f l ys)). Qed.
Lemma Forall2_mapM {A B} (f : A -> res B) l ys : Forall2 (fun a y => f a = Ok y) l ys -> mapM f l = Ok ys.
Proof. exact (proj2 (PolicyFacts.mapM_ok f l ys)). Qed.
Lemma mapM_again {A B} (f : A -> res B) (g : B -> A) l ys :
  mapM f l = Ok ys -> (forall a y, f a = Ok y -> f (g y) = Ok y) -> mapM f (map g ys) = Ok ys.
Proof.
  intros H Hf. apply mapM_Forall2 in H. apply Forall2_mapM.
  induction H as [|a y l ys Hy _ IH]; simpl; constructor; [exact (Hf a y Hy) | exact IH].
Qed.
Lemma mapM_err_In {A B} (f : A -> res B) l a e : In a l -> f a = Err e -> exists e', mapM f l = Err e'.
Proof.
  induction l as [|b l IH]; intros Hin He; [contradiction|]. simpl. destruct Hin as [->|Hin].
  - rewrite He. eexists; reflexivity.
  - destruct (f b); cbn [bind]; [|eexists; reflexivity]. destruct (IH Hin He) as [e' ->]. eexists; reflexivity.
Qed.
Lemma nodupb_NoDup l : nodupb l = true <-> NoDup l.
Proof. exact (Value.nodupb_NoDup nodupb eq_refl (fun _ _ => eq_refl) l). Qed.
Lemma lookup_app_r {A} k (l1 l2 : list (str * A)) : lookup k l1 = None -> lookup k (l1 ++ l2) = lookup k l2.
Proof. intros H. rewrite lookup_app, H. reflexivity. Qed.

Definition dumpkv (kv : str * tval) : str * value := (fst kv, dump (snd kv)).
Lemma dump_model c fs ex : dump (XModel c fs ex) = VDict (map dumpkv fs ++ ex).
Proof. reflexivity. Qed.
Lemma dump_null x : dump x = VNull -> x = XLeaf VNull.
Proof. destruct x; simpl; try discriminate. intros ->. reflexivity. Qed.
Lemma keys_dumpkv fs : keys (map dumpkv fs) = keys fs.
Proof. unfold keys. rewrite map_map. reflexivity. Qed.

Definition soft_err (r : res tval) : Prop := exists e, r = Err e /\ is_hard e = false.
Lemma first_ok_inv {A} (f : A -> res tval) ts x :
  first_ok (map f ts) = Ok x ->
  exists pre t post, ts = pre ++ t :: post /\ Forall (fun t' => soft_err (f t')) pre /\ f t = Ok x.
Proof.
  induction ts as [|t ts IH]; simpl; [discriminate|]. destruct (f t) as [y|e] eqn:E.
  - intros H; inv H. exists [], t, ts. split; [reflexivity|]. split; [constructor | exact E].
  - destruct (is_hard e) eqn:Eh; [discriminate|]. intros H. destruct (IH H) as (pre & t0 & post & -> & Hp & Ht).
    exists (t :: pre), t0, post. split; [reflexivity|]. split; [|exact Ht]. constructor; [|exact Hp].
    exists e. split; [exact E | exact Eh].
Qed.
Lemma first_ok_skip {A} (f : A -> res tval) pre t post x :
  Forall (fun t' => soft_err (f t')) pre -> f t = Ok x -> first_ok (map f (pre ++ t :: post)) = Ok x.
Proof.
  induction 1 as [|t' pre (e & He & Hh) _ IH]; intros Ht; simpl; [rewrite Ht; reflexivity|].
  rewrite He, Hh. apply IH. exact Ht.
Qed.

Lemma is_soft_iff r : is_soft r = true <-> soft_err r.
Proof.
  destruct r as [x|e]; simpl; split; try discriminate.
  - intros (e & H & _). discriminate.
  - intros H. exists e. split; [reflexivity | apply negb_true_iff; exact H].
  - intros (e' & H & Hh). inv H. rewrite Hh. reflexivity.
Qed.
Lemma smart_ok_inv {A} (f : A -> res tval) ts x :
  smart_ok (map f ts) = Ok x ->
  exists pre t post, ts = pre ++ t :: post /\ Forall (fun t' => soft_err (f t')) pre /\ f t = Ok x /\
                     Forall (fun t' => soft_err (f t')) post.
Proof.
  induction ts as [|t ts IH]; simpl; [discriminate|]. destruct (f t) as [y|e] eqn:E.
  - destruct (forallb is_soft (map f ts)) eqn:Ea; [|discriminate]. intros H; inv H. exists [], t, ts.
    split; [reflexivity|]. split; [constructor|]. split; [exact E|].
    rewrite forallb_forall in Ea. apply Forall_forall. intros t' Hin. apply is_soft_iff. apply Ea. apply in_map. exact Hin.
  - destruct (is_hard e) eqn:Eh; [discriminate|]. intros H. destruct (IH H) as (pre & t0 & post & -> & Hp & Ht & Hq).
    exists (t :: pre), t0, post. split; [reflexivity|]. split; [|split; assumption]. constructor; [|exact Hp].
    exists e. split; [exact E | exact Eh].
Qed.
Lemma smart_ok_skip {A} (f : A -> res tval) pre t post x :
  Forall (fun t' => soft_err (f t')) pre -> f t = Ok x -> Forall (fun t' => soft_err (f t')) post ->
  smart_ok (map f (pre ++ t :: post)) = Ok x.
Proof.
  induction 1 as [|t' pre (e & He & Hh) _ IH]; intros Ht Hq; simpl.
  - rewrite Ht. replace (forallb is_soft (map f post)) with true; [reflexivity|]. symmetry. apply forallb_forall.
    intros r Hr. apply in_map_iff in Hr. destruct Hr as (t' & <- & Hin). apply is_soft_iff. rewrite Forall_forall in Hq. apply Hq. exact Hin.
  - rewrite He, Hh. apply IH; assumption.
Qed.

(* induction over field types (unions nest through lists) *)
Section FtypeInd.
  Variable P : ftype -> Prop.
  Hypothesis Hleaf : forall k, P (TLeaf k).
  Hypothesis Hlist : forall t, P t -> P (TList t).
  Hypothesis Hdict : forall t, P t -> P (TDictOf t).
  Hypothesis Hlr : forall ts, Forall P ts -> P (TUnionLR ts).
  Hypothesis Hsmart : forall ts, Forall P ts -> P (TUnionSmart ts).
  Hypothesis Hres : forall t, P t -> P (TResolvable t).
  Hypothesis Hmodel : forall n, P (TModel n).
  Hypothesis Hresource : P TResource.
  Hypothesis Hopt : forall t, P t -> P (TOpt t).
  Fixpoint ftype_ind' (t : ftype) : P t :=
    match t with
    | TLeaf k => Hleaf k
    | TList t' => Hlist t' (ftype_ind' t')
    | TDictOf t' => Hdict t' (ftype_ind' t')
    | TUnionLR ts => Hlr ts ((fix go (l : list ftype) : Forall P l :=
                               match l with [] => Forall_nil _ | x :: r => Forall_cons _ (ftype_ind' x) (go r) end) ts)
    | TUnionSmart ts => Hsmart ts ((fix go (l : list ftype) : Forall P l :=
                                     match l with [] => Forall_nil _ | x :: r => Forall_cons _ (ftype_ind' x) (go r) end) ts)
    | TResolvable t' => Hres t' (ftype_ind' t')
    | TModel n => Hmodel n
    | TResource => Hresource
    | TOpt t' => Hopt t' (ftype_ind' t')
    end.
End FtypeInd.

Lemma validate_step_opt modelled leafv bn t v : v <> VNull ->
  validate_step modelled leafv bn (TOpt t) v = validate_step modelled leafv bn t v.
Proof. destruct v; try reflexivity. congruence. Qed.

Section RT.
  Variable S : list cschema.
  Variable modelled : list (str * str).
  Variable leafv : leaf -> value -> res value.
  Notation vstep := (validate_step modelled leafv).
  Notation val := (validate S modelled true leafv).

  Hypothesis Hwf : table_wf S = true.
  Hypothesis Hmod : modelled_wf S modelled = true.
  (* leaves accept their own output, unchanged *)
  Hypothesis Hleaf : forall k v w, leafv k v = Ok w -> leafv k w = Ok w.
  (* the few facts about individual leaves that pycfmodel's own hooks rely on *)
  Hypothesis Hstr_in : forall s, leafv LStr (VStr s) = Ok (VStr s).
  Hypothesis Hstr_out : forall v w, leafv LStr v = Ok w -> exists s, w = VStr s.
  Hypothesis Hstrnum_out : forall v w, leafv LStrNum v = Ok w -> exists s, w = VStr s.
  Hypothesis Hfn : forall v w, leafv LFn v = Ok w -> w = v /\ exists d, v = VDict d.
  Hypothesis Hlit : forall s v w, leafv (LLit s) v = Ok w -> w = VStr s.
  Hypothesis Hdictany : forall d, leafv LDictAny (VDict d) = Ok (VDict d).

  (* union stability for a validator [vf].  Left-to-right mode: the member that produced x is again the FIRST to accept dump x
     (the members before it, which refused v, refuse dump x).  Smart mode: it is again the ONLY one (all the others, which
     refused v, refuse dump x). *)
  Definition stable_lr (vf : ftype -> value -> res tval) (ts : list ftype) : Prop :=
    forall pre t post v x, ts = pre ++ t :: post ->
      Forall (fun t' => soft_err (vf t' v)) pre -> vf t v = Ok x ->
      Forall (fun t' => soft_err (vf t' (dump x))) pre.
  Definition stable_smart (vf : ftype -> value -> res tval) (ts : list ftype) : Prop :=
    forall pre t post v x, ts = pre ++ t :: post ->
      Forall (fun t' => soft_err (vf t' v)) pre -> vf t v = Ok x -> Forall (fun t' => soft_err (vf t' v)) post ->
      Forall (fun t' => soft_err (vf t' (dump x))) pre /\ Forall (fun t' => soft_err (vf t' (dump x))) post.
  Definition stable_for (vf : ftype -> value -> res tval) (u : bool * list ftype) : Prop :=
    if fst u then stable_smart vf (snd u) else stable_lr vf (snd u).

  (* Resolvable[t]: t accepts, or t refuses and FunctionDict accepts *)
  Lemma resolvable_inv bn t v x : vstep bn (TResolvable t) v = Ok x ->
    vstep bn t v = Ok x \/ (soft_err (vstep bn t v) /\ exists w, leafv LFn v = Ok w /\ x = XLeaf w).
  Proof.
    cbn [validate_step first_ok]. destruct (vstep bn t v) as [y|e]; [intros H; left; exact H|].
    destruct (is_hard e) eqn:Eh; [discriminate|]. destruct (leafv LFn v) as [w|e'] eqn:Ef; cbn [bind]; [|destruct (is_hard e'); discriminate].
    intros H; inv H. right. split; [exists e; split; [reflexivity | exact Eh] | exists w; split; reflexivity].
  Qed.

  (* the structure of one annotation, model classes abstract *)
  Section Step.
    Variable bn : str -> value -> res tval.
    Notation vs := (vstep bn).
    Hypothesis Hbn : forall name v x, bn name v = Ok x -> bn name (dump x) = Ok x.
    Hypothesis Hbn_type : forall s c d x, class_of modelled s = Some c -> type_of d = TyStr s -> bn c (VDict d) = Ok x ->
      exists D, dump x = VDict D /\ type_of D = TyStr s.
    Hypothesis Hbn_generic : forall d x, bn GENERIC (VDict d) = Ok x ->
      exists D, dump x = VDict D /\
        match type_of d with
        | TyStr s => class_of modelled s = None /\ type_of D = TyStr s
        | TyMissing => type_of D = TyMissing
        | TyOther => False
        end.

    Lemma step_roundtrip : forall t, (forall ts, In ts (unions_of t) -> stable_for vs ts) ->
      forall v x, vs t v = Ok x -> vs t (dump x) = Ok x.
    Proof.
      induction t as [k|t IHt|t IHt|ts IHts|ts IHts|t IHt|name| |t IHt] using ftype_ind'; intros Hcov v x H.
      - (* leaf *) cbn [validate_step] in *. destruct (leafv k v) as [w|] eqn:E; cbn [bind] in H; [|discriminate]. inv H.
        cbn [dump]. rewrite (Hleaf _ _ _ E). reflexivity.
      - (* list *) cbn [validate_step] in H. destruct v; try discriminate.
        destruct (mapM (vs t) l) as [xs|] eqn:E; cbn [bind] in H; [|discriminate]. inv H.
        cbn [dump validate_step]. rewrite (mapM_again (vs t) dump l xs E (IHt Hcov)). reflexivity.
      - (* dict *) cbn [validate_step] in H. destruct v; try discriminate.
        set (g := fun kv : str * value => x <- vs t (snd kv) ;; Ok (fst kv, x)) in *.
        destruct (mapM g d) as [xs|] eqn:E; cbn [bind] in H; [|discriminate]. inv H.
        cbn [dump validate_step]. fold g. rewrite (mapM_again g (fun kv => (fst kv, dump (snd kv))) d xs E); [reflexivity|].
        intros a y Hy. unfold g in Hy |- *. destruct (vs t (snd a)) as [xa|] eqn:Ea; cbn [bind] in Hy; [|discriminate]. inv Hy.
        cbn [fst snd]. rewrite (IHt Hcov _ _ Ea). reflexivity.
      - (* left-to-right union *) cbn [validate_step] in *.
        destruct (first_ok_inv (fun t' => vs t' v) ts x H) as (pre & t0 & post & -> & Hpre & Ht0).
        apply first_ok_skip.
        + exact (Hcov (false, pre ++ t0 :: post) (or_introl eq_refl) pre t0 post v x eq_refl Hpre Ht0).
        + rewrite Forall_forall in IHts. refine (IHts t0 _ _ v x Ht0); [apply in_elt |].
          intros ts' Hin. apply Hcov. right. apply in_flat_map. exists t0. split; [apply in_elt | exact Hin].
      - (* smart union: exactly one member accepts *) cbn [validate_step] in *.
        destruct (smart_ok_inv (fun t' => vs t' v) ts x H) as (pre & t0 & post & -> & Hpre & Ht0 & Hpost).
        destruct (Hcov (true, pre ++ t0 :: post) (or_introl eq_refl) pre t0 post v x eq_refl Hpre Ht0 Hpost) as [S1 S2].
        apply smart_ok_skip; [exact S1 | | exact S2].
        rewrite Forall_forall in IHts. refine (IHts t0 _ _ v x Ht0); [apply in_elt |].
        intros ts' Hin. apply Hcov. right. apply in_flat_map. exists t0. split; [apply in_elt | exact Hin].
      - (* Resolvable *) destruct (resolvable_inv _ _ _ _ H) as [E | [(e & E & Eh) (w & Ef & ->)]]; cbn [validate_step first_ok].
        + rewrite (IHt Hcov _ _ E). reflexivity.
        + destruct (Hfn _ _ Ef) as [-> _]. cbn [dump]. rewrite E, Eh, Ef. reflexivity.
      - (* model class *) cbn [validate_step] in *. exact (Hbn _ _ _ H).
      - (* resource union *) cbn [validate_step] in H. destruct v as [ | | | | | | |d]; try discriminate.
        destruct (type_of d) as [|s|] eqn:Et; [| |discriminate].
        + destruct (Hbn_generic d x H) as (D & HD & HT). rewrite Et in HT. rewrite HD. cbn [validate_step]. rewrite HT.
          rewrite <- HD. exact (Hbn _ _ _ H).
        + destruct (class_of modelled s) as [c|] eqn:Ec.
          * cbn [first_ok] in H. destruct (bn c (VDict d)) as [y|e] eqn:E.
            -- inv H. destruct (Hbn_type s c d x Ec Et E) as (D & HD & HT). rewrite HD. cbn [validate_step]. rewrite HT, Ec.
               cbn [first_ok]. rewrite <- HD. rewrite (Hbn _ _ _ E). reflexivity.
            -- destruct (is_hard e); [discriminate|]. destruct (bn GENERIC (VDict d)) as [y|e'] eqn:Eg; [|destruct (is_hard e'); discriminate].
               inv H. destruct (Hbn_generic d x Eg) as (D & _ & HT). rewrite Et in HT. destruct HT as [HT _]. congruence.
          * destruct (Hbn_generic d x H) as (D & HD & HT). rewrite Et in HT. destruct HT as [Hn HT]. rewrite HD. cbn [validate_step].
            rewrite HT, Hn. rewrite <- HD. exact (Hbn _ _ _ H).
      - (* Optional: when v is not None, TOpt t validates v as t does; the dump of the result is None only if the result is the
           None leaf, which validates to itself, and otherwise TOpt t validates it as t does *)
        destruct v; try (rewrite validate_step_opt in H by discriminate;
          destruct (dump x) eqn:Ed; [apply dump_null in Ed; subst x; reflexivity | rewrite <- Ed; rewrite validate_step_opt by (rewrite Ed; discriminate);
            exact (IHt Hcov _ _ H) ..]).
        cbn [validate_step] in H. inv H. reflexivity.
    Qed.
  End Step.

  (* one model class, its fields validated by [rec] = one level below *)
  (* what a well-formed table says of the fields that carry one of pycfmodel's own validators *)
  Lemma wf_hook f : field_wf f = true ->
    match f_hook f with
    | HNone => True
    | HEffect => f_type f = TResolvable TStr
    | HTagValue => f_type f = TResolvable TStrNum
    | HCheckType => f_type f = TOpt TStr
    end.
  Proof.
    unfold field_wf. intros W. apply andb_true_iff in W. destruct W as [_ W].
    destruct (f_hook f); [exact I|..]; destruct (f_type f) as [| | | | |t0| | |t0]; try discriminate;
      destruct t0 as [k0| | | | | | | |]; try discriminate; destruct k0; try discriminate; reflexivity.
  Qed.
  Lemma wf_dnone f : field_wf f = true -> f_default f = DNone -> exists t, f_type f = TOpt t.
  Proof.
    unfold field_wf. intros W E. rewrite E in W. apply andb_true_iff in W. destruct W as [W1 W2].
    destruct (f_type f); try discriminate. eexists; reflexivity.
  Qed.

  Section Model.
    Variable bn' : str -> value -> res tval.
    Notation rec := (vstep bn').
    Hypothesis Hrec : forall t, (forall ts, In ts (unions_of t) -> stable_for rec ts) ->
                                forall v x, rec t v = Ok x -> rec t (dump x) = Ok x.
    Hypothesis Hst : forall ts, In ts (unions_of_table S) -> stable_for rec ts.
    Notation vf := (validate_field modelled true rec).

    Lemma find_class_In name c : find_class S name = Some c -> In c S /\ c_name c = name.
    Proof.
      unfold find_class. intros H. apply find_some in H. destruct H as [H1 H2]. apply str_eqb_spec in H2. split; assumption.
    Qed.
    Lemma class_wf_of c : In c S -> class_wf c = true.
    Proof. intros H. unfold table_wf in Hwf. rewrite forallb_forall in Hwf. apply Hwf. exact H. Qed.

    Variable c : cschema.
    Hypothesis Hc : In c S.

    Lemma field_covered f : In f (c_fields c) -> forall ts, In ts (unions_of (f_type f)) -> stable_for rec ts.
    Proof.
      intros Hf ts Hts. apply Hst. unfold unions_of_table. apply in_flat_map. exists c. split; [exact Hc|].
      apply in_flat_map. exists f. split; assumption.
    Qed.
    Lemma names_nodup : NoDup (map f_name (c_fields c)).
    Proof.
      pose proof (class_wf_of c Hc) as W. unfold class_wf in W. apply andb_true_iff in W. destruct W as [W _].
      apply andb_true_iff in W. destruct W as [W _]. apply nodupb_NoDup. exact W.
    Qed.
    Lemma field_wf_of f : In f (c_fields c) -> field_wf f = true.
    Proof.
      intros Hf. pose proof (class_wf_of c Hc) as W. unfold class_wf in W. apply andb_true_iff in W. destruct W as [W _].
      apply andb_true_iff in W. destruct W as [_ W]. rewrite forallb_forall in W. apply W. exact Hf.
    Qed.

    Lemma vf_name d f y : vf d f = Ok y -> fst y = f_name f.
    Proof.
      unfold validate_field. destruct (lookup (f_name f) d).
      - intros H. bind_inv. inv H. reflexivity.
      - destruct (f_default f); intros H; inv H; reflexivity.
    Qed.

    Lemma res_leaf_inv k v x : rec (TResolvable (TLeaf k)) v = Ok x ->
      exists w, x = XLeaf w /\ (leafv k v = Ok w \/ ((exists e, leafv k v = Err e) /\ leafv LFn v = Ok w)).
    Proof.
      cbn [validate_step first_ok]. destruct (leafv k v) as [w|e] eqn:E; cbn [bind].
      - intros H; inv H. exists w. split; [reflexivity | left; reflexivity].
      - destruct (is_hard e); [discriminate|]. destruct (leafv LFn v) as [w|e'] eqn:Ef; cbn [bind]; [|destruct (is_hard e'); discriminate].
        intros H; inv H. exists w. split; [reflexivity|]. right. split; [eexists; reflexivity | reflexivity].
    Qed.
    Lemma res_leaf_ok k w : leafv k w = Ok w -> rec (TResolvable (TLeaf k)) w = Ok (XLeaf w).
    Proof. intros H. cbn [validate_step first_ok]. rewrite H. reflexivity. Qed.

    (* validating the dumped value of a field gives the field's value back *)
    Lemma field_again d D f xf :
      In f (c_fields c) -> vf d f = Ok (f_name f, xf) -> lookup (f_name f) D = Some (dump xf) -> vf D f = Ok (f_name f, xf).
    Proof.
      intros Hf H HD. pose proof (field_wf_of f Hf) as W. pose proof (field_covered f Hf) as Hcov.
      unfold validate_field in *. rewrite HD. destruct (lookup (f_name f) d) as [v|] eqn:El.
      - (* the field was given *)
        destruct (before_hook modelled true (f_hook f) v) as [v1|] eqn:Eb; cbn [bind] in H; [|discriminate].
        destruct (rec (f_type f) v1) as [x0|] eqn:Er; cbn [bind] in H; [|discriminate].
        destruct (after_hook (f_hook f) x0) as [x1|] eqn:Ea; cbn [bind] in H; [|discriminate]. inv H.
        destruct (f_hook f) eqn:Eh.
        + (* no hook *) cbn [before_hook after_hook] in *. inv Eb. assert (xf = x0) by (destruct x0; inv Ea; reflexivity). subst xf.
          cbn [bind]. rewrite (Hrec _ Hcov _ _ Er). cbn [bind]. reflexivity.
        + (* Effect *) pose proof (wf_hook f W) as ET. rewrite Eh in ET. rewrite ET in *. cbn [before_hook] in *. inv Eb.
          destruct (res_leaf_inv _ _ _ Er) as (w & -> & Hw). cbn [after_hook] in Ea.
          destruct (effect_hook w) as [w'|] eqn:Ee; cbn [bind] in Ea; [|discriminate]. inv Ea. cbn [dump bind].
          destruct Hw as [Hw | [_ Hw]].
          * destruct (Hstr_out _ _ Hw) as [s ->]. cbn [effect_hook] in Ee.
            destruct (Policy.effect_store s) as [t|] eqn:Es; cbn [bind] in Ee; [|discriminate]. inv Ee.
            rewrite (res_leaf_ok LStr (VStr t) (Hstr_in t)). cbn [bind after_hook effect_hook].
            rewrite (PolicyFacts.effect_store_idem s t Es). reflexivity.
          * destruct (Hfn _ _ Hw) as [-> [dd ->]]. cbn [effect_hook] in Ee. inv Ee. rewrite Er. cbn [bind after_hook effect_hook]. reflexivity.
        + (* Tag.Value *) pose proof (wf_hook f W) as ET. rewrite Eh in ET. rewrite ET in *. cbn [before_hook after_hook] in *. inv Eb. inv Ea.
          destruct (res_leaf_inv _ _ _ Er) as (w & -> & Hw). cbn [dump bind]. destruct Hw as [Hw | [_ Hw]].
          * destruct (Hstrnum_out _ _ Hw) as [s ->]. cbn [tag_value_hook].
            rewrite (res_leaf_ok LStrNum (VStr s) (Hleaf _ _ _ Hw)). reflexivity.
          * destruct (Hfn _ _ Hw) as [-> [dd Edd]]. rewrite Edd in *. cbn [tag_value_hook]. rewrite Er. reflexivity.
        + (* GenericResource.Type *) pose proof (wf_hook f W) as ET. rewrite Eh in ET. rewrite ET in *. cbn [before_hook after_hook] in *. inv Ea.
          unfold check_type in Eb. destruct v as [ | | |s| | | | ]; try discriminate.
          * inv Eb. cbn [validate_step] in Er. inv Er. cbn [dump check_type bind validate_step]. reflexivity.
          * destruct (true && is_modelled modelled s) eqn:Em; [discriminate|]. inv Eb.
            cbn [validate_step] in Er. rewrite Hstr_in in Er. cbn [bind] in Er. inv Er.
            cbn [dump check_type]. rewrite Em. cbn [bind validate_step]. rewrite Hstr_in. reflexivity.
      - (* the field was not given: its default *)
        destruct (f_default f) eqn:Ed; [discriminate| |]; inv H; unfold default_tval; rewrite Ed.
        + (* None *) destruct (wf_dnone f W Ed) as [t ET]. rewrite ET. cbn [dump].
          assert (before_hook modelled true (f_hook f) VNull = Ok VNull) as -> by (destruct (f_hook f); reflexivity).
          cbn [bind validate_step]. assert (after_hook (f_hook f) (XLeaf VNull) = Ok (XLeaf VNull)) as -> by (destruct (f_hook f); reflexivity).
          reflexivity.
        + (* {} *) unfold field_wf in W. rewrite Ed in W. apply andb_true_iff in W. destruct W as [W1 W2].
          destruct (f_type f) as [k0|t0|t0|ts0|ts0|t0|n0| |t0] eqn:ET; try discriminate.
          * destruct k0; try discriminate. destruct (f_hook f); try discriminate. cbn [dump before_hook bind validate_step].
            rewrite Hdictany. reflexivity.
          * destruct (f_hook f); try discriminate. reflexivity.
          * destruct t0 as [k0|t1|t1|ts1|ts1|t1|n1| |t1]; try discriminate.
            -- destruct k0; try discriminate. destruct (f_hook f); try discriminate. cbn [dump before_hook bind validate_step].
               rewrite Hdictany. reflexivity.
            -- destruct (f_hook f); try discriminate. reflexivity.
    Qed.

    Lemma fields_keys d fs : mapM (vf d) (c_fields c) = Ok fs -> keys fs = map f_name (c_fields c).
    Proof.
      intros H. apply mapM_Forall2 in H. unfold keys. induction H as [|f y l ys Hy _ IHl]; simpl; [reflexivity|].
      f_equal; [apply (vf_name _ _ _ Hy) | exact IHl].
    Qed.
    Lemma extras_not_field d k v : In (k, v) (extras_of c d) -> ~ In k (map f_name (c_fields c)).
    Proof. unfold extras_of. intros H C. apply filter_In in H. destruct H as [_ H]. cbn [fst] in H. apply mem_str_In in C. rewrite C in H. discriminate. Qed.
    Lemma extras_idem d : extras_of c (extras_of c d) = extras_of c d.
    Proof.
      unfold extras_of. induction d as [|kv d IH]; simpl; [reflexivity|].
      destruct (negb (mem_str (fst kv) (map f_name (c_fields c)))) eqn:E; simpl; [rewrite E; f_equal; exact IH | exact IH].
    Qed.

    Lemma extras_of_dump fs ex : keys fs = map f_name (c_fields c) -> (forall k v, In (k, v) ex -> ~ In k (map f_name (c_fields c))) ->
      extras_of c (map dumpkv fs ++ ex) = ex.
    Proof.
      intros Hk Hex. unfold extras_of. rewrite filter_app. rewrite filter_none, filter_all; [reflexivity | |].
      - intros [k v] Hin. cbn [fst]. apply negb_true_iff. destruct (mem_str k (map f_name (c_fields c))) eqn:E; [|reflexivity].
        apply mem_str_In in E. exfalso. exact (Hex k v Hin E).
      - intros [k v] Hin. cbn [fst]. apply negb_false_iff. apply mem_str_In. rewrite <- Hk, <- keys_dumpkv. exact (in_map fst _ _ Hin).
    Qed.

    Lemma lookup_dumped fs ex k xf : NoDup (keys fs) -> In (k, xf) fs -> lookup k (map dumpkv fs ++ ex) = Some (dump xf).
    Proof.
      intros Hn Hin. rewrite lookup_app, (lookup_NoDup_In k (dump xf) (map dumpkv fs)); [reflexivity | rewrite keys_dumpkv; exact Hn|].
      apply in_map_iff. exists (k, xf). split; [reflexivity | exact Hin].
    Qed.

    Lemma fields_again d fs ex : mapM (vf d) (c_fields c) = Ok fs -> mapM (vf (map dumpkv fs ++ ex)) (c_fields c) = Ok fs.
    Proof.
      intros H. pose proof (fields_keys d fs H) as Hk. pose proof names_nodup as Hn. rewrite <- Hk in Hn.
      apply mapM_Forall2 in H. apply Forall2_mapM. revert H. apply Forall2_impl_In.
      intros f [k xf] Hf Hy' Hy.
      pose proof (vf_name _ _ _ Hy) as E. cbn [fst] in E. subst k.
      apply field_again with (d := d); [exact Hf | exact Hy | apply lookup_dumped; assumption].
    Qed.

    Lemma hook_again fs ex : keys fs = map f_name (c_fields c) -> (c_extra c = Forbid -> ex = []) ->
      class_hook (c_hook c) (map dumpkv fs ++ ex) = map dumpkv fs ++ ex.
    Proof.
      intros Hk Hex. destruct (c_hook c) eqn:Eh; [reflexivity|]. cbn [class_hook].
      pose proof (class_wf_of c Hc) as W. unfold class_wf in W. rewrite Eh in W. apply andb_true_iff in W. destruct W as [_ W].
      apply andb_true_iff in W. destruct W as [W1 W2]. destruct (c_extra c); try discriminate. rewrite (Hex eq_refl), app_nil_r.
      unfold remove_colon. rewrite <- (map_id (map dumpkv fs)) at 2. apply map_ext_in. intros [k v] Hin. cbn [fst snd]. f_equal.
      apply strip_colons_id. assert (In k (map f_name (c_fields c))) as Hkin by (rewrite <- Hk, <- keys_dumpkv; exact (in_map fst _ _ Hin)).
      apply in_map_iff in Hkin. destruct Hkin as (f & <- & Hf). rewrite forallb_forall in W1. specialize (W1 f Hf). unfold no_colon in W1.
      apply negb_true_iff in W1. exact W1.
    Qed.

    Lemma nodup_again d fs : NoDup (keys d) -> keys fs = map f_name (c_fields c) ->
      forall ex, (ex = [] \/ ex = extras_of c d) -> NoDup (keys (map dumpkv fs ++ ex)).
    Proof.
      intros Hd Hk ex Hex. unfold keys. rewrite map_app. apply NoDup_app.
      - fold (keys (map dumpkv fs)). rewrite keys_dumpkv, Hk. apply names_nodup.
      - destruct Hex as [-> | ->]; [constructor|]. unfold extras_of. apply NoDup_map_filter. exact Hd.
      - intros k Hin1 Hin2. fold (keys (map dumpkv fs)) in Hin1. rewrite keys_dumpkv, Hk in Hin1.
        destruct Hex as [-> | ->]; [contradiction|]. apply in_map_iff in Hin2. destruct Hin2 as ([k' v'] & E & Hin2). cbn [fst] in E. subst k'.
        exact (extras_not_field d k v' Hin2 Hin1).
    Qed.

    (* what validate_model returns *)
    Lemma model_inv v x : validate_model modelled true rec c v = Ok x ->
      exists d0 fs ex, v = VDict d0 /\ x = XModel (c_name c) fs ex /\
        let d := class_hook (c_hook c) d0 in
        NoDup (keys d) /\ mapM (vf d) (c_fields c) = Ok fs /\ (ex = [] \/ ex = extras_of c d) /\ (c_extra c = Forbid -> ex = []) /\
        (c_extra c = Ignore -> ex = []).
    Proof.
      unfold validate_model. destruct v as [ | | | | | | |d0]; try discriminate.
      destruct (nodupb (keys (class_hook (c_hook c) d0))) eqn:En; cbn [negb]; [|discriminate].
      destruct (mapM (vf (class_hook (c_hook c) d0)) (c_fields c)) as [fs|] eqn:Em; cbn [bind]; [|discriminate].
      intros H. exists d0, fs. apply nodupb_NoDup in En.
      destruct (c_extra c) eqn:Ee.
      - destruct (extras_of c (class_hook (c_hook c) d0)) eqn:Ex; [|discriminate]. inv H. exists []. repeat split; auto; discriminate.
      - inv H. eexists. repeat split; try reflexivity; auto; discriminate.
      - inv H. exists []. repeat split; auto.
    Qed.

    Theorem model_again v x : validate_model modelled true rec c v = Ok x -> validate_model modelled true rec c (dump x) = Ok x.
    Proof.
      intros H. destruct (model_inv v x H) as (d0 & fs & ex & -> & -> & Hd & Hm & Hex & Hforbid & Hignore). cbn zeta in *.
      pose proof (fields_keys _ _ Hm) as Hk.
      rewrite dump_model. unfold validate_model. rewrite (hook_again fs ex Hk Hforbid).
      pose proof (nodup_again _ fs Hd Hk ex Hex) as Hn. apply nodupb_NoDup in Hn. rewrite Hn. cbn [negb].
      rewrite (fields_again _ fs ex Hm). cbn [bind].
      assert (extras_of c (map dumpkv fs ++ ex) = ex) as ->.
      { apply extras_of_dump; [exact Hk|]. intros k v Hin. destruct Hex as [-> | ->]; [contradiction | eapply extras_not_field; eauto]. }
      destruct (c_extra c) eqn:Ee.
      - rewrite (Hforbid eq_refl). reflexivity.
      - reflexivity.
      - rewrite (Hignore eq_refl). reflexivity.
    Qed.

    (* the Type entry of the dump *)
    Lemma model_type_entry d0 x f : c_hook c = CNone -> find_field (c_fields c) K_Type = Some f ->
      validate_model modelled true rec c (VDict d0) = Ok x ->
      exists D xt, dump x = VDict D /\ vf d0 f = Ok (K_Type, xt) /\ lookup K_Type D = Some (dump xt).
    Proof.
      intros Eh Hf H. destruct (model_inv _ x H) as (d0' & fs & ex & E & -> & Hd & Hm & _). inv E. rewrite Eh in *. cbn [class_hook] in *. cbn zeta in *.
      unfold find_field in Hf. apply find_some in Hf. destruct Hf as [Hf Hname]. apply str_eqb_spec in Hname.
      pose proof (fields_keys _ _ Hm) as Hk. pose proof names_nodup as Hn. rewrite <- Hk in Hn.
      apply mapM_Forall2 in Hm. destruct (Forall2_In_l _ _ _ f Hm Hf) as ([k xt] & Hin & Hy).
      pose proof (vf_name _ _ _ Hy) as E. cbn [fst] in E. subst k. rewrite Hname in *.
      exists (map dumpkv fs ++ ex), xt. split; [reflexivity|]. split; [exact Hy|]. apply lookup_dumped; assumption.
    Qed.
  End Model.

  (* induction on the nesting depth *)
  Definition bn_of (n : nat) : str -> value -> res tval :=
    match n with O => fun _ _ => Err ERecursion | Datatypes.S n' => by_name S modelled true (val n') end.
  Lemma validate_as_step n : val n = vstep (bn_of n).
  Proof. destruct n; reflexivity. Qed.

  (* the unions written in the classes of the table are met below a model class whatever the annotation at the top is; those of
     the top annotation itself are the premise of [roundtrip] *)
  Hypothesis Hunion : forall ts, In ts (unions_of_table S) -> forall n, stable_for (val n) ts.

  Lemma type_field_inv cname f : type_field S cname = Some f ->
    exists cs, find_class S cname = Some cs /\ In cs S /\ c_hook cs = CNone /\ find_field (c_fields cs) K_Type = Some f /\
               In f (c_fields cs) /\ f_name f = K_Type.
  Proof.
    unfold type_field. destruct (find_class S cname) as [cs|] eqn:Ef; [|discriminate]. destruct (c_hook cs) eqn:Eh; [|discriminate].
    intros H. exists cs. destruct (find_class_In _ _ Ef) as [Hin _]. repeat split; auto.
    - unfold find_field in H. apply find_some in H. tauto.
    - unfold find_field in H. apply find_some in H. destruct H as [_ H]. apply str_eqb_spec in H. exact H.
  Qed.
  Lemma type_of_lookup d : type_of d = match lookup K_Type d with None | Some VNull => TyMissing | Some (VStr s) => TyStr s | Some _ => TyOther end.
  Proof. reflexivity. Qed.

  Lemma bn_facts n :
    (forall name v x, bn_of n name v = Ok x -> bn_of n name (dump x) = Ok x) /\
    (forall s c d x, class_of modelled s = Some c -> type_of d = TyStr s -> bn_of n c (VDict d) = Ok x ->
       exists D, dump x = VDict D /\ type_of D = TyStr s) /\
    (forall d x, bn_of n GENERIC (VDict d) = Ok x ->
       exists D, dump x = VDict D /\
         match type_of d with
         | TyStr s => class_of modelled s = None /\ type_of D = TyStr s
         | TyMissing => type_of D = TyMissing
         | TyOther => False
         end).
  Proof.
    induction n as [|n IH]; [repeat split; intros; discriminate|]. destruct IH as (I1 & I2 & I3).
    pose proof (step_roundtrip (bn_of n) I1 I2 I3) as Hrec.
    assert (forall ts, In ts (unions_of_table S) -> stable_for (vstep (bn_of n)) ts) as Hst.
    { intros ts Hts. rewrite <- validate_as_step. apply Hunion. exact Hts. }
    unfold modelled_wf in Hmod. apply andb_true_iff in Hmod. destruct Hmod as [Hm1 Hm2].
    cbn [bn_of]. rewrite validate_as_step. unfold by_name. split; [|split].
    - intros name v x H. destruct (find_class S name) as [cs|] eqn:Ef; [|discriminate].
      destruct (find_class_In _ _ Ef) as [Hin _]. exact (model_again (bn_of n) Hrec Hst cs Hin v x H).
    - (* [modelled_wf]: the class c of a modelled type s declares Type : Literal[s] without hook or default, so the Type entry of
         the dump is the text s again *)
      intros s c d x Hc Ht H. rewrite forallb_forall in Hm1. apply lookup_In in Hc. specialize (Hm1 (s, c) Hc). cbn [fst snd] in Hm1.
      destruct (type_field S c) as [f|] eqn:Etf; [|discriminate]. destruct (type_field_inv _ _ Etf) as (cs & Ef & Hin & Eh & Hff & Hfin & Hname).
      rewrite Ef in H. destruct (model_type_entry (bn_of n) cs Hin d x f Eh Hff H) as (D & xt & HD & Hvf & Hl).
      exists D. split; [exact HD|]. rewrite type_of_lookup, Hl.
      destruct (f_type f) as [k0| | | | | | | | ] eqn:ET; try discriminate. destruct k0; try discriminate.
      destruct (f_hook f) eqn:EH; try discriminate. destruct (f_default f) eqn:ED; try discriminate. apply str_eqb_spec in Hm1. subst s0.
      unfold validate_field in Hvf. rewrite Hname, EH, ET in Hvf. rewrite type_of_lookup in Ht.
      destruct (lookup K_Type d) as [[ | | |s'| | | | ]|]; try discriminate. inv Ht. cbn [before_hook bind validate_step] in Hvf.
      destruct (leafv (LLit s) (VStr s)) as [w|] eqn:El; cbn [bind after_hook] in Hvf; [|discriminate]. inv Hvf.
      rewrite (Hlit _ _ _ El). reflexivity.
    - (* GenericResource declares Type with the check_type hook: it accepts null / absent or an unmodelled string, and dumps it as is *)
      intros d x H. destruct (type_field S GENERIC) as [f|] eqn:Etf; [|discriminate].
      destruct (type_field_inv _ _ Etf) as (cs & Ef & Hin & Eh & Hff & Hfin & Hname). rewrite Ef in H.
      destruct (model_type_entry (bn_of n) cs Hin d x f Eh Hff H) as (D & xt & HD & Hvf & Hl).
      exists D. split; [exact HD|]. rewrite (type_of_lookup D), Hl.
      destruct (f_hook f) eqn:EH; try discriminate. destruct (f_default f) eqn:ED; try discriminate.
      pose proof (wf_hook f (field_wf_of cs Hin f Hfin)) as ET. rewrite EH in ET.
      unfold validate_field in Hvf. rewrite Hname, EH, ET, ED in Hvf. rewrite type_of_lookup.
      destruct (lookup K_Type d) as [v|].
      + cbn [before_hook] in Hvf. unfold check_type in Hvf. destruct v as [ | | |s| | | | ]; try discriminate.
        * cbn [bind validate_step after_hook] in Hvf. inv Hvf. reflexivity.
        * destruct (true && is_modelled modelled s) eqn:Em; [discriminate|]. cbn [bind validate_step] in Hvf. rewrite Hstr_in in Hvf.
          cbn [bind after_hook] in Hvf. inv Hvf. cbn [dump]. split; [|reflexivity].
          cbn [andb] in Em. unfold is_modelled in Em. destruct (class_of modelled s); [discriminate | reflexivity].
      + inv Hvf. unfold default_tval. rewrite ED. reflexivity.
  Qed.

  Theorem roundtrip n t v x :
    (forall ts, In ts (unions_of t) -> forall m, stable_for (val m) ts) ->
    val n t v = Ok x -> val n t (dump x) = Ok x.
  Proof.
    intros Hcov. rewrite validate_as_step. destruct (bn_facts n) as (I1 & I2 & I3).
    apply (step_roundtrip (bn_of n) I1 I2 I3). intros ts Hts. rewrite <- validate_as_step. apply Hcov. exact Hts.
  Qed.
End RT.
