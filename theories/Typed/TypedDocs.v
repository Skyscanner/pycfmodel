(* C13, modelled resource classes: what policy_documents returns for an instance whose Properties hold the given
   (annotated) values, following the class's accessor (PdSpec.SPEC_TABLE). *)
From Coq Require Import List Bool NArith ZArith String.
From PV Require Import Base.Str Base.Value Typed.GValue Typed.Cast Typed.Collect Typed.PdSpec.
Import ListNotations.

(* a schema field typed Resolvable[PolicyDocument] / Resolvable[Policy]: pydantic builds the instance the recogniser names *)
Definition doc_of (g : gvalue) : list pdoc :=
  match g with
  | GDict _ (Some r) => match r_kind r with PkPolicyDocument => [(None, r_doc r)] | _ => [] end
  | _ => []
  end.
Definition policy_of (g : gvalue) : list pdoc :=
  match g with
  | GDict _ (Some r) => match r_kind r with PkPolicy => [(r_name r, r_doc r)] | _ => [] end
  | _ => []
  end.
(* a schema field typed ResolvableGeneric: Generic.model_validate casts every member *)
Definition generic_obj (c : cfg) (g : gvalue) : list pdoc :=
  match g with GDict d _ => resource_docs c d | _ => [] end.
Definition text_of (g : gvalue) : option str := match g with GStr s _ _ => Some s | _ => None end.

Definition SUFFIX_LIST : str := [91; 93]%N.   (* "[]" *)
Definition field_kind (paths : list (string * string)) (f : str) : option (str * bool) :=
  match find (fun pk => str_eqb (of_string (fst pk)) f) paths with
  | Some pk => Some (of_string (snd pk), false)
  | None => match find (fun pk => str_eqb (of_string (fst pk)) (f ++ SUFFIX_LIST)) paths with
            | Some pk => Some (of_string (snd pk), true)
            | None => None
            end
  end.
Definition K_DOC : str := [68; 111; 99]%N.
Definition K_POLICY : str := [80; 111; 108; 105; 99; 121]%N.
Definition K_GENERIC : str := [71; 101; 110; 101; 114; 105; 99]%N.
Definition by_kind (c : cfg) (k : str) (g : gvalue) : list pdoc :=
  if str_eqb k K_DOC then doc_of g
  else if str_eqb k K_POLICY then policy_of g
  else if str_eqb k K_GENERIC then generic_obj c g
  else [].
Definition walk_field (c : cfg) (paths : list (string * string)) (kv : str * gvalue) : list pdoc :=
  match field_kind paths (fst kv) with
  | Some (k, false) => by_kind c k (snd kv)
  | Some (k, true) => match snd kv with GList l => flat_map (by_kind c k) l | _ => [] end
  | None => []
  end.

Definition typed_docs (c : cfg) (r : crow) (props : list (str * gvalue)) : list pdoc :=
  match c_acc r with
  | AWalk => flat_map (walk_field c (c_paths r)) props
  | APolicies f => match lookup (of_string f) props with Some (GList l) => flat_map policy_of l | _ => [] end
  | ADoc f nf =>
      match lookup (of_string f) props with
      | Some g =>
          let nm := match nf with
                    | Some n => match lookup (of_string n) props with Some x => text_of x | None => None end
                    | None => None
                    end in
          map (fun nd => (nm, snd nd)) (doc_of g)
      | None => []
      end
  end.
(* e.g. IAMRole.assume_role_as_optionally_named_policy_document_list *)
Definition dedicated_docs (r : crow) (props : list (str * gvalue)) : list pdoc :=
  flat_map (fun f => match lookup (of_string f) props with Some g => doc_of g | None => [] end) (c_dedicated r).
Definition find_row (t : str) : option crow := find (fun r => str_eqb (of_string (c_type r)) t) SPEC_TABLE.
