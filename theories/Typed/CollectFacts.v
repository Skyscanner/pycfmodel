(* C13 -- what the counting, order, locality and path forms of "every embedded policy document is discoverable, exactly
   once" (Properties/C13.v) are stated with, and the lemmas they share: the positions of a value with their paths, the
   document order on paths, the documents with the path of the position that holds them, what arrays yield.
   Model: [collect] / [resource_docs] over [cast] (Typed/Collect.v, Typed/Cast.v); every statement is for every
   configuration [c] of the cast and every recogniser / leaf annotation unless a hypothesis says otherwise. *)
From Coq Require Import List Bool NArith ZArith Lia Sorted.
From Coq Require String.
From PV Require Typed.Witness.
From PV Require Import Base.Str Base.Value Typed.GValue Typed.Cast Typed.CastFacts Typed.Collect Typed.CastShape.
Import ListNotations.

Definition is_doc (r : recog) : bool := match r_kind r with PkPolicyDocument | PkPolicy => true | _ => false end.
(* a position that holds a discoverable document: no accepted proper ancestor, node recognised as document / wrapper *)
Definition pd_position (c : cfg) (p : bool * gvalue) : bool :=
  negb (fst p) && match node_choice c (snd p) with CProp r => is_doc r | _ => false end.
Definition count_pd_positions (deep : bool) (c : cfg) (g : gvalue) : nat :=
  length (filter (pd_position c) (positions deep c false g)).

Lemma yields_length r : length (yields r) = if is_doc r then 1 else 0.
Proof. unfold yields, is_doc. destruct (r_kind r); reflexivity. Qed.
Lemma yield_at_length c p : length (yield_at c p) = if pd_position c p then 1 else 0.
Proof.
  unfold yield_at, pd_position. destruct (fst p); cbn [negb andb]; [reflexivity|].
  destruct (node_choice c (snd p)); try reflexivity. apply yields_length.
Qed.
Lemma length_flat_map_filter {A B} (f : A -> list B) (p : A -> bool) l :
  (forall x, length (f x) = if p x then 1 else 0) -> length (flat_map f l) = length (filter p l).
Proof.
  intros H. induction l as [|x l IH]; [reflexivity|]. cbn [flat_map filter]. rewrite app_length, H, IH.
  destruct (p x); reflexivity.
Qed.
Lemma embedded_length deep c g : length (embedded deep c g) = count_pd_positions deep c g.
Proof. apply length_flat_map_filter. apply yield_at_length. Qed.

(* positions with their paths *)
Fixpoint positions_p (deep : bool) (c : cfg) (cut : bool) (g : gvalue) : list (path * (bool * gvalue)) :=
  ([], (cut, g)) ::
  let cut' := cut || accepted c g in
  match g with
  | GStr _ (Some j) _ =>
      if deep || negb (is_cnone (choose c j)) then map (under Json) (positions_p deep c cut' j) else []
  | GList l =>
      (fix go (l : list gvalue) (i : nat) : list (path * (bool * gvalue)) :=
         match l with [] => [] | x :: r => map (under (Idx i)) (positions_p deep c cut' x) ++ go r (S i) end) l 0
  | GDict d _ =>
      (fix go (d : list (str * gvalue)) (i : nat) : list (path * (bool * gvalue)) :=
         match d with [] => [] | (k, x) :: r => map (under (Mem i k)) (positions_p deep c cut' x) ++ go r (S i) end) d 0
  | _ => []
  end.
Lemma positions_p_leaf deep c cut g : gleaf g = true -> positions_p deep c cut g = [([], (cut, g))].
Proof. destruct g as [| | | |s [j|] a| |]; try discriminate; reflexivity. Qed.
Lemma positions_p_list deep c cut l :
  positions_p deep c cut (GList l) =
  ([], (cut, GList l)) :: steps (fun i _ => Idx i) (positions_p deep c (cut || accepted c (GList l))) l 0.
Proof. reflexivity. Qed.
Lemma positions_p_dict deep c cut d r :
  positions_p deep c cut (GDict d r) =
  ([], (cut, GDict d r)) ::
  steps (fun i kv => Mem i (fst kv)) (fun kv => positions_p deep c (cut || accepted c (GDict d r)) (snd kv)) d 0.
Proof.
  cbn [positions_p]. f_equal. generalize (cut || accepted c (GDict d r)) as cut', 0.
  induction d as [|[k x] d IH]; intros cut' i; [reflexivity|]. cbn [steps fst snd]. f_equal. apply IH.
Qed.

Lemma map_snd_under {X} s (l : list (path * X)) : map snd (map (under s) l) = map snd l.
Proof. rewrite map_map. reflexivity. Qed.
Lemma map_fst_under {X} s (l : list (path * X)) : map fst (map (under s) l) = map (cons s) (map fst l).
Proof. rewrite !map_map. reflexivity. Qed.
Lemma steps_erase {X Y} st (f : X -> list (path * Y)) l : forall i, map snd (steps st f l i) = flat_map (fun x => map snd (f x)) l.
Proof. induction l as [|x l IH]; intros i; [reflexivity|]. cbn [steps flat_map]. rewrite map_app, map_snd_under, IH. reflexivity. Qed.

(* forgetting the paths gives the enumeration of Typed/Collect.v *)
Lemma positions_p_erase deep c : forall g cut, map snd (positions_p deep c cut g) = positions deep c cut g.
Proof.
  induction g as [g L|s j a IHj|l IHl|d r IHd] using gvalue_ind'; intros cut.
  - rewrite (positions_p_leaf _ _ _ g L). destruct g as [| | | |? [?|] ?| |]; try discriminate; reflexivity.
  - cbn [positions_p positions map]. f_equal. destruct (deep || negb (is_cnone (choose c j))); [|reflexivity].
    rewrite map_snd_under. apply IHj.
  - rewrite positions_p_list. cbn [positions map]. f_equal. rewrite steps_erase. apply flat_map_ext_in.
    rewrite Forall_forall in IHl. intros x Hx. apply IHl. exact Hx.
  - rewrite positions_p_dict. cbn [positions map]. f_equal. rewrite steps_erase. apply flat_map_ext_in.
    rewrite Forall_forall in IHd. intros kv Hx. apply IHd. exact Hx.
Qed.

(* every enumerated path leads, in the input, to the node it is listed with *)
Lemma positions_p_gat deep c : forall g cut p y,
  In (p, y) (positions_p deep c cut g) -> gat g p = Some (snd y).
Proof.
  induction g as [g L|s j a IHj|l IHl|d r IHd] using gvalue_ind'; intros cut p y H.
  - rewrite (positions_p_leaf _ _ _ g L) in H. destruct H as [H|[]]. inversion H. reflexivity.
  - cbn [positions_p] in H. destruct H as [H|H]; [inversion H; reflexivity|].
    destruct (deep || negb (is_cnone (choose c j))); [|contradiction].
    apply in_map_iff in H. destruct H as ([q y'] & E & H). inversion E; subst. cbn [gat gchild]. eapply IHj; eauto.
  - rewrite positions_p_list in H. destruct H as [H|H]; [inversion H; reflexivity|].
    apply steps_in in H. destruct H as (n & x & q & -> & N & Hq). cbn [gat gchild Nat.add]. rewrite N.
    rewrite Forall_forall in IHl. exact (IHl x (nth_error_In l n N) _ _ _ Hq).
  - rewrite positions_p_dict in H. destruct H as [H|H]; [inversion H; reflexivity|].
    apply steps_in in H. destruct H as (n & [k x] & q & -> & N & Hq). cbn [gat gchild Nat.add fst]. rewrite N, str_eqb_refl.
    rewrite Forall_forall in IHd. exact (IHd (k, x) (nth_error_In d n N) _ _ _ Hq).
Qed.

(* document order: a node before its members, the members of a container in the order they are written (pre-order; on
   paths: a proper prefix first, otherwise by the first step in which the paths differ) *)
Definition step_idx (s : step) : nat := match s with Idx i => i | Mem i _ => i | Json => 0 end.
Fixpoint path_ltb (p q : path) : bool :=
  match p, q with
  | [], [] => false
  | [], _ :: _ => true
  | _ :: _, [] => false
  | s :: p', s' :: q' => (step_idx s <? step_idx s') || ((step_idx s =? step_idx s') && path_ltb p' q')
  end.
Definition path_lt (p q : path) : Prop := path_ltb p q = true.

Lemma path_lt_cons s p q : path_lt p q -> path_lt (s :: p) (s :: q).
Proof. unfold path_lt. intros H. cbn [path_ltb]. rewrite Nat.eqb_refl, H. apply orb_true_r. Qed.
Lemma path_lt_step s s' p q : step_idx s < step_idx s' -> path_lt (s :: p) (s' :: q).
Proof. unfold path_lt. intros H. cbn [path_ltb]. apply Nat.ltb_lt in H. rewrite H. reflexivity. Qed.
Lemma path_lt_irrefl p : ~ path_lt p p.
Proof.
  unfold path_lt. induction p as [|s p IH]; cbn [path_ltb]; [discriminate|].
  rewrite Nat.ltb_irrefl, Nat.eqb_refl. cbn [orb andb]. exact IH.
Qed.

Lemma StronglySorted_app' {A} (R : A -> A -> Prop) l1 l2 :
  StronglySorted R l1 -> StronglySorted R l2 -> (forall a b, In a l1 -> In b l2 -> R a b) -> StronglySorted R (l1 ++ l2).
Proof.
  intros S1 S2 Hab. induction S1 as [|a l1 S1 IH Fa]; [exact S2|]. cbn [app]. constructor.
  - apply IH. intros x y Hx Hy. apply Hab; [right; exact Hx|exact Hy].
  - apply Forall_app. split; [exact Fa|]. apply Forall_forall. intros y Hy. apply Hab; [left; reflexivity|exact Hy].
Qed.
Lemma StronglySorted_filter {X} (R : path -> path -> Prop) (p : path * X -> bool) (l : list (path * X)) :
  StronglySorted R (map fst l) -> StronglySorted R (map fst (filter p l)).
Proof.
  induction l as [|x l IH]; intros H; [constructor|]. cbn [map] in H. inversion H as [|? ? Hl Fx]; subst.
  cbn [filter]. destruct (p x); [|apply IH; exact Hl]. cbn [map]. constructor; [apply IH; exact Hl|].
  rewrite Forall_forall in *. intros q Hq. apply Fx. apply in_map_iff in Hq. destruct Hq as (y & E & Hy).
  apply filter_In in Hy. apply in_map_iff. exists y. tauto.
Qed.

Lemma sorted_under {X} s (l : list (path * X)) :
  StronglySorted path_lt (map fst l) -> StronglySorted path_lt (map fst (map (under s) l)).
Proof.
  rewrite map_fst_under. generalize (map fst l). intros ps H. induction H as [|p ps H IH Fp]; [constructor|].
  cbn [map]. constructor; [exact IH|]. rewrite Forall_forall in *. intros q Hq. apply in_map_iff in Hq.
  destruct Hq as (q' & <- & Hq'). apply path_lt_cons. apply Fp. exact Hq'.
Qed.
Lemma sorted_steps {X Y} st (f : X -> list (path * Y)) l :
  (forall i x, step_idx (st i x) = i) -> (forall x, In x l -> StronglySorted path_lt (map fst (f x))) ->
  forall i, StronglySorted path_lt (map fst (steps st f l i)).
Proof.
  intros Hst. induction l as [|x l IH]; intros Hf i; [constructor|]. cbn [steps]. rewrite map_app. apply StronglySorted_app'.
  - apply sorted_under. apply Hf. left; reflexivity.
  - apply IH. intros y Hy. apply Hf. right; exact Hy.
  - intros p q Hp Hq. rewrite map_fst_under in Hp. apply in_map_iff in Hp. destruct Hp as (p' & <- & _).
    apply in_map_iff in Hq. destruct Hq as ([q' y] & E & Hq). cbn [fst] in E. subst q'.
    apply steps_in in Hq. destruct Hq as (n & x' & q'' & -> & _). apply path_lt_step. rewrite !Hst. lia.
Qed.
Lemma sorted_root {X} (y : X) (l : list (path * X)) :
  (forall p z, In (p, z) l -> p <> []) -> StronglySorted path_lt (map fst l) ->
  StronglySorted path_lt (map fst (([], y) :: l)).
Proof.
  intros H S. cbn [map fst]. constructor; [exact S|]. apply Forall_forall. intros p Hp. apply in_map_iff in Hp.
  destruct Hp as ([p' z] & E & Hp). cbn [fst] in E. subst p'. destruct p as [|s p]; [exfalso; eapply H; eauto|reflexivity].
Qed.
Theorem positions_p_sorted deep c : forall g cut, StronglySorted path_lt (map fst (positions_p deep c cut g)).
Proof.
  induction g as [g L|s j a IHj|l IHl|d r IHd] using gvalue_ind'; intros cut.
  - rewrite (positions_p_leaf _ _ _ g L). repeat constructor.
  - cbn [positions_p]. apply sorted_root.
    + intros p z H. destruct (deep || negb (is_cnone (choose c j))); [|contradiction].
      apply in_map_iff in H. destruct H as ([q y'] & E & _). inversion E. discriminate.
    + destruct (deep || negb (is_cnone (choose c j))); [|constructor]. apply sorted_under. apply IHj.
  - rewrite positions_p_list. apply sorted_root.
    + intros p z H. apply steps_in in H. destruct H as (n & x & q & -> & _). discriminate.
    + apply sorted_steps; [reflexivity|]. rewrite Forall_forall in IHl. intros x Hx. apply IHl. exact Hx.
  - rewrite positions_p_dict. apply sorted_root.
    + intros p z H. apply steps_in in H. destruct H as (n & x & q & -> & _). discriminate.
    + apply sorted_steps; [reflexivity|]. rewrite Forall_forall in IHd. intros kv Hx. apply IHd. exact Hx.
Qed.

(* the documents with the path of the position that holds them *)
Definition yield_at_p (c : cfg) (pp : path * (bool * gvalue)) : list (path * pdoc) :=
  map (fun d => (fst pp, d)) (yield_at c (snd pp)).
Definition embedded_p (deep : bool) (c : cfg) (g : gvalue) : list (path * pdoc) :=
  flat_map (yield_at_p c) (positions_p deep c false g).

Lemma embedded_p_docs deep c g : map snd (embedded_p deep c g) = embedded deep c g.
Proof.
  unfold embedded_p, embedded. rewrite <- positions_p_erase.
  induction (positions_p deep c false g) as [|pp l IH]; [reflexivity|].
  cbn [flat_map map]. rewrite map_app, IH. f_equal. unfold yield_at_p. rewrite map_map. apply map_id.
Qed.
Lemma embedded_p_paths deep c g :
  map fst (embedded_p deep c g) = map fst (filter (fun pp => pd_position c (snd pp)) (positions_p deep c false g)).
Proof.
  unfold embedded_p. induction (positions_p deep c false g) as [|pp l IH]; [reflexivity|].
  cbn [flat_map filter]. rewrite map_app, IH. unfold yield_at_p. pose proof (yield_at_length c (snd pp)) as L.
  destruct (pd_position c (snd pp)).
  - destruct (yield_at c (snd pp)) as [|d [|d' ds]]; try discriminate. reflexivity.
  - destruct (yield_at c (snd pp)); [reflexivity|discriminate].
Qed.
(* the documents are collected in document order: their paths are strictly increasing *)
Theorem embedded_p_sorted deep c g : StronglySorted path_lt (map fst (embedded_p deep c g)).
Proof. rewrite embedded_p_paths. apply StronglySorted_filter. apply positions_p_sorted. Qed.
Lemma embedded_p_sound deep c g p d :
  In (p, d) (embedded_p deep c g) -> exists x r, gat g p = Some x /\ node_choice c x = CProp r /\ In d (yields r).
Proof.
  unfold embedded_p. intros H. apply in_flat_map in H. destruct H as ([q [cut x]] & Hq & H).
  unfold yield_at_p in H. apply in_map_iff in H. destruct H as (d' & E & H). cbn [fst snd] in *. inversion E; subst.
  exists x. pose proof (positions_p_gat deep c g false p (cut, x) Hq) as G. cbn [snd] in G.
  unfold yield_at in H. cbn [fst snd] in H. destruct cut; [contradiction|].
  destruct (node_choice c x) as [|r| | |] eqn:N; try contradiction. exists r. auto.
Qed.

(* EXACTLY ONCE and ORDER, path form: the collected list is, document by document, a list of documents found at strictly
   increasing -- hence pairwise distinct -- paths of the input, each path leading to a node the union recognises as a
   document / named wrapper *)
Theorem collected_in_document_order c g :
  exists ps : list (path * pdoc),
    map snd ps = collect (cast c g) /\ StronglySorted path_lt (map fst ps) /\
    forall p d, In (p, d) ps -> exists x r, gat g p = Some x /\ node_choice c x = CProp r /\ In d (yields r).
Proof.
  exists (embedded_p false c g). split; [|split].
  - rewrite embedded_p_docs. symmetry. apply collect_is_embedded_impl.
  - apply embedded_p_sorted.
  - apply embedded_p_sound.
Qed.

(* arrays: a typed array (accepted by an alternative other than the list of strings) holds no document; any other array
   yields what its members yield, in order *)
Definition list_docs (c : cfg) (l : list gvalue) : list pdoc := flat_map (fun x => collect (cast c x)) l.
Lemma list_docs_app c l1 l2 : list_docs c (l1 ++ l2) = list_docs c l1 ++ list_docs c l2.
Proof. apply flat_map_app. Qed.
Theorem collect_list c l :
  collect (cast c (GList l)) = if accepted c (GList l) then [] else list_docs c l.
Proof.
  rewrite collect_is_embedded_impl. unfold embedded_impl. rewrite embedded_list.
  destruct (accepted c (GList l)); [reflexivity|]. apply flat_map_ext_in. intros x _. symmetry. apply collect_is_embedded_impl.
Qed.
(* text that encodes a container is not ALSO read as a boolean / number / date / network: the one coherence the annotations
   of a member need for the array law to hold unconditionally (json.loads gives a container only for text starting with
   a bracket, which no scalar parser accepts) *)
Definition container_text_coherent (x : gvalue) : bool :=
  match x with
  | GStr s (Some (GDict _ _)) a | GStr s (Some (GList _)) a =>
      match bool_literal s, a_int a, a_date a, a_datetime a, a_net a with
      | None, None, None, None, None => true
      | _, _, _, _, _ => false
      end
  | _ => true
  end.
(* a coherent scalar that an alternative other than the string one reads holds no document *)
Lemma coherent_member c b x t :
  container_text_coherent x = true -> b <> BStr -> scalar b x = Some t -> collect (cast c x) = [].
Proof.
  intros Co Hb Sc. destruct (gleaf x) eqn:L; [apply atom_collect, cast_leaf_atom, L|].
  destruct x as [| | | |s [j|] a|l|d r]; try discriminate L; try (apply scalar_inv in Sc; destruct Sc; discriminate).
  rewrite cast_json. destruct (is_cnone (choose c j)); [reflexivity|].
  destruct j as [| | | |s' j' a'|l|d r]; try (apply atom_collect, cast_leaf_atom; reflexivity).
  (* text of a container with a typed reading: excluded by coherence *)
  all: exfalso; cbn [container_text_coherent] in Co;
    destruct (bool_literal s) eqn:B; [discriminate|]; destruct (a_int a) eqn:I; [discriminate|];
    destruct (a_date a) eqn:D; [discriminate|]; destruct (a_datetime a) eqn:T; [discriminate|];
    destruct (a_net a) eqn:N; [discriminate|];
    destruct b; try congruence; cbn in Sc; rewrite ?B, ?I, ?D, ?T, ?N in Sc; discriminate.
Qed.

(* inputs of the nesting Examples of Properties/C13.v (pycfmodel gives the same results on each) *)
Import Typed.Witness String.
Local Open Scope string_scope.
Definition doc_with_extra : gvalue :=
  GDict [(s "Statement", GList [GDict [(s "Sid", text "outer"); (s "Effect", text "Allow")]
                                      (Some {| r_kind := PkStatement; r_dump := s "stmt"; r_name := None; r_doc := VNull |})]);
         (s "Extra", doc_node "inner")]
        (Some {| r_kind := PkPolicyDocument; r_dump := s "doc outer"; r_name := None; r_doc := stmts "outer" |}).
Definition doc_lookalike : gvalue :=
  GDict [(s "Statement",
          GList [GDict [(s "Sid", text "outer"); (s "Effect", text "Allow");
                        (s "Condition", GDict [(s "StringEquals", GDict [(s "aws:x", doc_node "inner")] None)] None)] None])] None.
