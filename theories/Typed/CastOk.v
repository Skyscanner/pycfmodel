(* C18: the decidable reading of "generic property casting preserves values", and the proof that the specified
   casting algorithm (Cast.cast with spec_cfg) satisfies it for every input whose leaf annotations are confirmed. *)
From Coq Require Import List Bool NArith ZArith Lia.
From PV Require Import Base.Str Base.Value Typed.GValue Typed.Cast Typed.CastFacts Typed.Literals Typed.Collect.
Import ListNotations.

Fixpoint forall2b {A B} (f : A -> B -> bool) (l : list A) (m : list B) : bool :=
  match l, m with
  | [], [] => true
  | x :: l', y :: m' => f x y && forall2b f l' m'
  | _, _ => false
  end.

(* the text s may become the typed atom t: t is a literal reading of s that denotes the same thing *)
Definition literal_ok (s : str) (t : tval) : bool :=
  match t with
  | TStr s' => str_eqb s s'
  | TBool b => match bool_literal s with Some b' => Bool.eqb b b' | None => false end
  | TInt z => denotes_int s z
  | TDate r => denotes_date s r
  | TDatetime r => denotes_datetime s r
  | TNet k r => denotes_net s k r
  | _ => false
  end.

(* THE SPEC.  cast_ok g t: "g may be presented as t".
   null/booleans/integers stay themselves; a float stays itself or, when it is a whole number, becomes that integer;
   text stays the same text, or becomes the bool/int/date/timestamp/network it is a literal of, or -- being JSON text --
   whatever the value it encodes may become; arrays keep length and order, members converted under the same rules;
   objects keep their keys in order (Generic), or are a function call kept as written (FunctionDict), or -- when NOT
   empty -- an instance of the property model the recogniser names. *)
Fixpoint cast_ok (c : cfg) (g : gvalue) (t : tval) {struct g} : bool :=
  match g with
  | GNull => match t with TNull => true | _ => false end
  | GBool b _ => match t with TBool b' => Bool.eqb b b' | _ => false end
  | GInt z _ => match t with TInt z' => Z.eqb z z' | _ => false end
  | GFloat x _ => match t with
                  | TFloat x' => str_eqb x x'
                  | TInt z => float_denotes_int x z
                  | _ => false
                  end
  | GStr s j _ =>
      literal_ok s t || match j with Some jv => cast_ok c jv t | None => false end
  | GList l =>
      match t with
      | TList ts =>
          (fix go (l : list gvalue) (ts : list tval) : bool :=
             match l, ts with
             | [], [] => true
             | x :: l', y :: ts' => cast_ok c x y && go l' ts'
             | _, _ => false
             end) l ts
      | _ => false
      end
  | GDict d r =>
      match t with
      | TGeneric d' =>
          (fix go (d : list (str * gvalue)) (d' : list (str * tval)) : bool :=
             match d, d' with
             | [], [] => true
             | (k, x) :: r1, (k', y) :: r2 => str_eqb k k' && cast_ok c x y && go r1 r2
             | _, _ => false
             end) d d'
      | TFn raw => fnb c g && vstrict_eqb raw (strip g)
      | TProp r' =>
          negb (match d with [] => true | _ => false end) &&
          match r with
          | Some r0 => pk_eqb (r_kind r0) (r_kind r') && str_eqb (r_dump r0) (r_dump r')
          | None => false
          end
      | _ => false
      end
  end.

(* the annotations the specified algorithm relies on are confirmed by the checkers *)
Definition opt_ok {A} (o : option A) (p : A -> bool) : bool := match o with Some x => p x | None => true end.
Definition leaf_confirmed (g : gvalue) : bool :=
  match g with
  | GFloat x a => opt_ok (a_int a) (float_denotes_int x)
  | GStr s _ a =>
      (* numeric text never reaches the date / timestamp / network alternatives (guard _not_from_numbers) *)
      opt_ok (a_int a) (denotes_int s) &&
      (a_float a ||
       (opt_ok (a_date a) (denotes_date s) &&
        opt_ok (a_datetime a) (denotes_datetime s) && opt_ok (a_net a) (fun kt => denotes_net s (fst kt) (snd kt))))
  | _ => true
  end.
Fixpoint all_confirmed (g : gvalue) : bool :=
  leaf_confirmed g &&
  match g with
  | GStr _ (Some j) _ => all_confirmed j
  | GList l => forallb all_confirmed l
  | GDict d _ => forallb (fun kv => all_confirmed (snd kv)) d
  | _ => true
  end.

(* evidence: 0 = no typed conversion at this leaf; for an integer or a date read from text, 1 = strict literal, 2 = liberal
   spelling that pydantic accepts; a whole float read as an integer is 2; timestamps, networks and booleans are always 1 *)
Definition liberal_leaf (g : gvalue) (t : tval) : N :=
  match g, t with
  | GStr s _ _, TInt z => if strict_int s z then 1 else 2
  | GStr s _ _, TDate r => if strict_date s r then 1 else 2
  | GStr s _ _, TDatetime _ => 1
  | GStr s _ _, TNet _ _ => 1
  | GStr s _ _, TBool _ => 1
  | GFloat _ _, TInt _ => 2
  | _, _ => 0
  end%N.

Lemma vstrict_eqb_refl : forall v, vstrict_eqb v v = true.
Proof.
  induction v using value_ind'; simpl; auto using Z.eqb_refl, str_eqb_refl, eqb_reflx.
  - destruct k; simpl; apply str_eqb_refl.
  - induction H as [|x l Hx Hl IH]; [reflexivity|]. rewrite Hx. exact IH.
  - induction H as [|[k x] l Hx Hl IH]; [reflexivity|]. simpl in Hx. rewrite str_eqb_refl, Hx. exact IH.
Qed.

Lemma forall2b_map {A B} (f : A -> B -> bool) (h : A -> B) l :
  forall2b f l (map h l) = forallb (fun x => f x (h x)) l.
Proof. induction l; simpl; congruence. Qed.

Lemma cast_ok_list c l ts : cast_ok c (GList l) (TList ts) = forall2b (cast_ok c) l ts.
Proof. simpl. revert ts. induction l as [|x l IH]; intros [|y ts]; simpl; try reflexivity. rewrite IH. reflexivity. Qed.
Lemma cast_ok_generic c d r d' :
  cast_ok c (GDict d r) (TGeneric d') =
  forall2b (fun kx ky => str_eqb (fst kx) (fst ky) && cast_ok c (snd kx) (snd ky)) d d'.
Proof.
  simpl. revert d'. induction d as [|[k x] d IH]; intros [|[k' y] d']; simpl; try reflexivity.
  rewrite IH. reflexivity.
Qed.

Lemma all_confirmed_leaf g : all_confirmed g = true -> leaf_confirmed g = true.
Proof. destruct g; cbn [all_confirmed]; intros H; apply andb_prop in H; tauto. Qed.

Section Spec.
Variable funcs : list str.
Let c := spec_cfg funcs.

(* each alternative on its own only performs conversions the spec allows *)
Lemma scalar_ok b g t :
  guard_item c b g = true -> leaf_confirmed g = true -> scalar b g = Some t -> cast_ok c g t = true.
Proof.
  (* by cases on the alternative and the kind of node: the guard either excludes the node or turns [a_float a] to false for
     text, after which [leaf_confirmed] is the checker's verdict on the one annotation [scalar] reads *)
  intros G L S.
  destruct b, g as [|x a|z a|x a|s j a|l|d r]; simpl in S; try discriminate; simpl in G; try discriminate;
  try (apply negb_true_iff in G; simpl in L; rewrite G in L; simpl in L);
  repeat match type of S with
  | option_map _ ?o = Some _ => let E := fresh "E" in destruct o eqn:E; simpl in S; [|discriminate];
                                 try (simpl in L; rewrite E in L; simpl in L)
  end;
  inversion S; subst; clear S; cbn [cast_ok literal_ok fst snd];
  repeat match goal with E : ?o = Some _ |- context [?o] => rewrite E end;
  rewrite ?eqb_reflx, ?Z.eqb_refl, ?str_eqb_refl; try reflexivity;
  repeat match goal with H : _ && _ = true |- _ => apply andb_prop in H; destruct H end;
  repeat match goal with H : opt_ok (Some _) _ = true |- _ => cbn [opt_ok] in H end;
  repeat match goal with H : ?x = true |- context [?x] => rewrite H end; try reflexivity.
Qed.

(* the members of a node as the cast leaves them *)
Definition members_of (ch : choice) (g : gvalue) : list tval :=
  match g with GList l => list_members c ch l (map (cast c) l) | _ => [] end.

(* whatever the union accepts is an allowed presentation of the node (given that of its members) *)
Lemma union_ok g fallback :
  leaf_confirmed g = true ->
  (forall x, (match g with GList l => In x l | _ => False end) -> leaf_confirmed x = true /\ cast_ok c x (cast c x) = true) ->
  choose c g <> CNone ->
  cast_ok c g (finish (choose c g) (strip g) (members_of (choose c g) g) fallback) = true.
Proof.
  intros L IHm NN. pose proof (choose_spec c g) as S.
  destruct (choose c g) as [|r|t|b|] eqn:E; cbn [finish]; [| | | |congruence].
  - destruct (fnb_dict c g S) as (k & x & r & ->). cbn [cast_ok]. rewrite S, vstrict_eqb_refl. reflexivity.
  - destruct S as (d & -> & D). cbn [cast_ok]. rewrite str_eqb_refl, (proj2 (pk_eqb_spec _ _) eq_refl).
    destruct d; [contradiction (D eq_refl); reflexivity|reflexivity].
  - destruct S as (b & G & Sc). exact (scalar_ok b g t G L Sc).
  - destruct S as (l & -> & _).
    replace (TList (members_of (CList b) (GList l))) with (cast c (GList l)) by (cbn [cast]; rewrite E; reflexivity).
    destruct (cast_list_cases c l) as [[_ ->]|(b' & Hb & E' & ->)]; rewrite cast_ok_list, forall2b_map; apply forallb_forall;
      intros x Hx; destruct (IHm x Hx) as [Lx Ox]; [exact Ox|].
    destruct (typed_member c l b' x E' Hb Hx) as [[G Sc]|[_ ->]]; [exact (scalar_ok b' x _ G Lx Sc)|exact Ox].
Qed.

Lemma finish_raw_irrelevant ch raw raw' ms fb : ch <> CFn -> finish ch raw ms fb = finish ch raw' ms fb.
Proof. destruct ch; simpl; congruence. Qed.

(* ... and a rejected node is presented by its fallback *)
Lemma finish_ok g fallback :
  leaf_confirmed g = true ->
  (forall x, (match g with GList l => In x l | _ => False end) -> leaf_confirmed x = true /\ cast_ok c x (cast c x) = true) ->
  cast_ok c g fallback = true ->
  cast_ok c g (finish (choose c g) (strip g) (members_of (choose c g) g) fallback) = true.
Proof.
  intros L IHm F. destruct (is_cnone (choose c g)) eqn:N.
  - destruct (choose c g); try discriminate. exact F.
  - apply union_ok; [exact L|exact IHm|]. intros E. rewrite E in N. discriminate.
Qed.

Lemma leaf_preserves g : gleaf g = true -> leaf_confirmed g = true -> cast_ok c g (cast c g) = true.
Proof.
  intros Lf L. destruct g as [| | | |s [j|] a| |]; try discriminate; [reflexivity|..]; cbn [cast];
    (apply finish_ok; [exact L|intros x []|]); cbn [cast_ok literal_ok];
    rewrite ?eqb_reflx, ?Z.eqb_refl, ?str_eqb_refl; reflexivity.
Qed.

Theorem cast_preserves g : all_confirmed g = true -> cast_ok c g (cast c g) = true.
Proof.
  induction g as [g Lf|s j a IHj|l IHl|d r IHd] using gvalue_ind'; intros A; pose proof (all_confirmed_leaf _ A) as L.
  2-4: cbn [all_confirmed] in A; apply andb_prop in A; destruct A as [_ A].
  - exact (leaf_preserves g Lf L).
  - (* JSON text: the text itself when the union rejects what it encodes, else what the encoded value may become; text in
       JSON text is read as plain text ([leaf_confirmed] does not look at the JSON reading, so A serves for the text without it) *)
    rewrite cast_json. cbn [cast_ok]. apply orb_true_iff.
    destruct (is_cnone (choose c j)); [left; apply str_eqb_refl|right].
    specialize (IHj A). destruct j as [| | | |s' j' a'| |]; try exact IHj.
    pose proof (leaf_preserves (GStr s' None a') eq_refl (all_confirmed_leaf _ A)) as K.
    cbn [cast_ok] in K |- *. rewrite orb_false_r in K. rewrite K. reflexivity.
  - rewrite forallb_forall in A. rewrite Forall_forall in IHl. cbn [cast].
    rewrite (finish_raw_irrelevant _ VNull (strip (GList l))).
    + apply (finish_ok (GList l)); [exact L| |].
      * intros x Hx. split; [apply all_confirmed_leaf|apply IHl]; auto.
      * rewrite cast_ok_list, forall2b_map. apply forallb_forall. intros x Hx. apply IHl; auto.
    + pose proof (choose_list_shape c l) as S. destruct (choose c (GList l)); try contradiction; discriminate.
  - rewrite forallb_forall in A. rewrite Forall_forall in IHd. cbn [cast].
    apply (finish_ok (GDict d r)); [exact L|intros x []|]. rewrite cast_ok_generic, forall2b_map.
    apply forallb_forall. intros [k x] Hx. cbn [fst snd]. rewrite str_eqb_refl. exact (IHd _ Hx (A _ Hx)).
Qed.

Theorem preserves : forall n g, (gsize g < n)%nat -> all_confirmed g = true -> cast_ok c g (cast c g) = true.
Proof. intros n g _. apply cast_preserves. Qed.
End Spec.

(* booleans: for any configuration and any annotations (the boolean alternative is modelled, not an oracle) *)
Lemma choose_bool c g b : choose c g = CScalar (TBool b) -> scalar BBool g = Some (TBool b).
Proof.
  intros E. pose proof (choose_spec c g) as S. rewrite E in S. destruct S as (b0 & _ & S).
  destruct (scalar_inv _ _ _ S) as [_ K]. destruct b0; try contradiction. exact S.
Qed.

Definition no_reading (s : str) (a : sann) : Prop :=
  bool_literal s = None /\ a_int a = None /\ a_date a = None /\ a_datetime a = None /\ a_net a = None /\
  a_abort_date a = false /\ a_abort_datetime a = false.
(* JSON text that no alternative of the union accepts (e.g. an unrecognised object or null) stays the same string *)
Theorem rejected_json_text_same c s j a : choose c j = CNone -> cast c (GStr s (Some j) a) = TStr s.
Proof. intros H. cbn [cast]. rewrite H. reflexivity. Qed.
