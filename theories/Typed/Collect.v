(* C13: Resource.policy_documents / obtain_policy_documents over generically cast properties, and its specification
   as a FILTER over the flat enumeration of all positions of the input. *)
From Coq Require Import List Bool NArith ZArith Lia.
From PV Require Import Base.Str Base.Value Typed.GValue Typed.Cast Typed.CastFacts.
Import ListNotations.

Definition pdoc := (option str * value)%type.      (* (PolicyName or None, statements of the document) *)

(* resource.py obtain_policy_documents: a PolicyDocument instance gives one unnamed document, a Policy instance its
   document under its PolicyName, every other property model (statement, condition, rule, tag) nothing *)
Definition yields (r : recog) : list pdoc :=
  match r_kind r with
  | PkPolicyDocument => [(None, r_doc r)]
  | PkPolicy => [(r_name r, r_doc r)]
  | _ => []
  end.

(* ... lists and Generic objects are searched member by member; anything else is not searched *)
Fixpoint collect (t : tval) : list pdoc :=
  match t with
  | TProp r => yields r
  | TList l => flat_map collect l
  | TGeneric d => flat_map (fun kv => collect (snd kv)) d
  | _ => []
  end.

Definition resource_docs (c : cfg) (props : list (str * gvalue)) : list pdoc :=
  flat_map (fun kv => collect (cast c (snd kv))) props.

(* all_statement_conditions: Condition blocks of the statements of those documents, in order, statements without one skipped *)
Definition stmt_condition (st : value) : list value :=
  match st with
  | VList [_; VNull] => []
  | VList [_; c] => [c]
  | _ => []
  end.
Definition doc_conditions (d : value) : list value :=
  match d with VList sts => flat_map stmt_condition sts | _ => [] end.
Definition conditions_of (ds : list pdoc) : list value := flat_map (fun nd => doc_conditions (snd nd)) ds.
Definition resource_conditions (c : cfg) (props : list (str * gvalue)) : list value :=
  conditions_of (resource_docs c props).

(* what the union answers for the node at a position (a string is looked at through its JSON decoding) *)
Definition node_choice (c : cfg) (g : gvalue) : choice :=
  match g with
  | GStr _ (Some j) _ => choose c j
  | _ => choose c g
  end.

(* a node accepted by an alternative of the union is a leaf of the search (a typed atom, a typed list, a function, a
   property model); the one exception is a list of strings, whose members are cast again one by one *)
Definition accepted (c : cfg) (g : gvalue) : bool :=
  match node_choice c g with
  | CNone => false
  | CList BStr => false
  | _ => true
  end.

(* ALL positions of a value with the flag "some proper ancestor was accepted".
   deep = true : the property's reading -- every JSON-encoded string is entered;
   deep = false: the code's reading -- a JSON-encoded string is entered only when its decoded top-level value is
                 accepted by the union (known finding F16). *)
Fixpoint positions (deep : bool) (c : cfg) (cut : bool) (g : gvalue) : list (bool * gvalue) :=
  (cut, g) ::
  let cut' := cut || accepted c g in
  match g with
  | GStr _ (Some j) _ => if deep || negb (is_cnone (choose c j)) then positions deep c cut' j else []
  | GList l => flat_map (positions deep c cut') l
  | GDict d _ => flat_map (fun kv => positions deep c cut' (snd kv)) d
  | _ => []
  end.

Definition yield_at (c : cfg) (p : bool * gvalue) : list pdoc :=
  if fst p then [] else match node_choice c (snd p) with CProp r => yields r | _ => [] end.

Definition embedded (deep : bool) (c : cfg) (g : gvalue) : list pdoc :=
  flat_map (yield_at c) (positions deep c false g).
Definition embedded_spec := embedded true.
Definition embedded_impl := embedded false.
Definition resource_embedded (deep : bool) (c : cfg) (props : list (str * gvalue)) : list pdoc :=
  flat_map (fun kv => embedded deep c (snd kv)) props.

(* no JSON-encoded string hides a document: a string whose decoded value the union rejects has nothing recognisable inside *)
Fixpoint hidden_free (c : cfg) (g : gvalue) : bool :=
  match g with
  | GStr _ (Some j) _ =>
      if is_cnone (choose c j) then match embedded true c j with [] => true | _ => false end else hidden_free c j
  | GList l => forallb (hidden_free c) l
  | GDict d _ => forallb (fun kv => hidden_free c (snd kv)) d
  | _ => true
  end.

Lemma atom_collect t : atom t = true -> collect t = [].
Proof. destruct t; try discriminate; reflexivity. Qed.

(* below an accepted ancestor nothing is yielded *)
Lemma cut_yields_nothing deep c : forall g, flat_map (yield_at c) (positions deep c true g) = [].
Proof.
  induction g as [g L|s j a IHj|l IHl|d r IHd] using gvalue_ind'; simpl.
  - destruct g as [| | | |s [j|] a| |]; try discriminate; reflexivity.
  - destruct (deep || negb (is_cnone (choose c j))); [exact IHj|reflexivity].
  - rewrite flat_map_flat_map. apply flat_map_nil. apply Forall_forall. exact IHl.
  - rewrite flat_map_flat_map. apply flat_map_nil. apply Forall_forall. exact IHd.
Qed.

(* what a node embeds, in terms of what its members embed *)
Lemma embedded_leaf deep c g : gleaf g = true -> embedded deep c g = [].
Proof.
  intros L. pose proof (choose_leaf c g L) as S.
  destruct g as [| | | |s [j|] a| |]; try discriminate; unfold embedded, yield_at; cbn [positions flat_map fst snd node_choice];
    destruct (choose c _); try contradiction; reflexivity.
Qed.
Lemma embedded_list deep c l :
  embedded deep c (GList l) = if accepted c (GList l) then [] else flat_map (embedded deep c) l.
Proof.
  unfold embedded. cbn [positions flat_map orb]. rewrite flat_map_flat_map.
  assert (yield_at c (false, GList l) = []) as ->.
  { unfold yield_at. cbn [fst snd node_choice]. pose proof (choose_list_shape c l) as S.
    destruct (choose c (GList l)); try contradiction; reflexivity. }
  destruct (accepted c (GList l)); [|reflexivity]. apply flat_map_nil. intros x _. apply cut_yields_nothing.
Qed.
Lemma embedded_dict deep c d r :
  embedded deep c (GDict d r) =
  match choose c (GDict d r) with
  | CProp r' => yields r'
  | CNone => flat_map (fun kv => embedded deep c (snd kv)) d
  | _ => []
  end.
Proof.
  unfold embedded. cbn [positions flat_map orb]. rewrite flat_map_flat_map. unfold accepted, yield_at at 1.
  cbn [fst snd node_choice]. pose proof (choose_dict_shape c d r) as S.
  destruct (choose c (GDict d r)); try contradiction; try reflexivity;
    (rewrite flat_map_nil; [|intros x _; apply cut_yields_nothing]).
  - reflexivity.
  - apply app_nil_r.
Qed.
Lemma embedded_json deep c s j a :
  embedded deep c (GStr s (Some j) a) =
  match choose c j with
  | CProp r => yields r
  | CList BStr => embedded deep c j
  | CNone => if deep then embedded deep c j else []
  | _ => []
  end.
Proof.
  unfold embedded. cbn [positions flat_map orb]. unfold accepted, yield_at at 1. cbn [fst snd node_choice].
  destruct (choose c j) as [|r|t|b|]; cbn [is_cnone negb]; rewrite ?orb_true_r, ?orb_false_r.
  4: destruct b.
  all: rewrite ?cut_yields_nothing, ?app_nil_r; try reflexivity.
  destruct deep; reflexivity.
Qed.

(* THE theorem: cast-then-collect finds exactly the documents at the positions the filter keeps, in order, once each *)
Theorem collect_is_embedded_impl c : forall g, collect (cast c g) = embedded_impl c g.
Proof.
  unfold embedded_impl. induction g as [g L|s j a IHj|l IHl|d r IHd] using gvalue_ind'.
  - rewrite (embedded_leaf _ c g L). apply atom_collect, cast_leaf_atom, L.
  - rewrite embedded_json. destruct (choose c j) as [|r|t|b|] eqn:E.
    1, 2, 3, 5: cbn [cast]; rewrite E; cbn [finish]; try reflexivity.
    + apply atom_collect. exact (choose_scalar_atom c j t E).
    + (* the text of an array one alternative reads: the same as that array *)
      rewrite cast_json, E. pose proof (choose_spec c j) as S. rewrite E in S. destruct S as (l & -> & _).
      cbn [is_cnone]. rewrite IHj, embedded_list. unfold accepted, node_choice. rewrite E. destruct b; reflexivity.
  - rewrite embedded_list. unfold accepted, node_choice. rewrite Forall_forall in IHl.
    destruct (cast_list_cases c l) as [[T ->]|(b & Hb & E & ->)]; cbn [collect]; rewrite flat_map_map.
    + assert (match choose c (GList l) with CNone | CList BStr => false | _ => true end = false) as ->
        by (destruct T as [-> | ->]; reflexivity).
      apply flat_map_ext_in. exact IHl.
    + rewrite E. assert (match b with BStr => false | _ => true end = true) as -> by (destruct b; congruence).
      apply flat_map_nil. intros x Hx. destruct (typed_member c l b x E Hb Hx) as [[_ Sc]|[F ->]].
      * apply atom_collect. exact (scalar_atom _ _ _ Sc).
      * rewrite (cast_fn c x F). reflexivity.
  - rewrite embedded_dict. cbn [cast]. pose proof (choose_dict_shape c d r) as S.
    destruct (choose c (GDict d r)); try contradiction; cbn [finish collect]; try reflexivity.
    rewrite flat_map_map. apply flat_map_ext_in. rewrite Forall_forall in IHd. intros [k x] Hx. exact (IHd _ Hx).
Qed.

(* where no JSON string hides a document the code's reading and the property's reading enumerate the same documents *)
Lemma embedded_deep_shallow c : forall g, hidden_free c g = true -> embedded true c g = embedded false c g.
Proof.
  induction g as [g L|s j a IHj|l IHl|d r IHd] using gvalue_ind'; intros Hf; cbn [hidden_free] in Hf.
  - rewrite !embedded_leaf by exact L. reflexivity.
  - rewrite !embedded_json. destruct (choose c j) as [| | |b|]; cbn [is_cnone] in Hf; try reflexivity.
    + destruct b; try reflexivity. exact (IHj Hf).
    + destruct (embedded true c j); [reflexivity|discriminate].
  - rewrite !embedded_list. destruct (accepted c (GList l)); [reflexivity|]. apply flat_map_ext_in.
    rewrite forallb_forall in Hf. rewrite Forall_forall in IHl. intros x Hx. exact (IHl x Hx (Hf x Hx)).
  - rewrite !embedded_dict. destruct (choose c (GDict d r)); try reflexivity. apply flat_map_ext_in.
    rewrite forallb_forall in Hf. rewrite Forall_forall in IHd. intros kv Hx. exact (IHd kv Hx (Hf kv Hx)).
Qed.

Theorem exactly_once_spec c g : hidden_free c g = true -> collect (cast c g) = embedded_spec c g.
Proof. intros H. rewrite collect_is_embedded_impl. symmetry. apply embedded_deep_shallow. exact H. Qed.

(* a recognised wrapper / document at the top of a property *)
Definition K_POLICYNAME : str := [80; 111; 108; 105; 99; 121; 78; 97; 109; 101]%N.
Definition policy_name (d : list (str * gvalue)) : option str :=
  match lookup K_POLICYNAME d with Some (GStr n _ _) => Some n | _ => None end.
(* checker of the name annotation: the recogniser's PolicyName is the text under the key PolicyName *)
Definition name_confirmed (d : list (str * gvalue)) (r : recog) : bool :=
  match r_kind r with
  | PkPolicy => match policy_name d, r_name r with Some n, Some m => str_eqb n m | _, _ => false end
  | _ => true
  end.

(* a recognised node is a leaf of the search, whatever its members hold *)
Theorem recognised_is_leaf c d r r' : choose c (GDict d r) = CProp r' -> collect (cast c (GDict d r)) = yields r'.
Proof. intros E. cbn [cast]. rewrite E. reflexivity. Qed.

Definition has_condition (st : value) : bool :=
  match st with VList [_; VNull] => false | VList [_; _] => true | _ => false end.
Definition the_condition (st : value) : value := match st with VList [_; c] => c | _ => VNull end.
Lemma stmt_condition_filter st :
  stmt_condition st = if has_condition st then [the_condition st] else [].
Proof.
  destruct st as [| | | | | |l|]; try reflexivity.
  destruct l as [|x [|y [|z l]]]; try reflexivity; destruct y; reflexivity.
Qed.
