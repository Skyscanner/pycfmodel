(* C15 -- union stability on the LIVE class table, proved.

   The round-trip theorem of Typed/RoundtripFacts.v asks, for every union written in the class table, that the member that
   produced x be again the first (left-to-right mode) / the only one (smart mode) to accept dump x: [stable_for (val n) u].
   Typed/RoundtripTable.v ([table_roundtrip]) takes this as one hypothesis, [union_first_stable], over all unions of
   gen/Schema.v.  This file discharges it by

     (a) a PROOF, organised as a syntactic classifier [union_ok : bool * list ftype -> bool], its soundness
         [union_ok_sound : union_ok u = true -> forall n, stable_for (val n) u] and the computation
         [TABLE_UNIONS_ok : forallb union_ok TABLE_UNIONS = true], which is re-run against the regenerated table on every
         build (a future union of a shape the lemmas do not cover breaks the build);
     (b) a SMALL set of per-leaf facts about pydantic-core's scalar validators (the oracle [core]), each true of pydantic 2.7
         in lax python mode and each checked at run time on every generated model (harness/props/c15.py):
           core_str_takes_text_or_bytes   str accepts nothing but str and bytes-like input
           core_str_refuses_list / core_int_refuses_list / core_datetime_refuses_list     a list is a ValidationError
           core_str_refuses_dict          a dict is a ValidationError for str
         (next to the three premises of the round-trip theorem: accepts own output, str keeps / yields a str);
     (c) for the two unions that are GENUINELY UNSTABLE when a str leaf is handed bytes-like input (never the case for data
         that comes from JSON / YAML) a residual hypothesis named after the union, which speaks about bytes input only:
           union_int_str_fn_on_bytes      Union[int, str, FunctionDict] (= Resolvable[Union[int, str]]),
                                          delicate value bytearray(b"7"): int refuses a bytearray, str decodes it to "7",
                                          the dump "7" is taken by int -> 7
           union_ip_or_str_on_bytes       ResolvableIPOrStrOrList, delicate value b"10.0.0.0/8": no network validator takes
                                          these ten bytes, str decodes them, the dump "10.0.0.0/8" is an IPv4 network
         Both instabilities are proved below ([int_str_fn_unstable_on_bytes_step], [ip_or_str_unstable_on_bytes_step]) from facts
         that are TRUE of pydantic, so the two residual hypotheses amount to a restriction of the domain: they follow from
         "the oracle never accepts bytes for str" ([residuals_of_text_only]), which is how the runner's instance
         (Typed/RoundtripRun.v core_dumped: EUndefined) behaves.

   Properties/C15.v takes from here: [union_ok_sound] and [union_stability_live] (stability under (b) and (c)),
   [table_roundtrip_live] / [table_roundtrip_template_live] (the round trip under them), [residuals_of_text_only] and
   [table_roundtrip_template_live_text] ((c) replaced by the restriction of the domain), [val_dumped_roundtrip_template] (the
   runner's instance of the oracle: no premise left).

   The facts about pycfmodel's OWN leaves (SemiStrictBool, the network types, validate_binary, Literal, FunctionDict, Tag's
   str-with-number-coercion, Dict / List) are proved from their Gallina definitions in Typed/Leaves.v. *)
From Coq Require Import List Bool NArith ZArith Lia.
From PV Require Import Base.Str Base.ListFacts Base.Value Resolver.Consts.
From PV Require Import Net.Arith Net.NetText Net.IPv4 Net.IPv4Thm Net.IPv6 Net.IPv6Thm.
From PV Require Import Typed.Schema Typed.Dispatch Typed.Leaves Typed.Roundtrip Typed.RoundtripFacts Typed.RoundtripTable.
From PVGen Require Import Schema.
From PV Require Typed.RoundtripRun.
Import ListNotations.

(* soft refusals: a union, in either mode, refuses exactly when every member does *)
Lemma soft_validation : soft_err (Err EValidation).
Proof. exists EValidation. split; reflexivity. Qed.
Lemma soft_not_ok x : ~ soft_err (Ok x).
Proof. intros (e & H & _). discriminate. Qed.
Lemma soft_err_hard e : is_hard e = true -> ~ soft_err (Err e).
Proof. intros Hh (e' & E & Hs). inv E. congruence. Qed.
Lemma first_ok_soft rs : soft_err (first_ok rs) <-> Forall soft_err rs.
Proof.
  induction rs as [|r rs IH]; cbn [first_ok]; [split; [constructor | intros _; apply soft_validation]|].
  rewrite Forall_cons_iff, <- IH. destruct r as [x|e]; [split; [intros H | intros [H _]]; destruct (soft_not_ok _ H)|].
  destruct (is_hard e) eqn:Eh.
  - split; [intros H | intros [H _]]; destruct (soft_err_hard e Eh H).
  - split; [intros H; split; [exists e; split; [reflexivity | exact Eh] | exact H] | intros [_ H]; exact H].
Qed.
Lemma smart_ok_soft rs : soft_err (smart_ok rs) <-> Forall soft_err rs.
Proof.
  induction rs as [|r rs IH]; cbn [smart_ok]; [split; [constructor | intros _; apply soft_validation]|].
  rewrite Forall_cons_iff, <- IH. destruct r as [x|e].
  - split; [|intros [H _]; destruct (soft_not_ok _ H)].
    destruct (forallb is_soft rs); intros H; [destruct (soft_not_ok _ H) | destruct (soft_err_hard EUndefined eq_refl H)].
  - destruct (is_hard e) eqn:Eh.
    + split; [intros H | intros [H _]]; destruct (soft_err_hard e Eh H).
    + split; [intros H; split; [exists e; split; [reflexivity | exact Eh] | exact H] | intros [_ H]; exact H].
Qed.
(* so it refuses w as soon as each member that refused v refuses w *)
Lemma union_refuses (ok : list (res tval) -> res tval) (f g : ftype -> res tval) ts :
  (forall rs, soft_err (ok rs) <-> Forall soft_err rs) ->
  (forall t, In t ts -> soft_err (f t) -> soft_err (g t)) -> soft_err (ok (map f ts)) -> soft_err (ok (map g ts)).
Proof. intros Hok H. rewrite !Hok, !Forall_map, !Forall_forall. intros Hf t Hin. exact (H t Hin (Hf t Hin)). Qed.

(* the text of an IPv6 network is not an IPv4 network: parse4 needs a '.', and print6_full never writes one *)
Lemma written4_dot s r : written4 s = Some r -> In DOT s.
Proof.
  destruct r as [x l]. intros H. apply written4_spec in H. destruct H as [[H _] | (a & m & -> & H & _)].
  - exact (dotted_quad_has_dot _ _ H).
  - apply in_or_app. left. exact (dotted_quad_has_dot _ _ H).
Qed.
Lemma hexchar_not_dot d : hexchar d <> DOT.
Proof. unfold hexchar, DOT. destruct (d <? 10)%N eqn:E; [apply N.ltb_lt in E | apply N.ltb_ge in E]; lia. Qed.
Lemma print6_full_no_dot n : ~ In DOT (print6_full n).
Proof.
  unfold print6_full, print_addr6_full. intros H. apply in_app_or in H. destruct H as [H|[H|H]].
  - unfold groups6 in H. cbn [map join] in H. unfold hex4 in H.
    repeat (apply in_app_or in H; destruct H as [H|H]);
      cbn [In] in H; repeat (destruct H as [H|H]; [first [exact (hexchar_not_dot _ H) | (unfold COLON, DOT in H; lia)]|]); try exact H.
  - unfold SLASH, DOT in H. lia.
  - exact (print_small_no_dot _ H).
Qed.
Lemma parse4_of_net6_text n : parse4 (print6_full n) = Err EValue.
Proof.
  unfold parse4. destruct (written4 (print6_full n)) as [[x l]|] eqn:E; [|reflexivity].
  exfalso. exact (print6_full_no_dot n (written4_dot _ _ E)).
Qed.

(* SHAPES: what the dump of a validated value can look like, as far as the unions of the table need to tell values apart *)
Inductive shape :=
| SStr      (* a str *)
| SBool     (* a bool *)
| SBytes    (* bytes *)
| SList     (* a list *)
| SModel    (* the dump of a model instance whose class declares at least two fields: a dict with at least two entries *)
| SNet4     (* an IPv4Network (carried as its text) *)
| SNet6.    (* an IPv6Network (carried as its exploded text) *)
Definition has_shape (s : shape) (w : value) : Prop :=
  match s with
  | SStr => exists t, w = VStr t
  | SBool => exists b, w = VBool b
  | SBytes => exists b, w = VBytes b
  | SList => exists l, w = VList l
  | SModel => exists D, w = VDict D /\ (2 <= length D)%nat
  | SNet4 => exists n, wf W4 n /\ w = net4_text n
  | SNet6 => exists n, wf W6 n /\ w = net6_text n
  end.
Definition shape_is_list (s : shape) : bool := match s with SList => true | _ => false end.
Definition shape_is_dict (s : shape) : bool := match s with SModel => true | _ => false end.
Definition is_list (w : value) : bool := match w with VList _ => true | _ => false end.
Definition is_dict (w : value) : bool := match w with VDict _ => true | _ => false end.
(* a property of all values of a shape is checked on the form those values have *)
Lemma shape_cases (P : value -> Prop) s :
  match s with
  | SStr => forall t, P (VStr t)
  | SBool => forall b, P (VBool b)
  | SBytes => forall b, P (VBytes b)
  | SList => forall l, P (VList l)
  | SModel => forall D, (2 <= length D)%nat -> P (VDict D)
  | SNet4 => forall n, P (net4_text n)
  | SNet6 => forall n, P (net6_text n)
  end -> forall w, has_shape s w -> P w.
Proof.
  destruct s; cbn [has_shape]; intros H w Hs.
  1-4: destruct Hs as (x & ->); apply H.
  - destruct Hs as (D & -> & HD). exact (H D HD).
  - destruct Hs as (n & _ & ->). apply H.
  - destruct Hs as (n & _ & ->). apply H.
Qed.
Lemma shape_list s : forall w, has_shape s w -> is_list w = shape_is_list s.
Proof. apply shape_cases. destruct s; intros; reflexivity. Qed.
Lemma shape_dict s : forall w, has_shape s w -> is_dict w = shape_is_dict s.
Proof. apply shape_cases. destruct s; intros; reflexivity. Qed.
Lemma shape_not_null s : forall w, has_shape s w -> w <> VNull.
Proof. apply shape_cases. destruct s; intros; discriminate. Qed.


(* which leaf refuses (ValidationError) every value of which shape.  First line: pydantic-core's validators, by the premises
   of the Section below; the others: pycfmodel's own validators, by their definitions *)
Definition leaf_refuses (k : leaf) (s : shape) : bool :=
  match k, s with
  | LStr, SList | LStr, SModel | LInt, SList | LDatetime, SList => true
  | LStrNum, (SBool | SList | SModel | SNet4 | SNet6) => true
  | LSemiBool, (SBytes | SList | SModel | SNet4 | SNet6) => true
  | LNet4, (SList | SModel | SNet6) => true
  | LNet6, (SList | SModel) => true
  | LBinary, (SBool | SList | SModel | SNet4 | SNet6) => true
  | LLit _, (SBool | SBytes | SList | SModel | SNet4 | SNet6) => true
  | LFn, _ => true
  | LDictAny, (SStr | SBool | SBytes | SList | SNet4 | SNet6) => true
  | LListAny, (SStr | SBool | SBytes | SModel | SNet4 | SNet6) => true
  | _, _ => false
  end.
(* the shapes of what a leaf hands out when it does not hand its input back unchanged; None = not known (not needed) *)
Definition leaf_outs (k : leaf) : option (list shape) :=
  match k with
  | LStr | LStrNum => Some [SStr]
  | LSemiBool => Some [SBool]
  | LNet4 => Some [SNet4]
  | LNet6 => Some [SNet6]
  | LBinary => Some [SBytes]
  | LLit _ | LFn | LAny | LDictAny | LListAny => Some []         (* identity leaves *)
  | LInt | LPosInt | LIntOrStr | LBool | LDate | LDatetime | LGeneric => None
  end.

Lemma loose_net4_refuses_net6 n : loose_net4 (net6_text n) = Err EValidation.
Proof. unfold loose_net4, net6_text. rewrite parse4_of_net6_text. reflexivity. Qed.

(* field types: which type refuses every value of which shape, and the shapes of what a type hands out *)
Definition opt_concat {A} (l : list (option (list A))) : option (list A) :=
  fold_right (fun o acc => match o, acc with Some a, Some b => Some (a ++ b) | _, _ => None end) (Some []) l.
Lemma opt_concat_In {A B} (f : B -> option (list A)) ts t : In t ts ->
  forall ss, opt_concat (map f ts) = Some ss -> exists a, f t = Some a /\ incl a ss.
Proof.
  induction ts as [|t' ts IH]; intros Hin ss H; [contradiction|]. cbn [map opt_concat fold_right] in H.
  fold (opt_concat (map f ts)) in H. destruct (f t') as [a'|] eqn:Ea; [|discriminate].
  destruct (opt_concat (map f ts)) as [b|] eqn:Eb; [|discriminate]. inv H. destruct Hin as [->|Hin].
  - exists a'. split; [exact Ea | apply incl_appl; apply incl_refl].
  - destruct (IH Hin b eq_refl) as (a & Ha & Hi). exists a. split; [exact Ha | apply incl_appr; exact Hi].
Qed.

Fixpoint refuses (t : ftype) (s : shape) : bool :=
  match t with
  | TLeaf k => leaf_refuses k s
  | TList _ => negb (shape_is_list s)
  | TDictOf _ => negb (shape_is_dict s)
  | TUnionLR ts | TUnionSmart ts => forallb (fun t' => refuses t' s) ts
  | TResolvable t' => refuses t' s && leaf_refuses LFn s
  | TModel _ | TResource => negb (shape_is_dict s)      (* a model class takes nothing but a dict *)
  | TOpt t' => refuses t' s                              (* no shape is None *)
  end.
Fixpoint outs (S : list cschema) (t : ftype) : option (list shape) :=
  match t with
  | TLeaf k => leaf_outs k
  | TList _ => Some [SList]
  | TUnionLR ts | TUnionSmart ts => opt_concat (map (outs S) ts)
  | TResolvable t' | TOpt t' => outs S t'                (* FunctionDict hands its input back; None stays None *)
  | TModel name => match find_class S name with
                   | Some c => if Nat.leb 2 (length (c_fields c)) then Some [SModel] else None
                   | None => Some []                      (* never validates *)
                   end
  | TDictOf _ | TResource => None
  end.

(* one member of a union against the others; the generic shape argument: every member's outputs are refused by the members
   that refused the input *)
Section Classifier.
  Variable S : list cschema.
  Definition member_ok (others : list ftype) (t : ftype) : bool :=
    match others with
    | [] => true
    | _ => match outs S t with
           | Some ss => forallb (fun s => forallb (fun t' => refuses t' s) others) ss
           | None => false
           end
    end.
  Fixpoint lr_ok (pre l : list ftype) : bool :=
    match l with [] => true | t :: post => member_ok pre t && lr_ok (pre ++ [t]) post end.
  Fixpoint sm_ok (pre l : list ftype) : bool :=
    match l with [] => true | t :: post => member_ok (pre ++ post) t && sm_ok (pre ++ [t]) post end.
  Definition generic_ok (u : bool * list ftype) : bool := if fst u then sm_ok [] (snd u) else lr_ok [] (snd u).
End Classifier.

(* THE TWO UNIONS THAT NEED MORE THAN SHAPES: a str member AFTER members that take some texts (int; the network types).
   On text input the str member hands its input back (dump x = v), so whoever refused v refuses dump x.  What is left is
   bytes-like input, which lax str DECODES: there the dump is a text the earlier members never saw. *)
Definition IPNET : ftype := TUnionLR [TResolvable TNet4; TResolvable TNet6].                 (* ResolvableIPNetwork *)
Definition IP_OR_LIST : ftype := TUnionLR [IPNET; TList IPNET].                              (* ResolvableIPOrList *)
Definition STR_OR_LIST : ftype := TUnionLR [TResolvable TStr; TList (TResolvable TStr)].     (* InstanceOrListOf[Resolvable[str]] *)
Definition U_IP_OR_STR : bool * list ftype := (false, [IP_OR_LIST; STR_OR_LIST]).            (* ResolvableIPOrStrOrList *)
Definition U_INT_STR_FN : bool * list ftype := (false, [TInt; TStr; TFn]).                   (* Resolvable[Union[int, str]] *)
(* bytes where a text or a list of texts is expected *)
Definition holds_bytes (v : value) : Prop := (exists b, v = VBytes b) \/ (exists l b, v = VList l /\ In (VBytes b) l).

(* the two residual hypotheses restrict the DOMAIN: with facts that are true of pydantic both unions are unstable *)
Definition B_7 : list N := [55%N].                                                     (* b"7" / "7" *)
Definition B_NET : list N := [49;48;46;48;46;48;46;48;47;56]%N.                        (* b"10.0.0.0/8" / "10.0.0.0/8" *)
Section Unstable.
  Variable modelled : list (str * str).
  Variable core : leaf -> value -> res value.
  Variable bn : str -> value -> res tval.
  Notation vs := (validate_step modelled (leaf_validate core) bn).
  (* bytearray(b"7"): int refuses a bytearray, str decodes it, and int takes the text "7" *)
  Theorem int_str_fn_unstable_on_bytes_step :
    core LStr (VBytes B_7) = Ok (VStr B_7) -> core LInt (VBytes B_7) = Err EValidation -> core LInt (VStr B_7) = Ok (VInt 7) ->
    ~ stable_for vs U_INT_STR_FN.
  Proof.
    intros H1 H2 H3 Hst. unfold stable_for, U_INT_STR_FN in Hst; cbn [fst snd] in Hst.
    specialize (Hst [TInt] TStr [TFn] (VBytes B_7) (XLeaf (VStr B_7)) eq_refl).
    assert (Forall (fun t' => soft_err (vs t' (dump (XLeaf (VStr B_7))))) [TInt]) as R.
    { apply Hst.
      - constructor; [|constructor]. cbn [validate_step leaf_validate]. rewrite H2. apply soft_validation.
      - cbn [validate_step leaf_validate]. rewrite H1. reflexivity. }
    apply Forall_inv in R. cbn [dump validate_step leaf_validate] in R. rewrite H3 in R. exact (soft_not_ok _ R).
  Qed.
  (* b"10.0.0.0/8": ten bytes are no packed address, str decodes them, and the text is an IPv4 network *)
  Theorem ip_or_str_unstable_on_bytes_step : core LStr (VBytes B_NET) = Ok (VStr B_NET) -> ~ stable_for vs U_IP_OR_STR.
  Proof.
    intros H1 Hst. unfold stable_for, U_IP_OR_STR in Hst; cbn [fst snd] in Hst.
    specialize (Hst [IP_OR_LIST] STR_OR_LIST [] (VBytes B_NET) (XLeaf (VStr B_NET)) eq_refl).
    assert (Forall (fun t' => soft_err (vs t' (dump (XLeaf (VStr B_NET))))) [IP_OR_LIST]) as R.
    { apply Hst.
      - constructor; [|constructor]. replace (vs IP_OR_LIST (VBytes B_NET)) with (@Err tval EValidation) by reflexivity. apply soft_validation.
      - unfold STR_OR_LIST. cbn [validate_step map first_ok leaf_validate]. rewrite H1. reflexivity. }
    apply Forall_inv in R. cbn [dump] in R.
    replace (vs IP_OR_LIST (VStr B_NET)) with (Ok (XLeaf (VTyped KNet4 B_NET))) in R by (vm_compute; reflexivity).
    exact (soft_not_ok _ R).
  Qed.
End Unstable.

(* model classes at nesting depth n, as [generic_ok_sound] below needs them (no union stability is used here) *)
Lemma bn_nondict S modelled leafv n name v w :
  soft_err (bn_of S modelled leafv n name v) -> is_dict w = false -> soft_err (bn_of S modelled leafv n name w).
Proof.
  destruct n as [|n]; cbn [bn_of]; intros (e & He & Hh) Hw.
  - inv He. discriminate.
  - unfold by_name in *. destruct (find_class S name) as [c|]; [|inv He; discriminate].
    destruct w; try discriminate Hw; apply soft_validation.
Qed.
Lemma bn_out S modelled leafv n name v x : bn_of S modelled leafv n name v = Ok x ->
  exists c fs ex, find_class S name = Some c /\ x = XModel (c_name c) fs ex /\ length fs = length (c_fields c).
Proof.
  destruct n as [|n]; cbn [bn_of]; [discriminate|]. unfold by_name. destruct (find_class S name) as [c|]; [|discriminate].
  rewrite validate_as_step. intros H. destruct (model_inv _ _ _ c v x H) as (d0 & fs & ex & _ & -> & _ & Hm & _).
  exists c, fs, ex. split; [reflexivity|]. split; [reflexivity|]. apply mapM_Forall2 in Hm. symmetry. eapply Forall2_length; eauto.
Qed.

(* the list of distinct unions: equality test of field types, dedup keeps every union *)
Lemma leaf_eqb_eq a b : leaf_eqb a b = true -> a = b.
Proof. destruct a, b; try discriminate; try reflexivity. cbn [leaf_eqb]. intros H. apply str_eqb_spec in H. subst. reflexivity. Qed.
Lemma leaf_eqb_refl a : leaf_eqb a a = true.
Proof. destruct a; try reflexivity. apply str_eqb_refl. Qed.
Lemma ftype_eqb_eq : forall a b, ftype_eqb a b = true -> a = b.
Proof.
  induction a as [k|t IHt|t IHt|ts IHts|ts IHts|t IHt|name| |t IHt] using ftype_ind'; intros b; destruct b; try discriminate; cbn [ftype_eqb]; intros H.
  - f_equal. apply leaf_eqb_eq. exact H.
  - f_equal. apply IHt. exact H.
  - f_equal. apply IHt. exact H.
  - f_equal. revert ts0 H. induction IHts as [|x ts Hx _ IH]; intros [|y l] H; try discriminate; [reflexivity|].
    apply andb_true_iff in H. destruct H as [H1 H2]. f_equal; [apply Hx; exact H1 | apply IH; exact H2].
  - f_equal. revert ts0 H. induction IHts as [|x ts Hx _ IH]; intros [|y l] H; try discriminate; [reflexivity|].
    apply andb_true_iff in H. destruct H as [H1 H2]. f_equal; [apply Hx; exact H1 | apply IH; exact H2].
  - f_equal. apply IHt. exact H.
  - f_equal. apply str_eqb_spec. exact H.
  - reflexivity.
  - f_equal. apply IHt. exact H.
Qed.
Lemma ftype_eqb_refl : forall a, ftype_eqb a a = true.
Proof.
  induction a as [k|t IHt|t IHt|ts IHts|ts IHts|t IHt|name| |t IHt] using ftype_ind'; cbn [ftype_eqb]; try assumption; try reflexivity.
  - apply leaf_eqb_refl.
  - induction IHts as [|x ts Hx _ IH]; [reflexivity|]. rewrite Hx. exact IH.
  - induction IHts as [|x ts Hx _ IH]; [reflexivity|]. rewrite Hx. exact IH.
  - apply str_eqb_refl.
Qed.
Lemma as_type_inj u u' : as_type u = as_type u' -> u = u'.
Proof. destruct u as [[|] ts], u' as [[|] ts']; unfold as_type; cbn [fst snd]; intros H; inv H; reflexivity. Qed.
Lemma dedup_keeps l : forall u, In u l -> In u (dedup l).
Proof.
  induction l as [|x r IH]; intros u Hin; [contradiction|]. cbn [dedup].
  destruct (existsb (fun y => ftype_eqb (as_type x) (as_type y)) r) eqn:E.
  - destruct Hin as [<-|Hin]; [|apply IH; exact Hin]. apply existsb_exists in E. destruct E as (y & Hy & Ey).
    apply ftype_eqb_eq in Ey. apply as_type_inj in Ey. subst y. apply IH. exact Hy.
  - destruct Hin as [<-|Hin]; [left; reflexivity | right; apply IH; exact Hin].
Qed.
Theorem table_unions_complete : forall u, In u (unions_of_table CLASSES) -> In u TABLE_UNIONS.
Proof. exact (dedup_keeps _). Qed.

(* THE CLASSIFIER.  A union is covered when the shape argument applies to it, or when it is one of the two unions above *)
Definition is_union (u0 u : bool * list ftype) : bool := ftype_eqb (as_type u) (as_type u0).
Definition union_ok (u : bool * list ftype) : bool := generic_ok CLASSES u || is_union U_INT_STR_FN u || is_union U_IP_OR_STR u.
(* re-proved against the regenerated table on every run *)
Theorem TABLE_UNIONS_ok : forallb union_ok TABLE_UNIONS = true.
Proof. vm_compute. reflexivity. Qed.
(* how the unions of the live table are covered: all but two by shapes alone, one each by the two special
   arguments -- and those two are the ONLY ones the shape argument does not reach *)
Theorem TABLE_UNIONS_classified :
  List.length TABLE_UNIONS = (List.length (filter (generic_ok CLASSES) TABLE_UNIONS) + 2)%nat /\
  filter (fun u => negb (generic_ok CLASSES u)) TABLE_UNIONS = [U_INT_STR_FN; U_IP_OR_STR].
Proof. split; vm_compute; reflexivity. Qed.
Lemma is_union_eq u0 u : is_union u0 u = true -> u = u0.
Proof. unfold is_union. intros H. apply as_type_inj, ftype_eqb_eq, H. Qed.

(* what InstanceOrListOf[Resolvable[str]] accepts: a text (or a function call), or a list of such *)
Lemma str_or_list_inv modelled leafv bn v x : validate_step modelled leafv bn STR_OR_LIST v = Ok x ->
  validate_step modelled leafv bn (TResolvable TStr) v = Ok x \/
  exists l xs, v = VList l /\ mapM (validate_step modelled leafv bn (TResolvable TStr)) l = Ok xs /\ x = XList xs.
Proof.
  unfold STR_OR_LIST. change (validate_step modelled leafv bn (TUnionLR [TResolvable TStr; TList (TResolvable TStr)]) v)
    with (first_ok [validate_step modelled leafv bn (TResolvable TStr) v; validate_step modelled leafv bn (TList (TResolvable TStr)) v]).
  cbn [first_ok]. destruct (validate_step modelled leafv bn (TResolvable TStr) v) as [y|e]; [intros H; left; exact H|].
  destruct (is_hard e); [discriminate|]. cbn [validate_step]. destruct v as [ | | | | | |l| ]; try discriminate.
  fold (validate_step modelled leafv bn (TResolvable TStr)).
  destruct (mapM (validate_step modelled leafv bn (TResolvable TStr)) l) as [xs|e'] eqn:Em; cbn [bind]; [|destruct (is_hard e'); discriminate].
  intros H; inv H. right. exists l, xs. auto.
Qed.

(* SOUNDNESS, under the premises about pydantic-core's scalar validators: the three of the round-trip theorem, five
   about shapes, and the two residual ones about bytes-like input.  Outside the Section a theorem takes those of the ten it
   uses, in the order in which they stand here (Properties/C15.v numbers them (1)-(8) in the same order). *)
Section Core.
  Variable core : leaf -> value -> res value.
  Notation leafv := (leaf_validate core).
  Notation val := (validate CLASSES RESOURCE_MODELS true leafv).
  Hypothesis core_accepts_own_output : forall k v w, is_core k = true -> core k v = Ok w -> core k w = Ok w.
  Hypothesis core_str_keeps_str : forall s, core LStr (VStr s) = Ok (VStr s).
  Hypothesis core_str_yields_str : forall v w, core LStr v = Ok w -> exists s, w = VStr s.
  Hypothesis core_str_takes_text_or_bytes : forall v w, core LStr v = Ok w -> (exists s, v = VStr s) \/ (exists b, v = VBytes b).
  Hypothesis core_str_refuses_list : forall l, core LStr (VList l) = Err EValidation.
  Hypothesis core_int_refuses_list : forall l, core LInt (VList l) = Err EValidation.
  Hypothesis core_datetime_refuses_list : forall l, core LDatetime (VList l) = Err EValidation.
  Hypothesis core_str_refuses_dict : forall d, core LStr (VDict d) = Err EValidation.
  Hypothesis union_int_str_fn_on_bytes : forall b s e, core LStr (VBytes b) = Ok (VStr s) ->
    core LInt (VBytes b) = Err e -> is_hard e = false -> exists e', core LInt (VStr s) = Err e' /\ is_hard e' = false.
  Hypothesis union_ip_or_str_on_bytes : forall n v x, holds_bytes v ->
    soft_err (val n IP_OR_LIST v) -> val n STR_OR_LIST v = Ok x -> soft_err (val n IP_OR_LIST (dump x)).

  (* the two tables about leaves: pydantic-core's by the premises, pycfmodel's own by computation on the form of the value *)
  Lemma leaf_refuses_sound k s : leaf_refuses k s = true -> forall w, has_shape s w -> leafv k w = Err EValidation.
  Proof.
    intros Hr. apply shape_cases. destruct k; try discriminate Hr; destruct s; try discriminate Hr; cbn [leaf_validate]; intros; try reflexivity.
    - apply core_str_refuses_list.
    - apply core_str_refuses_dict.
    - apply core_int_refuses_list.
    - apply core_datetime_refuses_list.
    - apply loose_net4_refuses_net6.
    - (* FunctionDict takes an object with exactly one member *) destruct D as [|[? ?] [|? ?]]; try reflexivity; cbn [length] in *; lia.
  Qed.

  Lemma leaf_outs_sound k ss v w : leaf_outs k = Some ss -> leafv k v = Ok w -> w = v \/ exists s, In s ss /\ has_shape s w.
  Proof.
    intros Ho H. destruct (identity_leaf k) eqn:Ei; [left; exact (identity_leaf_id core k v w Ei H)|].
    right. destruct k; try discriminate Ho; try discriminate Ei; inv Ho; cbn [leaf_validate] in H.
    - exists SStr. split; [left; reflexivity | exact (core_str_yields_str _ _ H)].
    - exists SStr. split; [left; reflexivity | exact (str_num_out _ _ H)].
    - exists SBool. split; [left; reflexivity | exact (semi_strict_bool_out _ _ H)].
    - exists SNet4. split; [left; reflexivity | exact (loose_net4_out _ _ H)].
    - exists SNet6. split; [left; reflexivity | exact (loose_net6_out _ _ H)].
    - exists SBytes. split; [left; reflexivity | exact (validate_binary_out _ _ H)].
  Qed.

  (* field types, model classes abstract *)
  Section Step.
    Variable S : list cschema.
    Variable modelled : list (str * str).
    Variable bn : str -> value -> res tval.
    Notation vs := (validate_step modelled leafv bn).
    (* model classes: whatever refuses something refuses everything that is not a dict; an instance has all declared fields *)
    Hypothesis Hbn_nondict : forall name v w, soft_err (bn name v) -> is_dict w = false -> soft_err (bn name w).
    Hypothesis Hbn_out : forall name v x, bn name v = Ok x ->
      exists c fs ex, find_class S name = Some c /\ x = XModel (c_name c) fs ex /\ length fs = length (c_fields c).

    Lemma refuses_sound t s : refuses t s = true -> forall v w, soft_err (vs t v) -> has_shape s w -> soft_err (vs t w).
    Proof.
      induction t as [k|t IHt|t IHt|ts IHts|ts IHts|t IHt|name| |t IHt] using ftype_ind'; cbn [refuses]; intros Hr v w Hv Hs.
      - cbn [validate_step]. rewrite (leaf_refuses_sound k s Hr w Hs). apply soft_validation.
      - pose proof (shape_list s w Hs) as E. apply negb_true_iff in Hr. rewrite Hr in E. destruct w; try discriminate E; apply soft_validation.
      - pose proof (shape_dict s w Hs) as E. apply negb_true_iff in Hr. rewrite Hr in E. destruct w; try discriminate E; apply soft_validation.
      - rewrite forallb_forall in Hr. rewrite Forall_forall in IHts.
        apply (union_refuses first_ok (fun t' => vs t' v) (fun t' => vs t' w) ts first_ok_soft); [|exact Hv].
        intros t' Hin Ht'. exact (IHts t' Hin (Hr t' Hin) v w Ht' Hs).
      - rewrite forallb_forall in Hr. rewrite Forall_forall in IHts.
        apply (union_refuses smart_ok (fun t' => vs t' v) (fun t' => vs t' w) ts smart_ok_soft); [|exact Hv].
        intros t' Hin Ht'. exact (IHts t' Hin (Hr t' Hin) v w Ht' Hs).
      - apply andb_true_iff in Hr. destruct Hr as [Hr1 Hr2].
        change (vs (TResolvable t) v) with (first_ok [vs t v; w0 <- leafv LFn v ;; Ok (XLeaf w0)]) in Hv.
        change (vs (TResolvable t) w) with (first_ok [vs t w; w0 <- leafv LFn w ;; Ok (XLeaf w0)]).
        apply first_ok_soft in Hv. apply first_ok_soft. inv Hv. constructor; [exact (IHt Hr1 v w H1 Hs)|]. constructor; [|constructor].
        rewrite (leaf_refuses_sound LFn s Hr2 w Hs). apply soft_validation.
      - change (vs (TModel name) w) with (bn name w). change (vs (TModel name) v) with (bn name v) in Hv.
        apply (Hbn_nondict name v w Hv). rewrite (shape_dict s w Hs). apply negb_true_iff. exact Hr.
      - pose proof (shape_dict s w Hs) as E. apply negb_true_iff in Hr. rewrite Hr in E. destruct w; try discriminate E; apply soft_validation.
      - destruct v; try (rewrite validate_step_opt in Hv by discriminate; rewrite validate_step_opt by (exact (shape_not_null s w Hs)); exact (IHt Hr _ w Hv Hs)).
        destruct (soft_not_ok _ Hv).
    Qed.

    Lemma outs_sound t : forall ss, outs S t = Some ss ->
      forall v x, vs t v = Ok x -> dump x = v \/ exists s, In s ss /\ has_shape s (dump x).
    Proof.
      induction t as [k|t IHt|t IHt|ts IHts|ts IHts|t IHt|name| |t IHt] using ftype_ind'; cbn [outs]; intros ss Ho v x H.
      - cbn [validate_step] in H. destruct (leafv k v) as [w|] eqn:E; cbn [bind] in H; [|discriminate]. inv H. cbn [dump].
        exact (leaf_outs_sound k ss v w Ho E).
      - inv Ho. cbn [validate_step] in H. destruct v; try discriminate.
        destruct (mapM (vs t) l) as [xs|]; cbn [bind] in H; [|discriminate]. inv H. right. exists SList. split; [left; reflexivity|].
        cbn [dump has_shape]. eexists; reflexivity.
      - discriminate.
      - change (vs (TUnionLR ts) v) with (first_ok (map (fun t' => vs t' v) ts)) in H.
        destruct (first_ok_inv (fun t' => vs t' v) ts x H) as (pre & t0 & post & -> & _ & Ht0).
        pose proof (in_elt t0 pre post) as Hin.
        destruct (opt_concat_In (outs S) _ t0 Hin ss Ho) as (a & Ha & Hi). rewrite Forall_forall in IHts.
        destruct (IHts t0 Hin a Ha v x Ht0) as [E|(s & Hsin & Hs)]; [left; exact E | right; exists s; split; [apply Hi; exact Hsin | exact Hs]].
      - change (vs (TUnionSmart ts) v) with (smart_ok (map (fun t' => vs t' v) ts)) in H.
        destruct (smart_ok_inv (fun t' => vs t' v) ts x H) as (pre & t0 & post & -> & _ & Ht0 & _).
        pose proof (in_elt t0 pre post) as Hin.
        destruct (opt_concat_In (outs S) _ t0 Hin ss Ho) as (a & Ha & Hi). rewrite Forall_forall in IHts.
        destruct (IHts t0 Hin a Ha v x Ht0) as [E|(s & Hsin & Hs)]; [left; exact E | right; exists s; split; [apply Hi; exact Hsin | exact Hs]].
      - destruct (resolvable_inv _ _ _ _ _ _ H) as [E | [_ (w & Ef & ->)]]; [exact (IHt ss Ho v x E) | left; exact (function_dict_id _ _ Ef)].
      - change (vs (TModel name) v) with (bn name v) in H. destruct (Hbn_out name v x H) as (c & fs & ex & Ef & -> & Hl).
        rewrite Ef in Ho. destruct (Nat.leb 2 (length (c_fields c))) eqn:E2; [|discriminate]. inv Ho. apply Nat.leb_le in E2.
        right. exists SModel. split; [left; reflexivity|]. rewrite dump_model. cbn [has_shape]. eexists. split; [reflexivity|].
        rewrite app_length, map_length, Hl. lia.
      - discriminate.
      - destruct v; try (rewrite validate_step_opt in H by discriminate; exact (IHt ss Ho _ x H)).
        cbn [validate_step] in H. inv H. left. reflexivity.
    Qed.

    Lemma member_ok_sound others t v x : member_ok S others t = true ->
      Forall (fun t' => soft_err (vs t' v)) others -> vs t v = Ok x -> Forall (fun t' => soft_err (vs t' (dump x))) others.
    Proof.
      intros Hm Ho Ht. destruct others as [|o others]; [constructor|]. unfold member_ok in Hm.
      destruct (outs S t) as [ss|] eqn:Eo; [|discriminate].
      destruct (outs_sound t ss Eo v x Ht) as [E|(s & Hsin & Hs)]; [rewrite E; exact Ho|].
      rewrite forallb_forall in Hm. specialize (Hm s Hsin). rewrite forallb_forall in Hm. rewrite Forall_forall in *.
      intros t' Hin. exact (refuses_sound t' s (Hm t' Hin) v (dump x) (Ho t' Hin) Hs).
    Qed.

    Lemma lr_ok_split l : forall pre, lr_ok S pre l = true -> forall p t post, l = p ++ t :: post -> member_ok S (pre ++ p) t = true.
    Proof.
      induction l as [|t0 l IH]; intros pre H p t post E; [destruct p; discriminate|]. cbn [lr_ok] in H. apply andb_true_iff in H.
      destruct H as [H1 H2]. destruct p as [|t1 p]; cbn [app] in E; inv E.
      - rewrite app_nil_r. exact H1.
      - pose proof (IH (pre ++ [t1]) H2 p t post eq_refl) as R. rewrite <- app_assoc in R. exact R.
    Qed.
    Lemma sm_ok_split l : forall pre, sm_ok S pre l = true -> forall p t post, l = p ++ t :: post -> member_ok S (pre ++ p ++ post) t = true.
    Proof.
      induction l as [|t0 l IH]; intros pre H p t post E; [destruct p; discriminate|]. cbn [sm_ok] in H. apply andb_true_iff in H.
      destruct H as [H1 H2]. destruct p as [|t1 p]; cbn [app] in E; inv E.
      - exact H1.
      - pose proof (IH (pre ++ [t1]) H2 p t post eq_refl) as R. rewrite <- app_assoc in R. exact R.
    Qed.

    Theorem generic_ok_sound u : generic_ok S u = true -> stable_for vs u.
    Proof.
      destruct u as [[|] ts]; unfold generic_ok, stable_for; cbn [fst snd]; intros H.
      - intros pre t post v x -> Hpre Ht Hpost. pose proof (sm_ok_split _ [] H pre t post eq_refl) as Hm. cbn [app] in Hm.
        apply Forall_app. apply (member_ok_sound (pre ++ post) t v x Hm); [apply Forall_app; split; assumption | exact Ht].
      - intros pre t post v x -> Hpre Ht. pose proof (lr_ok_split _ [] H pre t post eq_refl) as Hm. cbn [app] in Hm.
        exact (member_ok_sound pre t v x Hm Hpre Ht).
    Qed.
  End Step.

  (* the two unions that need more than shapes *)
  Section Special.
    Variable modelled : list (str * str).
    Variable bn : str -> value -> res tval.
    Notation vs := (validate_step modelled leafv bn).

    Lemma res_str_same v x : vs (TResolvable TStr) v = Ok x -> dump x = v \/ exists b, v = VBytes b.
    Proof.
      intros H. destruct (resolvable_inv _ _ _ _ _ _ H) as [E | [_ (w & Ef & ->)]]; [|left; exact (function_dict_id _ _ Ef)].
      cbn [validate_step leaf_validate] in E. destruct (core LStr v) as [w|e] eqn:Ew; cbn [bind] in E; [|discriminate]. inv E.
      cbn [dump]. destruct (core_str_takes_text_or_bytes v w Ew) as [(s & ->)|(b & ->)].
      - rewrite core_str_keeps_str in Ew. inv Ew. left; reflexivity.
      - right. eexists; reflexivity.
    Qed.
    Lemma str_or_list_same v x : vs STR_OR_LIST v = Ok x -> dump x = v \/ holds_bytes v.
    Proof.
      intros H. destruct (str_or_list_inv _ _ _ v x H) as [E | (l & xs & -> & Em & ->)].
      - destruct (res_str_same v x E) as [R|R]; [left; exact R | right; left; exact R].
      - cbn [dump]. apply mapM_Forall2 in Em. clear H.
        assert (map dump xs = l \/ exists b, In (VBytes b) l) as [R|(b & R)].
        { induction Em as [|a y l xs Hy _ IH]; [left; reflexivity|]. cbn [map].
          destruct (res_str_same a y Hy) as [Ea|(b & ->)]; [|right; exists b; left; reflexivity].
          destruct IH as [IH|(b & IH)]; [left; rewrite Ea, IH; reflexivity | right; exists b; right; exact IH]. }
        + left. rewrite R. reflexivity.
        + right. right. exists l, b. split; [reflexivity | exact R].
    Qed.

    (* Union[int, str, FunctionDict] *)
    Theorem int_str_fn_stable : stable_for vs U_INT_STR_FN.
    Proof.
      unfold stable_for, U_INT_STR_FN; cbn [fst snd]. intros pre t post v x E Hpre Ht.
      destruct pre as [|a [|b [|c pre]]]; cbn [app] in E; inv E.
      - constructor.
      - (* str after int *) cbn [validate_step leaf_validate] in Ht. destruct (core LStr v) as [w|] eqn:Ew; cbn [bind] in Ht; [|discriminate]. inv Ht.
        cbn [dump]. destruct (core_str_takes_text_or_bytes v w Ew) as [(s & ->)|(b & ->)].
        + rewrite core_str_keeps_str in Ew. inv Ew. exact Hpre.
        + destruct (core_str_yields_str _ _ Ew) as (s & ->). inv Hpre. constructor; [|constructor].
          destruct H1 as (e & He & Hh). cbn [validate_step leaf_validate] in He |- *.
          destruct (core LInt (VBytes b)) as [z|e0] eqn:Ei; cbn [bind] in He; [discriminate|]. inv He.
          destruct (union_int_str_fn_on_bytes b s e Ew Ei Hh) as (e' & -> & Hh'). exists e'. split; [reflexivity | exact Hh'].
      - (* FunctionDict after int and str: it hands its input back *) cbn [validate_step leaf_validate] in Ht.
        destruct (function_dict v) as [w|] eqn:Ef; cbn [bind] in Ht; [|discriminate]. inv Ht. cbn [dump].
        rewrite (function_dict_id _ _ Ef). exact Hpre.
      - destruct pre; discriminate.
    Qed.

    (* ResolvableIPOrStrOrList; the residual premise at one nesting depth *)
    Hypothesis ip_or_str_on_bytes_step : forall v x, holds_bytes v ->
      soft_err (vs IP_OR_LIST v) -> vs STR_OR_LIST v = Ok x -> soft_err (vs IP_OR_LIST (dump x)).
    Theorem ip_or_str_stable : stable_for vs U_IP_OR_STR.
    Proof.
      unfold stable_for, U_IP_OR_STR; cbn [fst snd]. intros pre t post v x E Hpre Ht.
      destruct pre as [|a [|b pre]]; cbn [app] in E; inv E.
      - constructor.
      - inv Hpre. constructor; [|constructor]. destruct (str_or_list_same v x Ht) as [R|R]; [rewrite R; exact H1|].
        exact (ip_or_str_on_bytes_step v x R H1 Ht).
      - destruct pre; discriminate.
    Qed.
  End Special.

  Theorem union_ok_sound u : union_ok u = true -> forall n, stable_for (val n) u.
  Proof.
    intros H n. rewrite validate_as_step. unfold union_ok in H. apply orb_true_iff in H. destruct H as [H|H]; [apply orb_true_iff in H; destruct H as [H|H]|].
    - apply (generic_ok_sound CLASSES RESOURCE_MODELS (bn_of CLASSES RESOURCE_MODELS leafv n)); [apply bn_nondict | apply bn_out | exact H].
    - apply is_union_eq in H. subst u. apply int_str_fn_stable.
    - apply is_union_eq in H. subst u. apply ip_or_str_stable. intros v x. rewrite <- validate_as_step. apply union_ip_or_str_on_bytes.
  Qed.

  (* union stability of the live table: every union written in the live classes *)
  Theorem table_unions_stable : forall u, In u TABLE_UNIONS -> forall n, stable_for (val n) u.
  Proof. intros u Hin. apply union_ok_sound. pose proof TABLE_UNIONS_ok as H. rewrite forallb_forall in H. exact (H u Hin). Qed.
  Theorem union_stability_live : forall u, In u (unions_of_table CLASSES) -> forall n, stable_for (val n) u.
  Proof. intros u Hin. apply table_unions_stable. apply table_unions_complete. exact Hin. Qed.

  (* the round trip on the live table with [union_first_stable] of Typed/RoundtripTable.v discharged: what is left are the
     premises of this Section and, for an annotation [t] that is not in the table, that its unions are of a covered shape *)
  Theorem table_roundtrip_live n t v x :
    (forall u, In u (unions_of t) -> union_ok u = true) ->
    val n t v = Ok x -> val n t (dump x) = Ok x.
  Proof.
    intros Hcov. apply (table_roundtrip core core_accepts_own_output core_str_keeps_str core_str_yields_str union_stability_live).
    intros u Hin m. apply union_ok_sound. apply Hcov. exact Hin.
  Qed.
  Theorem table_roundtrip_template_live n v x : val n CFMODEL v = Ok x -> val n CFMODEL (dump x) = Ok x.
  Proof. exact (table_roundtrip_template core core_accepts_own_output core_str_keeps_str core_str_yields_str union_stability_live n v x). Qed.
End Core.

(* the two residual hypotheses follow from a restriction of the domain: the oracle never ACCEPTS bytes for str (it may
   decline: EUndefined, as the runner's instance does).  Data that comes from JSON / YAML holds no bytes. *)
Section TextOnly.
  Variable core : leaf -> value -> res value.
  Notation leafv := (leaf_validate core).
  Notation val := (validate CLASSES RESOURCE_MODELS true leafv).
  Hypothesis core_str_refuses_list : forall l, core LStr (VList l) = Err EValidation.
  Hypothesis core_str_never_takes_bytes : forall b w, core LStr (VBytes b) <> Ok w.

  Lemma res_str_bytes_not_ok n b x : val n (TResolvable TStr) (VBytes b) <> Ok x.
  Proof.
    rewrite validate_as_step. cbn [validate_step first_ok leaf_validate]. destruct (core LStr (VBytes b)) as [w|e] eqn:E; [destruct (core_str_never_takes_bytes b w E)|].
    cbn [bind]. destruct (is_hard e); discriminate.
  Qed.
  Theorem residuals_of_text_only :
    (forall b s e, core LStr (VBytes b) = Ok (VStr s) ->
       core LInt (VBytes b) = Err e -> is_hard e = false -> exists e', core LInt (VStr s) = Err e' /\ is_hard e' = false) /\
    (forall n v x, holds_bytes v -> soft_err (val n IP_OR_LIST v) -> val n STR_OR_LIST v = Ok x -> soft_err (val n IP_OR_LIST (dump x))).
  Proof.
    split; [intros b s e H; destruct (core_str_never_takes_bytes b _ H)|].
    intros n v x Hb _ H. exfalso. pose proof (res_str_bytes_not_ok n) as Hno. rewrite validate_as_step in H, Hno.
    destruct (str_or_list_inv _ _ _ v x H) as [E | (l' & xs & -> & Em & _)]; destruct Hb as [(b & Eb)|(l & b & El & Hin)]; try discriminate.
    - subst v. exact (Hno b x E).
    - subst v. cbn [validate_step first_ok leaf_validate] in E. rewrite core_str_refuses_list in E. cbn [bind is_hard function_dict] in E. discriminate.
    - inv El. apply mapM_Forall2 in Em. clear H. induction Em as [|a y l xs Hy _ IH]; [contradiction|]. destruct Hin as [->|Hin]; [exact (Hno b y Hy) | exact (IH Hin)].
  Qed.
End TextOnly.

(* the same two theorems with the domain restriction in place of the residual hypotheses *)
Section LiveTextOnly.
  Variable core : leaf -> value -> res value.
  Notation leafv := (leaf_validate core).
  Notation val := (validate CLASSES RESOURCE_MODELS true leafv).
  Hypothesis core_accepts_own_output : forall k v w, is_core k = true -> core k v = Ok w -> core k w = Ok w.
  Hypothesis core_str_keeps_str : forall s, core LStr (VStr s) = Ok (VStr s).
  Hypothesis core_str_yields_str : forall v w, core LStr v = Ok w -> exists s, w = VStr s.
  Hypothesis core_str_takes_text_only : forall v w, core LStr v = Ok w -> exists s, v = VStr s.
  Hypothesis core_str_refuses_list : forall l, core LStr (VList l) = Err EValidation.
  Hypothesis core_int_refuses_list : forall l, core LInt (VList l) = Err EValidation.
  Hypothesis core_datetime_refuses_list : forall l, core LDatetime (VList l) = Err EValidation.
  Hypothesis core_str_refuses_dict : forall d, core LStr (VDict d) = Err EValidation.

  Lemma never_bytes : forall b w, core LStr (VBytes b) <> Ok w.
  Proof. intros b w H. destruct (core_str_takes_text_only _ _ H) as (s & E). discriminate. Qed.
  Lemma text_or_bytes : forall v w, core LStr v = Ok w -> (exists s, v = VStr s) \/ (exists b, v = VBytes b).
  Proof. intros v w H. left. exact (core_str_takes_text_only v w H). Qed.

  Theorem union_stability_live_text : forall u, In u (unions_of_table CLASSES) -> forall n, stable_for (val n) u.
  Proof.
    destruct (residuals_of_text_only core core_str_refuses_list never_bytes) as [R1 R2].
    exact (union_stability_live core core_str_keeps_str core_str_yields_str text_or_bytes core_str_refuses_list core_int_refuses_list
             core_datetime_refuses_list core_str_refuses_dict R1 R2).
  Qed.
  Theorem table_roundtrip_template_live_text n v x : val n CFMODEL v = Ok x -> val n CFMODEL (dump x) = Ok x.
  Proof. exact (table_roundtrip_template core core_accepts_own_output core_str_keeps_str core_str_yields_str union_stability_live_text n v x). Qed.
End LiveTextOnly.

(* non-vacuity: the runner's instance of the oracle (Typed/RoundtripRun.v) meets the shape premises, in their text-only form *)
Lemma core_dumped_shapes :
  (forall v w, RoundtripRun.core_dumped LStr v = Ok w -> exists s, v = VStr s) /\
  (forall l, RoundtripRun.core_dumped LStr (VList l) = Err EValidation) /\
  (forall l, RoundtripRun.core_dumped LInt (VList l) = Err EValidation) /\
  (forall l, RoundtripRun.core_dumped LDatetime (VList l) = Err EValidation) /\
  (forall d, RoundtripRun.core_dumped LStr (VDict d) = Err EValidation).
Proof. repeat split; try reflexivity. intros v w H. destruct v; try discriminate. eexists; reflexivity. Qed.

(* so for the runner's instance a whole template round-trips with no premise left *)
Theorem val_dumped_roundtrip_template v x :
  RoundtripRun.val_dumped true CFMODEL v = Ok x -> RoundtripRun.val_dumped true CFMODEL (dump x) = Ok x.
Proof.
  destruct core_dumped_shapes as (S1 & S2 & S3 & S4 & S5).
  exact (table_roundtrip_template_live_text RoundtripRun.core_dumped (fun k v w _ => RoundtripRun.core_dumped_own k v w)
           RoundtripRun.core_dumped_str RoundtripRun.core_dumped_str_out S1 S2 S3 S4 S5 RoundtripRun.DEPTH v x).
Qed.
