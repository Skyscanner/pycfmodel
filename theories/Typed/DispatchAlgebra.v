(* C14 -- the algebra of the dispatch model (Typed/Dispatch.v): what the decision table (Typed/DispatchFacts.v) says about the
   class of a validated resource; the algebra of resources_filtered_by_type (union, commutation, absorption, order, string
   filter versus class filter) and the partition by single-class filters, for any class hierarchy; parsing a whole Resources
   map; any finite sequence of resolve / expand_actions steps keeps the Type literal, hence (strict mode) every class, hence
   filters commute with such sequences; facts about the live table (gen/Schema.v) that do not depend on how many types are
   modelled.  Everything about pydantic's engine stays a Section variable ([class_accepts], [generic_accepts]). *)
From Coq Require Import List Bool NArith ZArith Lia Permutation.
From PV Require Import Base.Str Base.ListFacts Base.Value Resolver.Consts Resolver.Text Resolver.Resolve Resolver.Spec Resolver.Template Resolver.ParamFacts
                       Typed.Schema Typed.Dispatch Typed.DispatchFacts Typed.SchemaTable Typed.SchemaChecks Typed.DispatchTable.
From PV Require Resolver.Rendered.
From PVGen Require Import Schema.
Import ListNotations.
Local Open Scope N_scope.

Inductive subseq {A : Type} : list A -> list A -> Prop :=
| sub_nil : subseq [] []
| sub_keep x l' l : subseq l' l -> subseq (x :: l') (x :: l)
| sub_drop x l' l : subseq l' l -> subseq l' (x :: l).

Lemma subseq_refl {A} (l : list A) : subseq l l.
Proof. induction l as [|x l IH]; constructor; exact IH. Qed.
Lemma subseq_nil_l {A} (l : list A) : subseq [] l.
Proof. induction l as [|x l IH]; constructor; exact IH. Qed.
Lemma subseq_filter {A} (f : A -> bool) (l : list A) : subseq (filter f l) l.
Proof. induction l as [|x l IH]; simpl; [constructor|]. destruct (f x); constructor; exact IH. Qed.
Lemma subseq_map {A B} (g : A -> B) (l' l : list A) : subseq l' l -> subseq (map g l') (map g l).
Proof. intros H. induction H as [|x l' l H IH|x l' l H IH]; simpl; constructor; exact IH. Qed.
Lemma subseq_In {A} (l' l : list A) x : subseq l' l -> In x l' -> In x l.
Proof.
  intros H. induction H as [|y l' l H IH|y l' l H IH]; simpl; [tauto| |].
  - intros [E|Hi]; [left; exact E | right; apply IH; exact Hi].
  - intros Hi. right. apply IH. exact Hi.
Qed.
Lemma subseq_NoDup {A} (l' l : list A) : subseq l' l -> NoDup l -> NoDup l'.
Proof.
  intros H. induction H as [|y l' l H IH|y l' l H IH]; intros Hn; [constructor| |].
  - apply NoDup_cons_iff in Hn. destruct Hn as [Hy Hn]. constructor; [|apply IH; exact Hn].
    intros C. apply (subseq_In _ _ _ H) in C. contradiction.
  - apply NoDup_cons_iff in Hn. destruct Hn as [_ Hn]. apply IH. exact Hn.
Qed.
(* "x comes before y": the relative order of any two members is the one they had *)
Definition before {A} (x y : A) (l : list A) : Prop := exists l1 l2 l3, l = l1 ++ x :: l2 ++ y :: l3.
Lemma subseq_before {A} (l' l : list A) x y : subseq l' l -> before x y l' -> before x y l.
Proof.
  intros H. induction H as [|z l' l H IH|z l' l H IH]; intros (l1 & l2 & l3 & E).
  - destruct l1; discriminate.
  - destruct l1 as [|z' l1]; simpl in E; injection E as Ez El; subst z.
    + assert (In y l) as Hy by (apply (subseq_In _ _ _ H); rewrite El; apply in_elt).
      apply in_split in Hy. destruct Hy as (m1 & m2 & Hy). exists [], m1, m2. simpl. rewrite Hy. reflexivity.
    + destruct IH as (m1 & m2 & m3 & E'); [exists l1, l2, l3; exact El|].
      exists (z' :: m1), m2, m3. simpl. rewrite E'. reflexivity.
  - destruct IH as (m1 & m2 & m3 & E'); [exists l1, l2, l3; exact E|].
    exists (z :: m1), m2, m3. simpl. rewrite E'. reflexivity.
Qed.

Lemma filter_comm {A} (f g : A -> bool) (l : list A) : filter f (filter g l) = filter g (filter f l).
Proof. rewrite !filter_filter. apply filter_ext. intros x. apply andb_comm. Qed.
(* two predicates that never hold together split a list into two parts, up to the order of the parts *)
Lemma filter_or_perm {A} (f g : A -> bool) (l : list A) :
  (forall x, In x l -> f x = true -> g x = false) ->
  Permutation (filter f l ++ filter g l) (filter (fun x => f x || g x) l).
Proof.
  induction l as [|x l IH]; intros Hd; simpl; [constructor|].
  assert (forall y, In y l -> f y = true -> g y = false) as Hd' by (intros y Hy; apply Hd; right; exact Hy).
  specialize (IH Hd'). destruct (f x) eqn:F; simpl.
  - rewrite (Hd x (or_introl eq_refl) F). constructor. exact IH.
  - destruct (g x); [|exact IH]. apply Permutation_sym. apply Permutation_cons_app. apply Permutation_sym. exact IH.
Qed.
Lemma keys_filter_fst {A} (f : str -> bool) (l : list (str * A)) : keys (filter (fun ir => f (fst ir)) l) = filter f (keys l).
Proof.
  unfold keys. induction l as [|[i p] l IH]; simpl; [reflexivity|]. destruct (f i); simpl; [f_equal|]; exact IH.
Qed.
Lemma keys_subseq {A} (l' l : list (str * A)) : subseq l' l -> subseq (keys l') (keys l).
Proof. apply subseq_map. Qed.
(* a sub-sequence of an id-keyed map is determined by its ids *)
Lemma subseq_by_keys {A} (l' l : list (str * A)) :
  subseq l' l -> NoDup (keys l) -> l' = filter (fun ir => mem_str (fst ir) (keys l')) l.
Proof.
  intros H. induction H as [|[i p] l' l H IH|[i p] l' l H IH]; intros Hn; [reflexivity| |].
  - unfold keys in Hn. simpl in Hn. apply NoDup_cons_iff in Hn. destruct Hn as [Hi Hn].
    cbn [filter fst keys map]. cbn [mem_str existsb]. rewrite str_eqb_refl. cbn [orb].
    f_equal. rewrite (IH Hn) at 1. apply filter_ext_in. intros [j q] Hj. cbn [fst].
    destruct (str_eqb j i) eqn:E; [|reflexivity]. apply str_eqb_spec in E. subst j. exfalso. apply Hi.
    apply in_map_iff. exists (i, q). split; [reflexivity | exact Hj].
  - unfold keys in Hn. simpl in Hn. apply NoDup_cons_iff in Hn. destruct Hn as [Hi Hn]. cbn [filter fst].
    destruct (mem_str i (keys l')) eqn:M; [|apply IH; exact Hn].
    exfalso. apply Hi. apply mem_str_In in M. apply (subseq_In _ _ _ (keys_subseq _ _ H)). exact M.
Qed.

Definition res_class (r : res outcome) : res str := match r with Ok o => Ok (o_class o) | Err e => Err e end.
(* the class a successful strict validation gives, read off the Type field alone *)
Definition class_for (modelled : list (str * str)) (tf : type_field) : str :=
  match tf with
  | TyStr s => match class_of modelled s with Some c => c | None => GENERIC end
  | TyMissing | TyOther => GENERIC
  end.

Section Table.
  Variable modelled : list (str * str).
  Variable class_accepts : str -> value -> bool.
  Variable generic_accepts : value -> bool.
  Notation disp := (dispatch_resource modelled class_accepts generic_accepts).

  (* the same table read as a characterisation of success *)
  Theorem dispatch_ok_iff strict r o :
    disp strict r = Ok o <->
    exists d, r = VDict d /\
      ((exists s c, type_of d = TyStr s /\ class_of modelled s = Some c /\ class_accepts c r = true /\
                    o = {| o_class := c; o_kept := [] |}) \/
       (generic_accepts r = true /\ o = {| o_class := GENERIC; o_kept := keys (props_of d) |} /\
        (type_of d = TyMissing \/
         exists s, type_of d = TyStr s /\
           (class_of modelled s = None \/
            exists c, class_of modelled s = Some c /\ class_accepts c r = false /\ strict = false)))).
  Proof.
    rewrite dispatch_decision_table. split.
    - destruct r as [| | | | | | |d]; try discriminate. intros H. exists d. split; [reflexivity|]. cbv zeta in H.
      destruct (type_of d) as [|s|] eqn:Ht; [| |discriminate].
      + destruct (generic_accepts (VDict d)) eqn:G; inv H. right. split; [reflexivity|]. split; [reflexivity|]. left. reflexivity.
      + destruct (class_of modelled s) as [c|] eqn:Hc.
        * destruct (class_accepts c (VDict d)) eqn:A.
          -- inv H. left. exists s, c. repeat split; assumption.
          -- destruct strict; [discriminate|]. destruct (generic_accepts (VDict d)) eqn:G; inv H.
             right. split; [reflexivity|]. split; [reflexivity|]. right. exists s. split; [reflexivity|]. right.
             exists c. repeat split; assumption.
        * destruct (generic_accepts (VDict d)) eqn:G; inv H. right. split; [reflexivity|]. split; [reflexivity|].
          right. exists s. split; [reflexivity|]. left. exact Hc.
    - intros (d & -> & H). cbv zeta. destruct H as [(s & c & Ht & Hc & A & ->) | (G & -> & H)].
      + rewrite Ht, Hc, A. reflexivity.
      + destruct H as [Ht | (s & Ht & [Hc | (c & Hc & A & ->)])].
        * rewrite Ht, G. reflexivity.
        * rewrite Ht, Hc, G. reflexivity.
        * rewrite Ht, Hc, A, G. reflexivity.
  Qed.

  (* the result class is the class of the Type, or GenericResource *)
  Theorem dispatch_result_class strict r o :
    disp strict r = Ok o ->
    exists d, r = VDict d /\
      ((exists s, type_of d = TyStr s /\ class_of modelled s = Some (o_class o) /\ o_kept o = []) \/
       (o_class o = GENERIC /\ o_kept o = keys (props_of d))).
  Proof.
    intros H. apply dispatch_ok_iff in H. destruct H as (d & -> & H). exists d. split; [reflexivity|].
    destruct H as [(s & c & Ht & Hc & _ & ->) | (_ & -> & _)].
    - left. exists s. repeat split; assumption.
    - right. split; reflexivity.
  Qed.

  (* strictness never changes the class of an accepted resource: it only turns some successes into errors.  So the same
     input is never a dedicated class in one mode and GenericResource in the other *)
  Theorem dispatch_strict_implies_nonstrict r o : disp true r = Ok o -> disp false r = Ok o.
  Proof.
    rewrite !dispatch_ok_iff. intros (d & E & H). exists d. split; [exact E|].
    destruct H as [H | (G & Eo & H)]; [left; exact H | right]. split; [exact G|]. split; [exact Eo|].
    destruct H as [Ht | (s & Ht & [Hc | (c & _ & _ & C)])]; [left; exact Ht | right; exists s; split; [exact Ht | left; exact Hc] | discriminate].
  Qed.
  Theorem dispatch_modes_agree strict strict' r o o' : disp strict r = Ok o -> disp strict' r = Ok o' -> o = o'.
  Proof.
    intros H H'.
    assert (disp false r = Ok o) as F by (destruct strict; [apply dispatch_strict_implies_nonstrict|]; exact H).
    assert (disp false r = Ok o') as F' by (destruct strict'; [apply dispatch_strict_implies_nonstrict|]; exact H').
    rewrite F in F'. inv F'. reflexivity.
  Qed.
  Theorem dispatch_nonstrict_cases r o :
    disp false r = Ok o ->
    disp true r = Ok o \/
    (disp true r = Err EValidation /\ o_class o = GENERIC /\
     exists d s c, r = VDict d /\ type_of d = TyStr s /\ class_of modelled s = Some c /\ class_accepts c r = false).
  Proof.
    intros H. rewrite dispatch_decision_table in H |- *. destruct r as [| | | | | | |d]; try discriminate. cbv zeta in *.
    destruct (type_of d) as [|s|] eqn:Ht; [left; exact H| |discriminate].
    destruct (class_of modelled s) as [c|] eqn:Hc; [|left; exact H].
    destruct (class_accepts c (VDict d)) eqn:A; [left; exact H|]. right. split; [reflexivity|].
    destruct (generic_accepts (VDict d)); inv H. split; [reflexivity|]. exists d, s, c. auto.
  Qed.

  (* strict mode: the class is read off the Type field *)
  Theorem dispatch_strict_class d o : disp true (VDict d) = Ok o -> o_class o = class_for modelled (type_of d).
  Proof.
    intros H. apply dispatch_ok_iff in H. destruct H as (d0 & E & H). inv E. unfold class_for.
    destruct H as [(s & c & Ht & Hc & _ & ->) | (_ & -> & [Ht | (s & Ht & [Hc | (c & _ & _ & C)])])].
    - rewrite Ht, Hc. reflexivity.
    - rewrite Ht. reflexivity.
    - rewrite Ht, Hc. reflexivity.
    - discriminate.
  Qed.

  (* when no modelled class is called GenericResource (true of the live table, see below): *)
  Hypothesis generic_is_no_class : ~ In GENERIC (map snd modelled).

  (* a dedicated class comes out iff that class accepted; GenericResource iff it did not (or there is none) *)
  Theorem dispatch_dedicated_iff strict r o :
    disp strict r = Ok o ->
    (o_class o <> GENERIC <->
     exists d s c, r = VDict d /\ type_of d = TyStr s /\ class_of modelled s = Some c /\ class_accepts c r = true /\ o_class o = c).
  Proof.
    intros H. apply dispatch_ok_iff in H. destruct H as (d & -> & H). split.
    - intros Hn. destruct H as [(s & c & Ht & Hc & A & ->) | (_ & -> & _)]; [|exfalso; apply Hn; reflexivity].
      exists d, s, c. repeat split; assumption.
    - intros (d0 & s & c & E & _ & Hc & _ & Eo). rewrite Eo. exact (class_of_not_generic _ _ _ generic_is_no_class Hc).
  Qed.
  (* with strict on, a GenericResource has an unmodelled Type (or none) *)
  Theorem dispatch_strict_generic_unmodelled d o :
    disp true (VDict d) = Ok o -> o_class o = GENERIC ->
    generic_accepts (VDict d) = true /\ (type_of d = TyMissing \/ exists s, type_of d = TyStr s /\ class_of modelled s = None).
  Proof.
    intros H Hg. apply dispatch_ok_iff in H. destruct H as (d0 & E & H). inv E.
    destruct H as [(s & c & _ & Hc & _ & ->) | (G & _ & [Ht | (s & Ht & [Hc | (c & _ & _ & C)])])].
    - exfalso. exact (class_of_not_generic _ _ _ generic_is_no_class Hc Hg).
    - split; [exact G | left; exact Ht].
    - split; [exact G | right; exists s; split; assumption].
    - discriminate.
  Qed.
End Table.

(* the class (or the error) is a function of the Type field and of the two verdicts, and of nothing else in the definition:
   two definitions, even under two different engines, that agree on these get the same answer *)
Theorem dispatch_function_of_type_and_verdicts modelled ca ga ca' ga' strict d d' :
  type_of d = type_of d' ->
  (forall s c, type_of d = TyStr s -> class_of modelled s = Some c -> ca c (VDict d) = ca' c (VDict d')) ->
  ga (VDict d) = ga' (VDict d') ->
  res_class (dispatch_resource modelled ca ga strict (VDict d)) = res_class (dispatch_resource modelled ca' ga' strict (VDict d')).
Proof.
  intros Ht Hc Hg. rewrite !dispatch_decision_table. cbv zeta. rewrite <- Ht, <- Hg.
  destruct (type_of d) as [|s|] eqn:E; [destruct (ga (VDict d)); reflexivity| |reflexivity].
  destruct (class_of modelled s) as [c|] eqn:C; [|destruct (ga (VDict d)); reflexivity].
  rewrite <- (Hc s c eq_refl C). destruct (ca c (VDict d)); [reflexivity|]. destruct strict; [reflexivity|].
  destruct (ga (VDict d)); reflexivity.
Qed.

(* resources_filtered_by_type, for any class hierarchy: a filter is a list of [wanted] (WClass c = a class object, WType s = a
   type string); Python's result dict is the association list returned here, in the order of the model's Resources *)
(* Python's {**a, **b} on id-keyed maps whose common ids carry the same value *)
Definition dict_union {A} (a b : list (str * A)) : list (str * A) :=
  a ++ filter (fun ir => negb (mem_str (fst ir) (keys a))) b.

Section FilterAlgebra.
  Variable bases : str -> list str.
  Notation flt := (filter_by_type bases).
  Notation kp := (keeps bases).

  Lemma keeps_app l1 l2 p : kp (l1 ++ l2) p = kp l1 p || kp l2 p.
  Proof. unfold keeps. apply existsb_app. Qed.
  Lemma keeps_incl l1 l2 p : incl l1 l2 -> kp l1 p = true -> kp l2 p = true.
  Proof.
    unfold keeps. intros Hi H. apply existsb_exists in H. destruct H as (w & Hw & Hk).
    apply existsb_exists. exists w. split; [apply Hi; exact Hw | exact Hk].
  Qed.

  (* filter by l1 ++ l2: the union of the two filters, in the order of the resources ... *)
  Theorem filter_app_orb l1 l2 rs : flt (l1 ++ l2) rs = filter (fun ir => kp l1 (snd ir) || kp l2 (snd ir)) rs.
  Proof. unfold filter_by_type. apply filter_ext. intros ir. apply keeps_app. Qed.
  Theorem filter_app_In l1 l2 rs x : In x (flt (l1 ++ l2) rs) <-> In x (flt l1 rs) \/ In x (flt l2 rs).
  Proof.
    rewrite filter_app_orb. unfold filter_by_type. rewrite !filter_In, orb_true_iff. tauto.
  Qed.
  (* ... the order in which the wanted classes / strings are listed is irrelevant *)
  Theorem filter_same_members l1 l2 rs : incl l1 l2 -> incl l2 l1 -> flt l1 rs = flt l2 rs.
  Proof.
    intros H12 H21. unfold filter_by_type. apply filter_ext. intros ir.
    destruct (kp l1 (snd ir)) eqn:E1; destruct (kp l2 (snd ir)) eqn:E2; try reflexivity.
    - rewrite (keeps_incl _ _ _ H12 E1) in E2. discriminate.
    - rewrite (keeps_incl _ _ _ H21 E2) in E1. discriminate.
  Qed.
  Corollary filter_app_comm l1 l2 rs : flt (l1 ++ l2) rs = flt (l2 ++ l1) rs.
  Proof. apply filter_same_members; intros x H; apply in_or_app; apply in_app_or in H; tauto. Qed.

  (* ... as id-keyed maps (logical ids are unique): lookup by lookup, and as Python's dict union *)
  Lemma lookup_filter_keeps (f : parsed -> bool) (rs : list (str * parsed)) id :
    NoDup (keys rs) ->
    lookup id (filter (fun ir => f (snd ir)) rs) = match lookup id rs with Some p => if f p then Some p else None | None => None end.
  Proof.
    induction rs as [|[i p] rs IH]; intros Hn; [reflexivity|]. unfold keys in Hn. simpl in Hn.
    apply NoDup_cons_iff in Hn. destruct Hn as [Hi Hn]. specialize (IH Hn). cbn [filter snd lookup].
    destruct (str_eqb id i) eqn:E.
    - apply str_eqb_spec in E. subst i. destruct (f p) eqn:F.
      + cbn [lookup]. rewrite str_eqb_refl. reflexivity.
      + rewrite IH. assert (lookup id rs = None) as L by (apply lookup_None; exact Hi). rewrite L. reflexivity.
    - destruct (f p); [cbn [lookup]; rewrite E|]; exact IH.
  Qed.
  Theorem filter_app_lookup l1 l2 rs id :
    NoDup (keys rs) ->
    lookup id (flt (l1 ++ l2) rs) = match lookup id (flt l1 rs) with Some p => Some p | None => lookup id (flt l2 rs) end.
  Proof.
    intros Hn. rewrite filter_app_orb. unfold filter_by_type.
    rewrite (lookup_filter_keeps (fun p => kp l1 p || kp l2 p) rs id Hn), (lookup_filter_keeps (kp l1) rs id Hn),
            (lookup_filter_keeps (kp l2) rs id Hn).
    destruct (lookup id rs) as [p|]; [|reflexivity]. destruct (kp l1 p); [reflexivity|]. reflexivity.
  Qed.
  Lemma mem_keys_filter (f : parsed -> bool) (rs : list (str * parsed)) i p :
    NoDup (keys rs) -> In (i, p) rs -> mem_str i (keys (filter (fun ir => f (snd ir)) rs)) = f p.
  Proof.
    intros Hn Hin. destruct (f p) eqn:F.
    - apply mem_str_In. apply in_map_iff. exists (i, p). split; [reflexivity|]. apply filter_In. split; [exact Hin | exact F].
    - destruct (mem_str i (keys (filter (fun ir => f (snd ir)) rs))) eqn:M; [|reflexivity]. exfalso.
      apply mem_str_In in M. apply in_map_iff in M. destruct M as ([j q] & Ej & Hq). cbn [fst] in Ej. subst j.
      apply filter_In in Hq. destruct Hq as [Hq Fq]. cbn [snd] in Fq.
      pose proof (NoDup_map_inj fst rs (i, q) (i, p) Hn Hq Hin eq_refl) as E. inv E. congruence.
  Qed.
  Theorem filter_app_dict_union l1 l2 rs :
    NoDup (keys rs) -> Permutation (flt (l1 ++ l2) rs) (dict_union (flt l1 rs) (flt l2 rs)).
  Proof.
    intros Hn. unfold dict_union. rewrite filter_app_orb. unfold filter_by_type.
    assert (filter (fun ir => negb (mem_str (fst ir) (keys (filter (fun ir0 => kp l1 (snd ir0)) rs)))) (filter (fun ir => kp l2 (snd ir)) rs)
            = filter (fun ir => negb (kp l1 (snd ir)) && kp l2 (snd ir)) rs) as E.
    { rewrite filter_filter. apply filter_ext_in. intros [i p] Hin. cbn [fst snd].
      rewrite (mem_keys_filter (kp l1) rs i p Hn Hin). reflexivity. }
    rewrite E. clear E. apply Permutation_sym.
    eapply Permutation_trans; [apply filter_or_perm|].
    - intros [i p] _ F. cbn [snd] in *. rewrite F. reflexivity.
    - erewrite filter_ext; [apply Permutation_refl|]. intros [i p]. cbn [snd]. destruct (kp l1 p); reflexivity.
  Qed.

  (* filtering twice: the conjunction; hence commutation, absorption *)
  Theorem filter_compose a b rs : flt a (flt b rs) = filter (fun ir => kp a (snd ir) && kp b (snd ir)) rs.
  Proof. unfold filter_by_type. apply filter_filter. Qed.
  Theorem filter_commute a b rs : flt a (flt b rs) = flt b (flt a rs).
  Proof. unfold filter_by_type. apply filter_comm. Qed.
  Theorem filter_absorb a b rs : incl a b -> flt a (flt b rs) = flt a rs.
  Proof.
    intros Hi. rewrite filter_compose. unfold filter_by_type. apply filter_ext. intros ir.
    destruct (kp a (snd ir)) eqn:E; [|reflexivity]. rewrite (keeps_incl _ _ _ Hi E). reflexivity.
  Qed.

  (* the order of the logical ids *)
  Theorem filter_subseq allowed rs : subseq (flt allowed rs) rs /\ subseq (keys (flt allowed rs)) (keys rs).
  Proof. split; [|apply keys_subseq]; apply subseq_filter. Qed.
  Theorem filter_keeps_order allowed rs i j : before i j (keys (flt allowed rs)) -> before i j (keys rs).
  Proof. apply subseq_before. apply filter_subseq. Qed.

  (* asking for every class that occurs returns everything (isinstance is reflexive) *)
  Theorem filter_all_classes cls rs :
    Forall (fun ir => In (p_class (snd ir)) cls) rs -> flt (map WClass cls) rs = rs.
  Proof.
    intros H. unfold filter_by_type. apply filter_all. rewrite Forall_forall in H. intros ir Hir. specialize (H ir Hir).
    unfold keeps. apply existsb_exists. exists (WClass (p_class (snd ir))). split; [apply in_map; exact H|].
    unfold isinstance. rewrite str_eqb_refl. reflexivity.
  Qed.

  (* single-class filters over a flat family of classes: none of them is a proper base of another *)
  Definition flat (cls : list str) : Prop := forall c c', In c cls -> In c' cls -> ~ In c (bases c').

  Lemma keeps_class_flat cls c p : flat cls -> In c cls -> In (p_class p) cls -> kp [WClass c] p = str_eqb (p_class p) c.
  Proof.
    intros Hf Hc Hp. unfold keeps, isinstance. cbn [existsb]. rewrite orb_false_r.
    destruct (mem_str c (bases (p_class p))) eqn:M; [|apply orb_false_r].
    exfalso. apply mem_str_In in M. exact (Hf c (p_class p) Hc Hp M).
  Qed.
  Theorem filter_class_flat cls c rs :
    flat cls -> In c cls -> Forall (fun ir => In (p_class (snd ir)) cls) rs ->
    flt [WClass c] rs = filter (fun ir => str_eqb (p_class (snd ir)) c) rs.
  Proof.
    intros Hf Hc H. unfold filter_by_type. apply filter_ext_in. intros ir Hir. rewrite Forall_forall in H.
    exact (keeps_class_flat cls c (snd ir) Hf Hc (H ir Hir)).
  Qed.

  (* each resource is returned by exactly one single-class filter, the one of its own class ... *)
  Theorem filter_exactly_one cls rs id p c :
    flat cls -> Forall (fun ir => In (p_class (snd ir)) cls) rs -> In (id, p) rs -> In c cls ->
    (In (id, p) (flt [WClass c] rs) <-> c = p_class p).
  Proof.
    intros Hf H Hin Hc. rewrite (filter_class_flat cls c rs Hf Hc H). rewrite filter_In. cbn [snd]. split.
    - intros [_ E]. apply str_eqb_spec in E. symmetry. exact E.
    - intros ->. split; [exact Hin | apply str_eqb_refl].
  Qed.
  (* ... and the single-class filters, laid end to end, are a rearrangement of the resources of those classes *)
  Theorem filter_partition_of cls rs :
    flat cls -> Forall (fun ir => In (p_class (snd ir)) cls) rs ->
    forall cs, incl cs cls -> NoDup cs ->
    Permutation (flat_map (fun c => flt [WClass c] rs) cs) (filter (fun ir => mem_str (p_class (snd ir)) cs) rs).
  Proof.
    intros Hf H cs. induction cs as [|c cs IH]; intros Hi Hn.
    - simpl. rewrite filter_none; [constructor | reflexivity].
    - apply NoDup_cons_iff in Hn. destruct Hn as [Hc Hn]. cbn [flat_map].
      assert (In c cls) as Hcc by (apply Hi; left; reflexivity).
      rewrite (filter_class_flat cls c rs Hf Hcc H).
      eapply Permutation_trans; [apply Permutation_app_head; apply IH; [intros x Hx; apply Hi; right; exact Hx | exact Hn]|].
      eapply Permutation_trans; [apply filter_or_perm|].
      + intros ir _ E. apply str_eqb_spec in E. rewrite E. destruct (mem_str c cs) eqn:M; [|reflexivity].
        apply mem_str_In in M. contradiction.
      + erewrite filter_ext; [apply Permutation_refl|]. intros ir. cbn [mem_str existsb]. reflexivity.
  Qed.
  Theorem filter_partition cls rs :
    flat cls -> NoDup cls -> Forall (fun ir => In (p_class (snd ir)) cls) rs ->
    Permutation (flat_map (fun c => flt [WClass c] rs) cls) rs.
  Proof.
    intros Hf Hn H. eapply Permutation_trans; [apply (filter_partition_of cls rs Hf H cls (incl_refl _) Hn)|].
    rewrite filter_all; [apply Permutation_refl|]. rewrite Forall_forall in H. intros ir Hir. apply mem_str_In. exact (H ir Hir).
  Qed.
  Corollary filter_partition_length cls rs :
    flat cls -> NoDup cls -> Forall (fun ir => In (p_class (snd ir)) cls) rs ->
    List.length (flat_map (fun c => flt [WClass c] rs) cls) = List.length rs.
  Proof. intros Hf Hn H. apply Permutation_length. apply filter_partition; assumption. Qed.
End FilterAlgebra.

(* the .Type attribute of the parsed object: the dedicated classes declare Type : Literal[...], GenericResource keeps the
   string it was given (None when there was none) *)
Definition type_attr (r : value) : option str :=
  match r with VDict d => match type_of d with TyStr s => Some s | _ => None end | _ => None end.
Definition is_downgraded (t : str) (p : parsed) : bool :=
  str_eqb (p_class p) GENERIC && match p_type p with Some t' => str_eqb t' t | None => false end.

Section Parse.
  Variable modelled : list (str * str).
  Variable class_accepts : str -> value -> bool.
  Variable generic_accepts : value -> bool.
  Notation disp := (dispatch_resource modelled class_accepts generic_accepts).

  (* CFModel(Resources = ...): every member is validated; one refusal refuses the template *)
  Fixpoint parse_resources (strict : bool) (defs : list (str * value)) : res (list (str * parsed)) :=
    match defs with
    | [] => Ok []
    | (id, r) :: rest =>
        o <- disp strict r ;; rest' <- parse_resources strict rest ;;
        Ok ((id, {| p_class := o_class o; p_type := type_attr r |}) :: rest')
    end.

  (* what a parsed resource looks like: an instance of the class of its Type, or a GenericResource -- whose Type, in
     strict mode, is not a modelled one *)
  Definition dedicated (p : parsed) : Prop := exists t, p_type p = Some t /\ class_of modelled t = Some (p_class p).
  Definition generic_res (strict : bool) (p : parsed) : Prop :=
    p_class p = GENERIC /\ (strict = true -> forall t, p_type p = Some t -> class_of modelled t = None).
  Definition wf_parsed (strict : bool) (p : parsed) : Prop := dedicated p \/ generic_res strict p.

  Lemma dispatch_wf strict r o : disp strict r = Ok o -> wf_parsed strict {| p_class := o_class o; p_type := type_attr r |}.
  Proof.
    intros H. apply dispatch_ok_iff in H. destruct H as (d & -> & H). unfold type_attr.
    destruct H as [(s & c & Ht & Hc & _ & ->) | (_ & -> & H)].
    - left. exists s. rewrite Ht. split; [reflexivity | exact Hc].
    - right. split; [reflexivity|]. intros -> t. cbn [p_type].
      destruct H as [Ht | (s & Ht & [Hc | (c & _ & _ & C)])]; rewrite Ht; try discriminate.
      intros E. inv E. exact Hc.
  Qed.
  Lemma parse_resources_cons strict id r defs rs : parse_resources strict ((id, r) :: defs) = Ok rs ->
    exists o rest, disp strict r = Ok o /\ parse_resources strict defs = Ok rest /\
                   rs = (id, {| p_class := o_class o; p_type := type_attr r |}) :: rest.
  Proof.
    cbn [parse_resources]. intros H. bind_inv. inv H. eexists _, _. auto.
  Qed.
  Theorem parse_resources_wf strict defs rs :
    parse_resources strict defs = Ok rs -> Forall (fun ir => wf_parsed strict (snd ir)) rs.
  Proof.
    revert rs. induction defs as [|[id r] defs IH]; intros rs H; [inv H; constructor|].
    destruct (parse_resources_cons _ _ _ _ _ H) as (o & rest & D & P & ->).
    constructor; [exact (dispatch_wf _ _ _ D) | exact (IH rest P)].
  Qed.
  Theorem parse_resources_keys strict defs rs : parse_resources strict defs = Ok rs -> keys rs = keys defs.
  Proof.
    revert rs. induction defs as [|[id r] defs IH]; intros rs H; [inv H; reflexivity|].
    destruct (parse_resources_cons _ _ _ _ _ H) as (o & rest & _ & P & ->).
    unfold keys in *. simpl. f_equal. exact (IH rest P).
  Qed.
  Lemma wf_parsed_class strict p : wf_parsed strict p -> In (p_class p) (GENERIC :: map snd modelled).
  Proof.
    intros [(t & _ & Hc) | [Hg _]]; [right; exact (class_of_In _ _ _ Hc) | left; symmetry; exact Hg].
  Qed.

  Variable bases : str -> list str.
  Hypothesis classes_distinct : NoDup (map snd modelled).
  Hypothesis generic_is_no_class : ~ In GENERIC (map snd modelled).
  Hypothesis classes_flat : flat bases (GENERIC :: map snd modelled).

  Lemma class_of_inj t1 t2 c : class_of modelled t1 = Some c -> class_of modelled t2 = Some c -> t1 = t2.
  Proof.
    unfold class_of. intros H1 H2. apply lookup_In in H1. apply lookup_In in H2.
    exact (f_equal fst (NoDup_map_inj snd modelled (t1, c) (t2, c) classes_distinct H1 H2 eq_refl)).
  Qed.
  Lemma class_in_table t c : class_of modelled t = Some c -> In c (GENERIC :: map snd modelled).
  Proof. intros H. right. exact (class_of_In _ _ _ H). Qed.

  (* the two notions for ONE parsed resource of either mode: the string t selects the instances of its class c AND the
     GenericResources that carry the string t; the class c selects the instances only *)
  Theorem keeps_string_vs_class strict t c p :
    class_of modelled t = Some c -> wf_parsed strict p ->
    keeps bases [WClass c] p = str_eqb (p_class p) c /\
    keeps bases [WType t] p = keeps bases [WClass c] p || is_downgraded t p /\
    (keeps bases [WClass c] p = true -> is_downgraded t p = false) /\
    (strict = true -> is_downgraded t p = false).
  Proof.
    intros Hc Hw. pose proof (class_in_table _ _ Hc) as Hcc. pose proof (wf_parsed_class _ _ Hw) as Hpc.
    pose proof (class_of_not_generic _ _ _ generic_is_no_class Hc) as Hcg.
    rewrite (keeps_class_flat bases _ c p classes_flat Hcc Hpc). split; [reflexivity|].
    unfold keeps at 1. cbn [existsb]. rewrite orb_false_r. unfold is_downgraded.
    destruct Hw as [(t' & Ht' & Hc') | [Hg Hs]].
    - rewrite Ht'. assert (str_eqb (p_class p) GENERIC = false) as Ng
        by (apply str_eqb_neq; exact (class_of_not_generic _ _ _ generic_is_no_class Hc')).
      rewrite Ng. cbn [andb]. rewrite orb_false_r. split; [|split; reflexivity].
      destruct (str_eqb t' t) eqn:E.
      + apply str_eqb_spec in E. subst t'. symmetry. apply str_eqb_spec. congruence.
      + symmetry. apply str_eqb_neq. intros E'. apply str_eqb_neq in E. apply E. rewrite <- E' in Hc.
        exact (class_of_inj _ _ _ Hc' Hc).
    - rewrite Hg, str_eqb_refl. cbn [andb].
      assert (str_eqb GENERIC c = false) as Nc by (apply str_eqb_neq; intros E; apply Hcg; symmetry; exact E).
      rewrite Nc. cbn [orb]. split; [reflexivity|]. split; [discriminate|].
      intros Es. destruct (p_type p) as [t'|] eqn:Et; [|reflexivity]. apply str_eqb_neq. intros ->.
      rewrite (Hs Es t eq_refl) in Hc. discriminate.
  Qed.

  (* strict mode: the filter by a modelled type STRING is the filter by the CLASS of that string *)
  Theorem filter_string_is_class_strict t c rs :
    class_of modelled t = Some c -> Forall (fun ir => wf_parsed true (snd ir)) rs ->
    filter_by_type bases [WType t] rs = filter_by_type bases [WClass c] rs.
  Proof.
    intros Hc H. unfold filter_by_type. apply filter_ext_in. intros ir Hir. rewrite Forall_forall in H.
    destruct (keeps_string_vs_class true t c (snd ir) Hc (H ir Hir)) as (_ & E & _ & Hd).
    rewrite E, (Hd eq_refl). apply orb_false_r.
  Qed.
  (* either mode: exactly what each of the two returns *)
  Theorem filter_string_vs_class strict t c rs :
    class_of modelled t = Some c -> Forall (fun ir => wf_parsed strict (snd ir)) rs ->
    filter_by_type bases [WClass c] rs = filter (fun ir => str_eqb (p_class (snd ir)) c) rs /\
    filter_by_type bases [WType t] rs = filter (fun ir => str_eqb (p_class (snd ir)) c || is_downgraded t (snd ir)) rs /\
    Permutation (filter_by_type bases [WType t] rs)
                (filter_by_type bases [WClass c] rs ++ filter (fun ir => is_downgraded t (snd ir)) rs) /\
    filter_by_type bases [WClass c] (filter_by_type bases [WType t] rs) = filter_by_type bases [WClass c] rs /\
    incl (filter (fun ir => is_downgraded t (snd ir)) rs) (filter_by_type bases [WClass GENERIC] rs).
  Proof.
    intros Hc H. rewrite Forall_forall in H.
    pose proof (fun ir Hir => keeps_string_vs_class strict t c (snd ir) Hc (H ir Hir)) as K.
    assert (filter_by_type bases [WClass c] rs = filter (fun ir => str_eqb (p_class (snd ir)) c) rs) as E1.
    { unfold filter_by_type. apply filter_ext_in. intros ir Hir.
      exact (proj1 (K ir Hir)). }
    assert (filter_by_type bases [WType t] rs = filter (fun ir => str_eqb (p_class (snd ir)) c || is_downgraded t (snd ir)) rs) as E2.
    { unfold filter_by_type. apply filter_ext_in. intros ir Hir.
      destruct (K ir Hir) as (Ea & Eb & _). rewrite Eb, Ea. reflexivity. }
    split; [exact E1|]. split; [exact E2|]. split; [|split].
    - rewrite E1, E2. apply Permutation_sym. apply filter_or_perm. intros ir Hir F.
      destruct (K ir Hir) as (Ea & _ & Hx & _). apply Hx. rewrite Ea. exact F.
    - rewrite filter_compose. unfold filter_by_type. apply filter_ext_in. intros ir Hir.
      destruct (K ir Hir) as (_ & Eb & _). rewrite Eb.
      destruct (keeps bases [WClass c] (snd ir)); reflexivity.
    - intros ir Hir. apply filter_In in Hir. destruct Hir as [Hir D]. unfold filter_by_type. apply filter_In. split; [exact Hir|].
      unfold is_downgraded in D. apply andb_true_iff in D. destruct D as [D _]. unfold keeps, isinstance. cbn [existsb].
      rewrite D. reflexivity.
  Qed.

  (* the resources of a parsed template: every class is one of the table's or GenericResource, so the partition and the
     "every class returns everything" theorems apply to them *)
  Theorem parsed_partition strict defs rs :
    parse_resources strict defs = Ok rs ->
    Permutation (flat_map (fun c => filter_by_type bases [WClass c] rs) (GENERIC :: map snd modelled)) rs /\
    filter_by_type bases (map WClass (GENERIC :: map snd modelled)) rs = rs /\
    Permutation (flat_map (fun c => filter_by_type bases [WClass c] rs) (map snd modelled))
                (filter (fun ir => negb (str_eqb (p_class (snd ir)) GENERIC)) rs).
  Proof.
    intros Hp. pose proof (parse_resources_wf _ _ _ Hp) as Hw.
    assert (Forall (fun ir => In (p_class (snd ir)) (GENERIC :: map snd modelled)) rs) as Hc.
    { rewrite Forall_forall in *. intros ir Hir. exact (wf_parsed_class strict _ (Hw ir Hir)). }
    assert (NoDup (GENERIC :: map snd modelled)) as Hn by (constructor; assumption).
    split; [apply filter_partition; assumption|]. split; [apply filter_all_classes; exact Hc|].
    eapply Permutation_trans.
    - apply (filter_partition_of bases _ rs classes_flat Hc (map snd modelled)); [intros x Hx; right; exact Hx | exact classes_distinct].
    - erewrite filter_ext_in; [apply Permutation_refl|]. intros ir Hir. rewrite Forall_forall in Hc. specialize (Hc ir Hir).
      destruct (str_eqb (p_class (snd ir)) GENERIC) eqn:E; cbn [negb].
      + apply str_eqb_spec in E. rewrite E. destruct (mem_str GENERIC (map snd modelled)) eqn:M; [|reflexivity].
        apply mem_str_In in M. contradiction.
      + apply mem_str_In. destruct Hc as [Hc|Hc]; [|exact Hc]. apply str_eqb_neq in E. exfalso. apply E. symmetry. exact Hc.
  Qed.
End Parse.

(* the Type entry of a dumped resource: a string, or null (GenericResource.Type is Optional) *)
Definition type_lit (v : value) : Prop := v = VNull \/ exists t, v = VStr t.

Lemma lookup_in_keys {A} k (d : list (str * A)) v : lookup k d = Some v -> In k (keys d).
Proof. exact (lookup_Some_In_keys k d v). Qed.

(* CFModel.resolve on one resource: whatever the resolver did to the Type entry, it is put back *)
Theorem resolve_resource_keeps_type e d v r' :
  lookup K_Type d = Some v -> type_lit v -> resolve_resource e (VDict d) = Ok r' ->
  exists d', r' = VDict d' /\ lookup K_Type d' = Some v.
Proof.
  intros Hl Hv Hr. unfold resolve_resource in Hr.
  rewrite (resolve_dict_generic e d (Rendered.has_type_not_fn_dict _ _ Hl)) in Hr.
  destruct (rdict e d) as [d1|] eqn:Ed; cbn [bind] in Hr; [|discriminate]. inv Hr. cbn [keep_type].
  eexists. split; [reflexivity|].
  rewrite lookup_keep_key_other by (vm_compute; reflexivity). unfold keep_key. rewrite Hl.
  destruct Hv as [-> | (t & ->)].
  - exact (rdict_keeps e K_Type VNull eq_refl eq_refl d d1 Ed Hl).
  - rewrite lookup_set_key, str_eqb_refl. reflexivity.
Qed.

(* one resource through a list of steps *)
Inductive step :=
| SResolve (e : env)                            (* CFModel.resolve's work on one resource (Type / Condition put back) *)
| SResolveRaw (e : env)                         (* the bare resolver, as in C14_preserved_by_resolve *)
| SExpand (ex : bool -> value -> res value).    (* expand_actions on one resource *)
Definition run_step (s : step) (r : value) : res value :=
  match s with
  | SResolve e => resolve_resource e r
  | SResolveRaw e => resolve e r
  | SExpand ex => expand_obj ex r
  end.
Fixpoint run_steps (l : list step) (r : value) : res value :=
  match l with [] => Ok r | s :: l' => r' <- run_step s r ;; run_steps l' r' end.
Definition is_raw (s : step) : bool := match s with SResolveRaw _ => true | _ => false end.
(* the bare resolver leaves a Type string alone when it is [type_fixed] (every modelled one is) *)
Definition survives (steps : list step) (v : value) : Prop :=
  v = VNull \/ exists t, v = VStr t /\ (existsb is_raw steps = true -> type_fixed t = true).

Lemma survives_lit steps v : survives steps v -> type_lit v.
Proof. intros [-> | (t & -> & _)]; [left; reflexivity | right; exists t; reflexivity]. Qed.
Lemma survives_tail s steps v : survives (s :: steps) v -> survives steps v.
Proof.
  intros [-> | (t & -> & H)]; [left; reflexivity | right]. exists t. split; [reflexivity|].
  intros E. apply H. cbn [existsb]. rewrite E. apply orb_true_r.
Qed.

Theorem step_keeps_type s steps d v r' :
  lookup K_Type d = Some v -> survives (s :: steps) v -> run_step s (VDict d) = Ok r' ->
  exists d', r' = VDict d' /\ lookup K_Type d' = Some v.
Proof.
  intros Hl Hs Hr. destruct s as [e|e|ex]; cbn [run_step] in Hr.
  - exact (resolve_resource_keeps_type e d v r' Hl (survives_lit _ _ Hs) Hr).
  - destruct Hs as [-> | (t & -> & Hf)].
    + exact (resolve_keeps e K_Type VNull d r' eq_refl eq_refl (Rendered.has_type_not_fn_dict _ _ Hl) Hl Hr).
    + exact (resolve_keeps_type e t d r' (Hf eq_refl) (Rendered.has_type_not_fn_dict _ _ Hl) Hl Hr).
  - destruct (expand_keeps_type_lit ex d v r' Hl (survives_lit _ _ Hs) Hr) as (d' & E & Hl' & _).
    exists d'. split; assumption.
Qed.
Theorem pipeline_keeps_type steps : forall d v r',
  lookup K_Type d = Some v -> survives steps v -> run_steps steps (VDict d) = Ok r' ->
  exists d', r' = VDict d' /\ lookup K_Type d' = Some v.
Proof.
  induction steps as [|s steps IH]; intros d v r' Hl Hs Hr; cbn [run_steps] in Hr.
  - inv Hr. exists d. split; [reflexivity | exact Hl].
  - destruct (run_step s (VDict d)) as [r1|] eqn:E1; cbn [bind] in Hr; [|discriminate].
    destruct (step_keeps_type s steps d v r1 Hl Hs E1) as (d1 & -> & Hl1).
    exact (IH d1 v r' Hl1 (survives_tail _ _ _ Hs) Hr).
Qed.

Section Pipeline.
  Variable modelled : list (str * str).
  Variable class_accepts : str -> value -> bool.
  Variable generic_accepts : value -> bool.
  Notation disp := (dispatch_resource modelled class_accepts generic_accepts).

  (* in strict mode the class and the Type attribute are functions of the Type entry *)
  Lemma same_type_same_parsed d d' o o' :
    lookup K_Type d' = lookup K_Type d -> disp true (VDict d) = Ok o -> disp true (VDict d') = Ok o' ->
    o_class o' = o_class o /\ type_attr (VDict d') = type_attr (VDict d).
  Proof.
    intros El Ho Ho'. rewrite (dispatch_strict_class _ _ _ _ _ Ho), (dispatch_strict_class _ _ _ _ _ Ho').
    unfold type_attr, type_of. rewrite El. split; reflexivity.
  Qed.

  (* strict mode: whatever the steps are, if the resource validates before and after, it has the same class and Type *)
  Theorem pipeline_preserves_class steps d v r' o o' :
    lookup K_Type d = Some v -> survives steps v -> run_steps steps (VDict d) = Ok r' ->
    disp true (VDict d) = Ok o -> disp true r' = Ok o' ->
    exists d', r' = VDict d' /\ lookup K_Type d' = lookup K_Type d /\ o_class o' = o_class o /\ type_attr r' = type_attr (VDict d).
  Proof.
    intros Hl Hs Hr Ho Ho'. destruct (pipeline_keeps_type steps d v r' Hl Hs Hr) as (d' & -> & Hl').
    assert (lookup K_Type d' = lookup K_Type d) as El by (rewrite Hl, Hl'; reflexivity).
    exists d'. split; [reflexivity|]. split; [exact El|]. exact (same_type_same_parsed d d' o o' El Ho Ho').
  Qed.
End Pipeline.

(* with strict mode OFF the class is NOT preserved: the class's verdict on the transformed definition may differ *)
Definition ex_swap_action : bool -> value -> res value := fun _ _ => Ok (VStr [121]).
Definition ex_def (t : str) : list (str * value) := [(K_Type, VStr t); (K_Action, VStr [120])].
Definition ex_accepts_x : str -> value -> bool :=
  fun _ r => match r with VDict [_; (_, VStr [120])] => true | _ => false end.

(* a whole Resources map through a list of steps *)
Inductive mstep :=
| MResolve (e : env) (resolved : list (str * bool))      (* CFModel.resolve: conditional resources dropped, the rest resolved *)
| MExpand (ex : bool -> value -> res value).             (* CFModel.expand_actions *)
Fixpoint expand_resources (ex : bool -> value -> res value) (rs : list (str * value)) : res (list (str * value)) :=
  match rs with
  | [] => Ok []
  | (id, r) :: rest => r' <- expand_obj ex r ;; rest' <- expand_resources ex rest ;; Ok ((id, r') :: rest')
  end.
Definition run_mstep (s : mstep) (rs : list (str * value)) : res (list (str * value)) :=
  match s with MResolve e resolved => resolve_resources e resolved rs | MExpand ex => expand_resources ex rs end.
Fixpoint run_msteps (l : list mstep) (rs : list (str * value)) : res (list (str * value)) :=
  match l with [] => Ok rs | s :: l' => rs' <- run_mstep s rs ;; run_msteps l' rs' end.
Definition is_mresolve (s : mstep) : bool := match s with MResolve _ _ => true | MExpand _ => false end.

Definition has_type (r : value) (v : value) : Prop := exists d, r = VDict d /\ lookup K_Type d = Some v /\ type_lit v.
(* [r'] carries the Type entry of [r] *)
Definition stable (r r' : value) : Prop := forall v, has_type r v -> has_type r' v.
(* [rs'] comes from [rs] by dropping entries and transforming the others without touching their Type entry *)
Inductive evolves : list (str * value) -> list (str * value) -> Prop :=
| ev_nil : evolves [] []
| ev_keep id r r' l l' : stable r r' -> evolves l l' -> evolves ((id, r) :: l) ((id, r') :: l')
| ev_drop id r l l' : evolves l l' -> evolves ((id, r) :: l) l'.

Lemma evolves_refl l : evolves l l.
Proof. induction l as [|[id r] l IH]; constructor; [intros v H; exact H | exact IH]. Qed.
Lemma evolves_trans a b : evolves a b -> forall c, evolves b c -> evolves a c.
Proof.
  intros H. induction H as [|id r r' l l' Hs H IH|id r l l' H IH]; intros c Hc.
  - exact Hc.
  - inversion Hc as [|id0 r0 r'' l0 l'' Hs' Hc' E1 E2|id0 r0 l0 l'' Hc' E1 E2]; subst.
    + constructor; [intros v Hv; apply Hs'; apply Hs; exact Hv | apply IH; exact Hc'].
    + apply ev_drop. apply IH. exact Hc'.
  - apply ev_drop. apply IH. exact Hc.
Qed.
Lemma evolves_keys_same a b : evolves a b -> List.length b = List.length a -> keys b = keys a.
Proof.
  intros H. assert (forall x y, evolves x y -> (List.length y <= List.length x)%nat) as Hle.
  { intros x y Hxy. induction Hxy; simpl; lia. }
  induction H as [|id r r' l l' Hs H IH|id r l l' H IH]; intros Hlen; [reflexivity| |].
  - unfold keys in *. simpl in *. f_equal. apply IH. lia.
  - apply Hle in H. simpl in Hlen. lia.
Qed.

Lemma resolve_resources_evolves e resolved : forall rs rs', resolve_resources e resolved rs = Ok rs' -> evolves rs rs'.
Proof.
  induction rs as [|[id r] rs IH]; intros rs' H; cbn [resolve_resources] in H; [inv H; constructor|].
  destruct (gate resolved r) as [keep|] eqn:G; cbn [bind] in H; [|discriminate]. destruct keep.
  - destruct (resolve_resource e r) as [r1|] eqn:R; cbn [bind] in H; [|discriminate].
    destruct (resolve_resources e resolved rs) as [rest|] eqn:Rs; cbn [bind] in H; [|discriminate]. inv H.
    constructor; [|apply IH; reflexivity]. intros v (d & -> & Hl & Hv).
    destruct (resolve_resource_keeps_type e d v r1 Hl Hv R) as (d' & -> & Hl'). exists d'. repeat split; assumption.
  - apply ev_drop. apply IH. exact H.
Qed.
Lemma expand_resources_evolves ex : forall rs rs', expand_resources ex rs = Ok rs' -> evolves rs rs' /\ keys rs' = keys rs.
Proof.
  induction rs as [|[id r] rs IH]; intros rs' H; cbn [expand_resources] in H; [inv H; split; [constructor | reflexivity]|].
  destruct (expand_obj ex r) as [r1|] eqn:R; cbn [bind] in H; [|discriminate].
  destruct (expand_resources ex rs) as [rest|] eqn:Rs; cbn [bind] in H; [|discriminate]. inv H.
  destruct (IH rest eq_refl) as [He Hk]. split; [|unfold keys in *; simpl; f_equal; exact Hk].
  constructor; [|exact He]. intros v (d & -> & Hl & Hv).
  destruct (expand_keeps_type_lit ex d v r1 Hl Hv R) as (d' & -> & Hl' & _). exists d'. repeat split; assumption.
Qed.
Theorem run_msteps_evolves steps : forall rs rs', run_msteps steps rs = Ok rs' ->
  evolves rs rs' /\ (existsb is_mresolve steps = false -> keys rs' = keys rs).
Proof.
  induction steps as [|s steps IH]; intros rs rs' H; cbn [run_msteps] in H.
  - inv H. split; [apply evolves_refl | reflexivity].
  - destruct (run_mstep s rs) as [rs1|] eqn:E1; cbn [bind] in H; [|discriminate]. destruct (IH rs1 rs' H) as [He Hk].
    destruct s as [e resolved|ex]; cbn [run_mstep] in E1.
    + split; [|discriminate]. exact (evolves_trans _ _ (resolve_resources_evolves _ _ _ _ E1) _ He).
    + destruct (expand_resources_evolves ex rs rs1 E1) as [He1 Hk1].
      split; [exact (evolves_trans _ _ He1 _ He)|]. cbn [existsb is_mresolve orb]. intros N. rewrite (Hk N). exact Hk1.
Qed.

Section PipelineMap.
  Variable modelled : list (str * str).
  Variable class_accepts : str -> value -> bool.
  Variable generic_accepts : value -> bool.
  Notation disp := (dispatch_resource modelled class_accepts generic_accepts).
  Notation parse := (parse_resources modelled class_accepts generic_accepts).

  (* every member is a dumped resource: an object with a Type entry (model_dump writes every declared field) *)
  Definition dumped (r : value) : Prop := exists d v, r = VDict d /\ lookup K_Type d = Some v.

  Lemma stable_same_parsed r r' o o' :
    dumped r -> stable r r' -> disp true r = Ok o -> disp true r' = Ok o' ->
    {| p_class := o_class o'; p_type := type_attr r' |} = {| p_class := o_class o; p_type := type_attr r |}.
  Proof.
    intros (d & v & -> & Hl) Hs Ho Ho'.
    assert (type_lit v) as Hv.
    { pose proof Ho as Ho1. rewrite dispatch_decision_table in Ho1. cbv zeta in Ho1. unfold type_of in Ho1. rewrite Hl in Ho1.
      destruct v as [| | |t| | | |]; try discriminate; [left; reflexivity | right; exists t; reflexivity]. }
    destruct (Hs v) as (d' & -> & Hl' & _); [exists d; repeat split; assumption|].
    assert (lookup K_Type d' = lookup K_Type d) as El by (rewrite Hl, Hl'; reflexivity).
    destruct (same_type_same_parsed _ _ _ d d' o o' El Ho Ho') as [-> ->]. reflexivity.
  Qed.
  Lemma evolves_parsed defs defs' : evolves defs defs' -> Forall (fun ir => dumped (snd ir)) defs ->
    forall rs rs', parse true defs = Ok rs -> parse true defs' = Ok rs' -> subseq rs' rs.
  Proof.
    intros H. induction H as [|id r r' l l' Hs H IH|id r l l' H IH]; intros Hd rs rs' Hp Hp'.
    - cbn [parse_resources] in Hp, Hp'. inv Hp. inv Hp'. constructor.
    - apply Forall_cons_iff in Hd. destruct Hd as [Hr Hd]. cbn [snd] in Hr.
      destruct (parse_resources_cons _ _ _ _ _ _ _ _ Hp) as (o & rest & D & P & ->).
      destruct (parse_resources_cons _ _ _ _ _ _ _ _ Hp') as (o' & rest' & D' & P' & ->).
      rewrite (stable_same_parsed r r' o o' Hr Hs D D'). constructor. exact (IH Hd rest rest' P P').
    - apply Forall_cons_iff in Hd. destruct Hd as [_ Hd].
      destruct (parse_resources_cons _ _ _ _ _ _ _ _ Hp) as (o & rest & _ & P & ->).
      apply sub_drop. exact (IH Hd rest rs' P Hp').
  Qed.

  (* strict mode, any steps: the parsed resources afterwards are the parsed resources before, restricted to the logical
     ids that survive (conditional resources may go) -- same classes, same Type attributes, same order *)
  Theorem pipeline_map_preserves steps defs defs' rs rs' :
    run_msteps steps defs = Ok defs' -> NoDup (keys defs) -> Forall (fun ir => dumped (snd ir)) defs ->
    parse true defs = Ok rs -> parse true defs' = Ok rs' ->
    rs' = filter (fun ir => mem_str (fst ir) (keys defs')) rs /\
    (existsb is_mresolve steps = false -> rs' = rs).
  Proof.
    intros Hr Hn Hd Hp Hp'. destruct (run_msteps_evolves steps defs defs' Hr) as [He Hk].
    pose proof (evolves_parsed defs defs' He Hd rs rs' Hp Hp') as Hs.
    pose proof (parse_resources_keys _ _ _ _ _ _ Hp) as K. pose proof (parse_resources_keys _ _ _ _ _ _ Hp') as K'.
    assert (rs' = filter (fun ir => mem_str (fst ir) (keys defs')) rs) as E.
    { rewrite <- K'. apply subseq_by_keys; [exact Hs | rewrite K; exact Hn]. }
    split; [exact E|]. intros N. rewrite E, (Hk N), <- K. apply filter_all. intros [i p] Hi. cbn [fst].
    apply mem_str_In. apply in_map_iff. exists (i, p). split; [reflexivity | exact Hi].
  Qed.
  (* hence every filter commutes with every such sequence *)
  Theorem filter_commutes_with_pipeline bases allowed steps defs defs' rs rs' :
    run_msteps steps defs = Ok defs' -> NoDup (keys defs) -> Forall (fun ir => dumped (snd ir)) defs ->
    parse true defs = Ok rs -> parse true defs' = Ok rs' ->
    filter_by_type bases allowed rs' = filter (fun ir => mem_str (fst ir) (keys defs')) (filter_by_type bases allowed rs) /\
    keys (filter_by_type bases allowed rs') = filter (fun id => mem_str id (keys defs')) (keys (filter_by_type bases allowed rs)) /\
    (existsb is_mresolve steps = false -> filter_by_type bases allowed rs' = filter_by_type bases allowed rs).
  Proof.
    intros Hr Hn Hd Hp Hp'. destruct (pipeline_map_preserves steps defs defs' rs rs' Hr Hn Hd Hp Hp') as [E Ex].
    assert (filter_by_type bases allowed rs' = filter (fun ir => mem_str (fst ir) (keys defs')) (filter_by_type bases allowed rs)) as F.
    { rewrite E. unfold filter_by_type. apply filter_comm. }
    split; [exact F|]. split; [rewrite F; apply (keys_filter_fst (fun id => mem_str id (keys defs')))|].
    intros N. rewrite (Ex N). reflexivity.
  Qed.
End PipelineMap.

(* re-proved by the kernel on every run: no modelled class, nor GenericResource, has another of them among its bases *)
Theorem Schema_classes_flat : flat bases_of (GENERIC :: MODELLED_CLASSES).
Proof.
  assert (forallb (fun c => forallb (fun c' => negb (mem_str c (bases_of c'))) (GENERIC :: MODELLED_CLASSES))
                  (GENERIC :: MODELLED_CLASSES) = true) as F by (vm_compute; reflexivity).
  intros c c' Hc Hc' Hin. rewrite forallb_forall in F. specialize (F c Hc). rewrite forallb_forall in F. specialize (F c' Hc').
  apply mem_str_In in Hin. rewrite Hin in F. discriminate.
Qed.

Theorem table_entry_iff t c : In (t, c) RESOURCE_MODELS <-> class_of RESOURCE_MODELS t = Some c.
Proof.
  split; [|apply lookup_In]. apply lookup_NoDup_In. exact (proj1 Schema_types_distinct).
Qed.
Lemma table_generic_is_no_class : ~ In GENERIC (map snd RESOURCE_MODELS).
Proof. exact (proj2 (proj2 Schema_types_distinct)). Qed.
Lemma table_unmodelled t : class_of RESOURCE_MODELS t = None <-> ~ In t MODELLED_TYPES.
Proof.
  rewrite class_of_modelled. split.
  - intros H [c Hc]. rewrite H in Hc. discriminate.
  - intros H. destruct (class_of RESOURCE_MODELS t) as [c|] eqn:E; [|reflexivity]. exfalso. apply H. exists c. reflexivity.
Qed.

(* every class of a parsed resource is a modelled class or GenericResource *)
Theorem table_parsed_classes ca ga strict defs rs :
  parse_resources RESOURCE_MODELS ca ga strict defs = Ok rs -> Forall (fun ir => In (p_class (snd ir)) (GENERIC :: MODELLED_CLASSES)) rs.
Proof.
  intros Hp. pose proof (parse_resources_wf _ _ _ _ _ _ Hp) as Hw. rewrite Forall_forall in *. intros ir Hir.
  exact (wf_parsed_class RESOURCE_MODELS strict _ (Hw ir Hir)).
Qed.
