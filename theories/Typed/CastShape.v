(* C18 -- what the structural theorems about the generic cast (Typed/Cast.v) of an arbitrary annotated JSON value are stated
   with, and the lemmas Properties/C18.v and Typed/CollectFacts.v share: paths into a value and into its cast, containers the
   cast goes through member by member, members a typed list reads as the cast reads them alone, the skeleton of a value and
   the enumeration of its paths, the classifier of plain text, values no alternative converts and their dump.  Every
   statement is for every configuration [c] of the algorithm and every annotation unless a hypothesis says otherwise. *)
From Coq Require Import List Bool NArith ZArith Lia.
From Coq Require String.
From PV Require Typed.Witness.
From PV Require Import Base.Str Base.Value Typed.GValue Typed.Cast Typed.CastFacts Typed.Literals Typed.Collect Typed.CastOk.
Import ListNotations.

(* A member of an object is addressed by its position AND its key (JSON spelling: $.k, the position only tells two
   equal keys apart); [Json] enters the decoded form of a JSON-encoded string (used by C13, Typed/CollectFacts.v). *)
Inductive step := Idx (i : nat) | Mem (i : nat) (k : str) | Json.
Definition path := list step.

Definition gchild (g : gvalue) (s : step) : option gvalue :=
  match s, g with
  | Idx i, GList l => nth_error l i
  | Mem i k, GDict d _ =>
      match nth_error d i with Some (k', x) => if str_eqb k k' then Some x else None | None => None end
  | Json, GStr _ (Some j) _ => Some j
  | _, _ => None
  end.
Fixpoint gat (g : gvalue) (p : path) : option gvalue :=
  match p with
  | [] => Some g
  | s :: p' => match gchild g s with Some x => gat x p' | None => None end
  end.
Definition tchild (t : tval) (s : step) : option tval :=
  match s, t with
  | Idx i, TList l => nth_error l i
  | Mem i k, TGeneric d =>
      match nth_error d i with Some (k', x) => if str_eqb k k' then Some x else None | None => None end
  | _, _ => None
  end.
Fixpoint tat (t : tval) (p : path) : option tval :=
  match p with
  | [] => Some t
  | s :: p' => match tchild t s with Some x => tat x p' | None => None end
  end.

(* a container the cast goes through member by member: an array no alternative reads as a typed list (or reads as a list of
   strings, whose members are cast again one by one), an object that is neither a function call nor a property model *)
Definition transparent (c : cfg) (g : gvalue) : bool :=
  match g with
  | GList _ => match choose c g with CNone | CList BStr => true | _ => false end
  | GDict _ _ => is_cnone (choose c g)
  | _ => false
  end.
(* ... any array, typed or not *)
Definition passable (c : cfg) (g : gvalue) : bool :=
  match g with
  | GList _ => true
  | GDict _ _ => is_cnone (choose c g)
  | _ => false
  end.
(* every node strictly above the end of the path satisfies [ok] *)
Fixpoint along (ok : gvalue -> bool) (g : gvalue) (p : path) : bool :=
  match p with
  | [] => true
  | s :: p' => ok g && match gchild g s with Some x => along ok x p' | None => false end
  end.

Lemma transparent_passable c g : transparent c g = true -> passable c g = true.
Proof. destruct g; simpl; try discriminate; auto. Qed.
Lemma along_weaken (ok ok' : gvalue -> bool) :
  (forall g, ok g = true -> ok' g = true) -> forall p g, along ok g p = true -> along ok' g p = true.
Proof.
  intros W. induction p as [|s p IH]; intros g H; [reflexivity|]. cbn [along] in *.
  apply andb_prop in H. destruct H as [H1 H2]. rewrite (W g H1). simpl.
  destruct (gchild g s) as [x|]; [apply IH; exact H2|discriminate].
Qed.

Lemma cast_list_untyped c l :
  transparent c (GList l) = true -> cast c (GList l) = TList (map (cast c) l).
Proof.
  unfold transparent. destruct (cast_list_cases c l) as [[_ E]|(b & Hb & E & _)]; [intros _; exact E|].
  rewrite E. destruct b; congruence.
Qed.

(* [local_value c v]: every alternative that may read v as a member of a typed list reads it as the cast reads
   it on its own.  Arrays, objects and null always are; numbers and booleans are under the guards of the specified
   algorithm; text is when it has one reading. *)
Definition local_value (c : cfg) (v : gvalue) : Prop :=
  forall b t, b <> BStr -> guard_item c b v = true -> member c b v = Some t -> t = cast c v.

Lemma local_nonscalar c g : is_scalar g = false -> local_value c g.
Proof.
  intros H b t _ _ M. rewrite (member_nonscalar c b g H) in M.
  destruct (fnb c g) eqn:F; [|discriminate]. inversion M. symmetry. apply cast_fn. exact F.
Qed.
Corollary local_null c : local_value c GNull.
Proof. apply local_nonscalar. reflexivity. Qed.
Corollary local_list c l : local_value c (GList l).
Proof. apply local_nonscalar. reflexivity. Qed.
Corollary local_dict c d r : local_value c (GDict d r).
Proof. apply local_nonscalar. reflexivity. Qed.

(* numbers and booleans: for every configuration and every annotation *)
Theorem bool_stays c b a : cast c (GBool b a) = TBool b.
Proof. cbn [cast choose]. unfold BRANCHES. cbn. reflexivity. Qed.
Theorem int_stays c z a : cast c (GInt z a) = TInt z.
Proof.
  cbn [cast choose]. unfold BRANCHES. cbn [first_branch]. unfold aborts, try_branch. cbn.
  rewrite !andb_false_r. cbn. reflexivity.
Qed.
(* a float stays a float, or -- a whole number -- becomes the integer the integer parser reads; never anything else *)
Theorem float_stays c x a :
  c_guard_num c = true -> cast c (GFloat x a) = match a_int a with Some z => TInt z | None => TFloat x end.
Proof.
  intros G. cbn [cast choose]. unfold BRANCHES. cbn [first_branch]. unfold aborts, try_branch. cbn.
  rewrite G. rewrite !andb_false_r. cbn. destruct (a_int a) as [z|]; cbn; reflexivity.
Qed.

(* "the same number" *)
Definition is_json_number (g : gvalue) : bool := match g with GInt _ _ | GFloat _ _ => true | _ => false end.
Definition number_kept (g : gvalue) (t : tval) : bool :=
  match g, t with
  | GInt z _, TInt z' => Z.eqb z z'
  | GFloat x _, TFloat x' => str_eqb x x'
  | GFloat x _, TInt z => float_denotes_int x z
  | _, _ => false
  end.

(* a decidable sufficient condition for scalar leaves (the comparison of typed atoms is by their text) *)
Definition teqb (t u : tval) : bool :=
  match t, u with
  | TNull, TNull => true
  | TBool a, TBool b => Bool.eqb a b
  | TInt a, TInt b => Z.eqb a b
  | TFloat a, TFloat b | TStr a, TStr b | TDate a, TDate b | TDatetime a, TDatetime b => str_eqb a b
  | TNet k a, TNet k' b => tkind_eqb k k' && str_eqb a b
  | _, _ => false
  end.
Lemma teqb_eq t u : teqb t u = true -> t = u.
Proof.
  destruct t as [|a|a|a|a|a|a|k a|raw|r|l|d], u as [|b|b|b|b|b|b|k' b|raw'|r'|l'|d']; simpl; try discriminate; intros H;
    try (apply str_eqb_spec in H; congruence).
  - reflexivity.
  - apply eqb_prop in H. congruence.
  - apply Z.eqb_eq in H. congruence.
  - apply andb_prop in H. destruct H as [H1 H2]. apply str_eqb_spec in H2. destruct k, k'; try discriminate; congruence.
Qed.
Definition localb (c : cfg) (v : gvalue) : bool :=
  negb (is_scalar v) ||
  forallb (fun b => match b with
                    | BStr => true
                    | _ => negb (guard_item c b v) || match scalar b v with None => true | Some t => teqb t (cast c v) end
                    end) BRANCHES.

Lemma nth_error_cast_props c d i k x :
  nth_error d i = Some (k, x) -> nth_error (cast_props c d) i = Some (k, cast c x).
Proof.
  intros H. unfold cast_props.
  apply (map_nth_error (fun kv : str * gvalue => match kv with (k0, x0) => (k0, cast c x0) end) i d H).
Qed.

(* one step through a transparent container *)
Lemma cast_child c g s x :
  transparent c g = true -> gchild g s = Some x -> tchild (cast c g) s = Some (cast c x).
Proof.
  intros T H. destruct g as [| | | | |l|d r]; try discriminate.
  - rewrite (cast_list_untyped c l T). destruct s; try discriminate. cbn [gchild tchild] in *.
    apply map_nth_error. exact H.
  - unfold transparent in T. destruct (choose c (GDict d r)) eqn:E; try discriminate.
    rewrite (cast_dict_plain c d r E). destruct s as [|i k|]; try discriminate. cbn [gchild tchild] in *.
    destruct (nth_error d i) as [[k' y]|] eqn:N; [|discriminate].
    rewrite (nth_error_cast_props c d i k' y N). destruct (str_eqb k k'); [|discriminate]. congruence.
Qed.

Lemma gat_middle l1 v l2 : gat (GList (l1 ++ v :: l2)) [Idx (length l1)] = Some v.
Proof. cbn [gat gchild]. rewrite nth_error_app2 by lia. rewrite Nat.sub_diag. reflexivity. Qed.
(* whether an object is recognised does not depend on the VALUES of its members (keys and the recogniser's answer only) *)
Theorem choose_dict_keys_only c d d' r : map fst d = map fst d' -> choose c (GDict d r) = choose c (GDict d' r).
Proof.
  intros H. unfold choose, fnb.
  destruct d as [|[k x] [|kv d]], d' as [|[k' x'] [|kv' d']]; try discriminate; try reflexivity.
  simpl in H. inversion H. reflexivity.
Qed.

(* the skeleton of a value (arrays with their lengths, objects with their keys in order) and path enumeration *)
Inductive skel := SLeaf | SArr (l : list skel) | SObj (d : list (str * skel)).
Fixpoint gskel (g : gvalue) : skel :=
  match g with
  | GList l => SArr (map gskel l)
  | GDict d _ => SObj (map (fun kv => match kv with (k, x) => (k, gskel x) end) d)
  | _ => SLeaf
  end.
Fixpoint tskel (t : tval) : skel :=
  match t with
  | TList l => SArr (map tskel l)
  | TGeneric d => SObj (map (fun kv => match kv with (k, x) => (k, tskel x) end) d)
  | _ => SLeaf
  end.

Inductive nkind := NLeaf | NArr | NObj.
Definition under {X} (s : step) (px : path * X) : path * X := (s :: fst px, snd px).
(* what [f] lists for each member of [l], every path under the step [st i x] of the member at position i (counted from [i]):
   the shape of the inner loops of [spaths] below and of [positions_p] (Typed/CollectFacts.v) *)
Definition steps {X Y} (st : nat -> X -> step) (f : X -> list (path * Y)) : list X -> nat -> list (path * Y) :=
  fix go l i := match l with [] => [] | x :: r => map (under (st i x)) (f x) ++ go r (S i) end.
Lemma steps_in {X Y} st (f : X -> list (path * Y)) l : forall i p y,
  In (p, y) (steps st f l i) <-> exists n x q, p = st (i + n) x :: q /\ nth_error l n = Some x /\ In (q, y) (f x).
Proof.
  induction l as [|x l IH]; intros i p y; cbn [steps].
  - split; [contradiction|]. intros (n & x & q & _ & N & _). destruct n; discriminate.
  - rewrite in_app_iff, in_map_iff, IH. split.
    + intros [([q y'] & E & H)|(n & x' & q & -> & N & H)].
      * inversion E; subst. exists 0, x, q. rewrite Nat.add_0_r. auto.
      * exists (S n), x', q. rewrite <- plus_n_Sm. auto.
    + intros ([|n] & x' & q & -> & N & H).
      * left. inversion N; subst x'. exists (q, y). rewrite Nat.add_0_r. auto.
      * right. exists n, x', q. rewrite <- plus_n_Sm. auto.
Qed.
(* every node with its path, in document order (pre-order) *)
Fixpoint spaths (s : skel) : list (path * nkind) :=
  match s with
  | SLeaf => [([], NLeaf)]
  | SArr l =>
      ([], NArr) ::
      (fix go (l : list skel) (i : nat) : list (path * nkind) :=
         match l with [] => [] | x :: r => map (under (Idx i)) (spaths x) ++ go r (S i) end) l 0
  | SObj d =>
      ([], NObj) ::
      (fix go (d : list (str * skel)) (i : nat) : list (path * nkind) :=
         match d with [] => [] | (k, x) :: r => map (under (Mem i k)) (spaths x) ++ go r (S i) end) d 0
  end.
Definition gpaths (g : gvalue) : list (path * nkind) := spaths (gskel g).
Definition tpaths (t : tval) : list (path * nkind) := spaths (tskel t).
Definition is_leaf_kind (k : nkind) : bool := match k with NLeaf => true | _ => false end.
Definition leaf_paths (ps : list (path * nkind)) : list path := map fst (filter (fun pk => is_leaf_kind (snd pk)) ps).

(* nothing below g is recognised: no object is a property model or a function call, no JSON text encodes a container the
   union accepts (such text becomes that container) *)
Fixpoint shape_plain (c : cfg) (g : gvalue) : bool :=
  match g with
  | GStr _ (Some j) _ => match choose c j with CNone | CScalar _ => true | _ => false end
  | GList l => forallb (shape_plain c) l
  | GDict d _ => is_cnone (choose c g) && forallb (fun kv => shape_plain c (snd kv)) d
  | _ => true
  end.

Lemma atom_skel t : atom t = true -> tskel t = SLeaf.
Proof. destruct t; try discriminate; reflexivity. Qed.

Theorem skel_preserved c : forall g, shape_plain c g = true -> tskel (cast c g) = gskel g.
Proof.
  induction g as [g L|s j a IHj|l IHl|d r IHd] using gvalue_ind'; intros SP; cbn [shape_plain gskel] in SP |- *.
  - rewrite (atom_skel _ (cast_leaf_atom c g L)). destruct g as [| | | |? [?|] ?| |]; try discriminate; reflexivity.
  - cbn [cast]. destruct (choose c j) as [| |t|b|] eqn:E; try discriminate; cbn [finish]; [|reflexivity].
    exact (atom_skel t (choose_scalar_atom c j t E)).
  - rewrite forallb_forall in SP. rewrite Forall_forall in IHl.
    destruct (cast_list_cases c l) as [[_ ->]|(b & Hb & E & ->)]; cbn [tskel]; f_equal; rewrite map_map; apply map_ext_in;
      intros x Hx.
    + apply IHl; auto.
    + destruct (typed_member c l b x E Hb Hx) as [[_ Sc]|[_ ->]]; [|apply IHl; auto].
      rewrite (atom_skel _ (scalar_atom _ _ _ Sc)). apply scalar_inv in Sc. destruct Sc as [Sc _].
      destruct x; try discriminate; reflexivity.
  - apply andb_prop in SP. destruct SP as [C SP]. destruct (choose c (GDict d r)) eqn:E; try discriminate.
    rewrite (cast_dict_plain c d r E). cbn [tskel]. f_equal. unfold cast_props. rewrite map_map.
    rewrite forallb_forall in SP. rewrite Forall_forall in IHd.
    apply map_ext_in. intros [k x] Hx. f_equal. apply (IHd (k, x) Hx). apply (SP (k, x) Hx).
Qed.

(* what the enumeration enumerates: (p, k) is listed iff p leads to a node of kind k *)
Definition skind (s : skel) : nkind := match s with SLeaf => NLeaf | SArr _ => NArr | SObj _ => NObj end.
Definition schild (s : skel) (st : step) : option skel :=
  match st, s with
  | Idx i, SArr l => nth_error l i
  | Mem i k, SObj d =>
      match nth_error d i with Some (k', x) => if str_eqb k k' then Some x else None | None => None end
  | _, _ => None
  end.
Fixpoint sat (s : skel) (p : path) : option skel :=
  match p with
  | [] => Some s
  | st :: p' => match schild s st with Some x => sat x p' | None => None end
  end.

Lemma spaths_arr l : spaths (SArr l) = ([], NArr) :: steps (fun i _ => Idx i) spaths l 0.
Proof. reflexivity. Qed.
Lemma spaths_obj d : spaths (SObj d) = ([], NObj) :: steps (fun i kv => Mem i (fst kv)) (fun kv => spaths (snd kv)) d 0.
Proof.
  cbn [spaths]. f_equal. generalize 0. induction d as [|[k x] d IH]; intros i; [reflexivity|].
  cbn [steps fst snd]. f_equal. apply IH.
Qed.

(* the empty path is listed once, with the kind of the node; a longer path with what is listed below the child it enters *)
Lemma spaths_root sk k : In ([], k) (spaths sk) <-> skind sk = k.
Proof.
  assert (forall X (st : nat -> X -> step) f (l : list X), ~ In ([], k) (steps st f l 0)) as N.
  { intros X st f l H. apply steps_in in H. destruct H as (n & x & q & E & _). discriminate. }
  destruct sk as [|l|d]; [|rewrite spaths_arr|rewrite spaths_obj]; cbn [spaths In skind]; split;
    try (intros <-; left; reflexivity); (intros [H|H]; [inversion H; reflexivity|]); [contradiction|apply N in H..]; contradiction.
Qed.
Lemma spaths_cons sk s q k : In (s :: q, k) (spaths sk) <-> exists x, schild sk s = Some x /\ In (q, k) (spaths x).
Proof.
  destruct sk as [|l|d].
  - split; [intros [H|[]]; discriminate|intros (x & H & _); destruct s; discriminate].
  - rewrite spaths_arr. cbn [In]. rewrite steps_in. split.
    + intros [H|(n & x & q' & E & N & H)]; [discriminate|]. inversion E; subst. exists x. auto.
    + intros (x & C & H). right. destruct s as [i| |]; try discriminate. exists i, x, q. auto.
  - rewrite spaths_obj. cbn [In]. rewrite steps_in. split.
    + intros [H|(n & [key x] & q' & E & N & H)]; [discriminate|]. inversion E; subst. exists x.
      cbn [schild fst Nat.add]. rewrite N, str_eqb_refl. auto.
    + intros (x & C & H). right. destruct s as [|i key|]; try discriminate. cbn [schild] in C.
      destruct (nth_error d i) as [[key' x']|] eqn:N; [|discriminate]. destruct (str_eqb key key') eqn:E; [|discriminate].
      apply str_eqb_spec in E. inversion C. subst. exists i, (key', x), q. auto.
Qed.
Theorem spaths_spec sk p k : In (p, k) (spaths sk) <-> exists sk', sat sk p = Some sk' /\ skind sk' = k.
Proof.
  revert sk. induction p as [|s q IH]; intros sk; cbn [sat].
  - rewrite spaths_root. split; [intros <-; eauto|intros (sk' & E & <-); inversion E; reflexivity].
  - rewrite spaths_cons. split.
    + intros (x & C & H). rewrite C. apply IH. exact H.
    + intros (sk' & H & K). destruct (schild sk s) as [x|]; [|discriminate]. exists x. split; [reflexivity|]. apply IH. eauto.
Qed.

Definition gkind (g : gvalue) : nkind := match g with GList _ => NArr | GDict _ _ => NObj | _ => NLeaf end.
Definition tkind_of (t : tval) : nkind := match t with TList _ => NArr | TGeneric _ => NObj | _ => NLeaf end.
Definition json_free (p : path) : bool := forallb (fun st => match st with Json => false | _ => true end) p.
Lemma skind_gskel g : skind (gskel g) = gkind g.
Proof. destruct g; reflexivity. Qed.
Lemma skind_tskel t : skind (tskel t) = tkind_of t.
Proof. destruct t; reflexivity. Qed.
Lemma sat_gskel : forall p g, json_free p = true -> sat (gskel g) p = option_map gskel (gat g p).
Proof.
  induction p as [|st p IH]; intros g J; [reflexivity|]. cbn [json_free forallb] in J. apply andb_prop in J. destruct J as [J1 J2].
  cbn [sat gat]. destruct st as [i|i k|]; [| |discriminate].
  - destruct g as [| | | | |l|d r]; try reflexivity. cbn [gskel schild gchild]. rewrite nth_error_map.
    destruct (nth_error l i) as [x|]; [apply IH; exact J2|reflexivity].
  - destruct g as [| | | | |l|d r]; try reflexivity. cbn [gskel schild gchild]. rewrite nth_error_map.
    destruct (nth_error d i) as [[k' x]|]; [|reflexivity]. cbn [option_map].
    destruct (str_eqb k k'); [apply IH; exact J2|reflexivity].
Qed.
Lemma sat_tskel : forall p t, sat (tskel t) p = option_map tskel (tat t p).
Proof.
  induction p as [|st p IH]; intros t; [reflexivity|]. cbn [sat tat]. destruct st as [i|i k|].
  - destruct t as [| | | | | | | | | |l|d]; try reflexivity. cbn [tskel schild tchild]. rewrite nth_error_map.
    destruct (nth_error l i) as [x|]; [apply IH|reflexivity].
  - destruct t as [| | | | | | | | | |l|d]; try reflexivity. cbn [tskel schild tchild]. rewrite nth_error_map.
    destruct (nth_error d i) as [[k' x]|]; [|reflexivity]. cbn [option_map].
    destruct (str_eqb k k'); [apply IH|reflexivity].
  - destruct t; reflexivity.
Qed.
Lemma sat_json_free : forall p sk sk', sat sk p = Some sk' -> json_free p = true.
Proof.
  induction p as [|st p IH]; intros sk sk' H; [reflexivity|]. cbn [sat] in H.
  destruct (schild sk st) as [x|] eqn:C; [|discriminate]. cbn [json_free forallb].
  destruct st; [| |destruct sk; discriminate]; apply (IH x sk' H).
Qed.

(* Plain text (text json.loads rejects) falls in exactly one family; the family is decided by
   the text's own readings (SemiStrictBool, modelled; the int / date / timestamp / network parsers, oracles of the text) in
   the order of the union, and by nothing else -- of the configuration only the numbers guard takes part. *)
Inductive fam :=
| FamBool        (* true / false in any letter case *)
| FamInt         (* an integer literal *)
| FamNumText     (* other text float() reads: kept as text (guard _not_from_numbers) *)
| FamAborted     (* a date / timestamp parser RAISES on it (year 0): kept as text *)
| FamDate | FamDatetime | FamNet
| FamKept.       (* no reading: kept as text *)

Definition classify (c : cfg) (s : str) (a : sann) : fam :=
  match bool_literal s with Some _ => FamBool | None =>
  match a_int a with Some _ => FamInt | None =>
  if c_guard_num c && a_float a then FamNumText
  else if a_abort_date a then FamAborted
  else match a_date a with Some _ => FamDate | None =>
  if a_abort_datetime a then FamAborted
  else match a_datetime a with Some _ => FamDatetime | None =>
  match a_net a with Some _ => FamNet | None => FamKept end end end end end.

Definition fam_result (s : str) (a : sann) (f : fam) : tval :=
  match f with
  | FamBool => match bool_literal s with Some b => TBool b | None => TStr s end
  | FamInt => match a_int a with Some z => TInt z | None => TStr s end
  | FamDate => match a_date a with Some d => TDate d | None => TStr s end
  | FamDatetime => match a_datetime a with Some d => TDatetime d | None => TStr s end
  | FamNet => match a_net a with Some kt => TNet (fst kt) (snd kt) | None => TStr s end
  | FamNumText | FamAborted | FamKept => TStr s
  end.

Theorem plain_text_classified c s a : cast c (GStr s None a) = fam_result s a (classify c s a).
Proof.
  cbn [cast choose]. unfold BRANCHES, classify, fam_result. cbn [first_branch]. unfold aborts, try_branch.
  cbn [guard guard_item scalar abort_item ann_of is_scalar is_number is_boolean negb andb].
  remember (bool_literal s) as bl eqn:B. clear B.
  rewrite !andb_false_r. cbn.
  destruct bl as [b|]; cbn; [reflexivity|].
  destruct (a_int a) as [z|]; cbn; [reflexivity|].
  destruct (c_guard_num c && a_float a); cbn; [reflexivity|].
  destruct (a_abort_date a); cbn; [reflexivity|].
  destruct (a_date a) as [d|]; cbn; [reflexivity|].
  destruct (a_abort_datetime a); cbn; [reflexivity|].
  destruct (a_datetime a) as [d|]; cbn; [reflexivity|].
  destruct (a_net a) as [kt|]; cbn; reflexivity.
Qed.

(* the families, each by its own defining condition (what is read, and that nothing earlier in the union reads) *)
Definition reads_text (c : cfg) (s : str) (a : sann) : Prop :=      (* the date / timestamp / network alternatives see the text *)
  bool_literal s = None /\ a_int a = None /\ c_guard_num c && a_float a = false.
Definition in_fam (c : cfg) (s : str) (a : sann) (f : fam) : Prop :=
  match f with
  | FamBool => bool_literal s <> None
  | FamInt => bool_literal s = None /\ a_int a <> None
  | FamNumText => bool_literal s = None /\ a_int a = None /\ c_guard_num c && a_float a = true
  | FamDate => reads_text c s a /\ a_abort_date a = false /\ a_date a <> None
  | FamDatetime => reads_text c s a /\ a_abort_date a = false /\ a_date a = None /\ a_abort_datetime a = false /\ a_datetime a <> None
  | FamNet => reads_text c s a /\ a_abort_date a = false /\ a_date a = None /\ a_abort_datetime a = false /\ a_datetime a = None
              /\ a_net a <> None
  | FamAborted => reads_text c s a /\ (a_abort_date a = true \/ (a_abort_date a = false /\ a_date a = None /\ a_abort_datetime a = true))
  | FamKept => reads_text c s a /\ a_abort_date a = false /\ a_date a = None /\ a_abort_datetime a = false /\ a_datetime a = None
               /\ a_net a = None
  end.

(* the classifier decides membership: hence the families are EXHAUSTIVE and EXCLUSIVE *)
Theorem in_fam_iff c s a f : in_fam c s a f <-> classify c s a = f.
Proof.
  unfold classify, in_fam, reads_text. split.
  - (* the condition of a family fixes the outcome of every test the classifier makes on its way to that family *)
    destruct f; intros H; decompose [and or] H;
      repeat match goal with E : ?x = _ |- _ => rewrite E; clear E end;
      repeat match goal with N : ?x <> None |- _ => destruct x; [|contradiction (N eq_refl)]; clear N end;
      reflexivity.
  - (* down the decision list: at each of its nine exits the condition of the family chosen holds by what has been decided *)
    intros <-.
    destruct (bool_literal s); [|destruct (a_int a); [|destruct (c_guard_num c && a_float a); [|destruct (a_abort_date a);
      [|destruct (a_date a); [|destruct (a_abort_datetime a); [|destruct (a_datetime a); [|destruct (a_net a)]]]]]]];
      intuition congruence.
Qed.

Definition fam_kept (f : fam) : bool := match f with FamNumText | FamAborted | FamKept => true | _ => false end.
(* of the configuration only the numbers guard matters; function names, the empty-object rule, the booleans guard do not *)
Theorem classify_cfg c c' s a : c_guard_num c = c_guard_num c' -> classify c s a = classify c' s a.
Proof. intros H. unfold classify. rewrite H. reflexivity. Qed.

(* JSON text: the annotations of the text itself play no part; it stays the text when the union rejects what it encodes,
   and otherwise becomes the cast of what it encodes (text inside JSON text is not decoded a second time) *)
Definition unjson (j : gvalue) : gvalue := match j with GStr s _ a => GStr s None a | _ => j end.
Theorem json_text_ann_irrelevant c s j a a' : cast c (GStr s (Some j) a) = cast c (GStr s (Some j) a').
Proof. reflexivity. Qed.

(* [inj g]: the value as it stands, no leaf converted.  [inert c g]: no alternative that may
   look at a leaf of g reads it as anything but itself, JSON text encodes nothing the union accepts, no object is recognised.
   Decidable, so it can be evaluated on the dump of a concrete cast value. *)
Fixpoint inj (g : gvalue) : tval :=
  match g with
  | GNull => TNull
  | GBool b _ => TBool b
  | GInt z _ => TInt z
  | GFloat x _ => TFloat x
  | GStr s _ _ => TStr s
  | GList l => TList (map inj l)
  | GDict d _ => TGeneric (map (fun kv => match kv with (k, x) => (k, inj x) end) d)
  end.
Definition leaf_inert (c : cfg) (g : gvalue) : bool :=
  forallb (fun b => negb (guard_item c b g) || match scalar b g with None => true | Some t => teqb t (inj g) end) BRANCHES.
Fixpoint inert (c : cfg) (g : gvalue) : bool :=
  match g with
  | GNull => true
  | GBool _ _ => leaf_inert c g
  | GInt _ _ => leaf_inert c g
  | GFloat _ _ => leaf_inert c g
  | GStr _ None _ => leaf_inert c g
  | GStr _ (Some j) _ => leaf_inert c g && is_cnone (choose c j)
  | GList l => forallb (inert c) l
  | GDict d _ => is_cnone (choose c g) && forallb (fun kv => inert c (snd kv)) d
  end.

Lemma inert_leaf c g : inert c g = true -> is_scalar g = true -> leaf_inert c g = true.
Proof.
  destruct g as [| | | |s [j|] a| |]; cbn [inert is_scalar]; try discriminate; auto.
  intros H _. apply andb_prop in H. tauto.
Qed.
Lemma leaf_inert_reading c g b t :
  leaf_inert c g = true -> guard_item c b g = true -> scalar b g = Some t -> t = inj g.
Proof.
  unfold leaf_inert. rewrite forallb_forall. intros H G S. specialize (H b (in_branches b)).
  rewrite G, S in H. cbn [negb orb] in H. apply teqb_eq. exact H.
Qed.
Lemma cast_leaf_inert c g : gleaf g = true -> inert c g = true -> cast c g = inj g.
Proof.
  intros L I. pose proof (choose_leaf c g L) as K. pose proof (choose_spec c g) as S.
  destruct g as [|b a|z a|x a|s [j|] a| |]; try discriminate; [reflexivity|..]; cbn [cast inert] in *;
    (destruct (choose c _) as [| |t| |]; try contradiction; [|reflexivity];
     destruct S as (b0 & G & Sc); exact (leaf_inert_reading c _ b0 t I G Sc)).
Qed.

(* model_dump() of an unconverted value is the JSON it came from *)
Theorem dump_inj : forall g, tdump (inj g) = strip g.
Proof.
  induction g as [g L|s j a IHj|l IHl|d r IHd] using gvalue_ind'; try reflexivity.
  - destruct g as [| | | |? [?|] ?| |]; try discriminate; reflexivity.
  - cbn [inj tdump strip]. f_equal. rewrite map_map. rewrite Forall_forall in IHl. apply map_ext_in. exact IHl.
  - cbn [inj tdump strip]. f_equal. rewrite map_map. rewrite Forall_forall in IHd.
    apply map_ext_in. intros [k x] Hx. f_equal. apply (IHd (k, x) Hx).
Qed.

(* values made of kept leaves only: null, booleans, numbers, strings, arrays and plain objects of such *)
Fixpoint kept (t : tval) : bool :=
  match t with
  | TNull | TBool _ | TInt _ | TFloat _ | TStr _ => true
  | TList l => forallb kept l
  | TGeneric d => forallb (fun kv => kept (snd kv)) d
  | _ => false
  end.
Lemma inj_of_dump : forall g t, kept t = true -> strip g = tdump t -> inj g = t.
Proof.
  induction g as [g L|s j a IHj|l IHl|d r IHd] using gvalue_ind'; intros t K H.
  1: destruct g as [| | | |? [?|] ?| |]; try discriminate L.
  all: try (destruct t; simpl in K, H; try discriminate; inversion H; reflexivity).
  - destruct t as [| | | | | | | | | |ts|]; simpl in K, H; try discriminate. cbn [inj]. f_equal.
    inversion H as [H']. clear H. revert ts K H'. induction IHl as [|x l Hx Hl IH]; intros [|t ts] K H'; try discriminate.
    + reflexivity.
    + cbn [map forallb] in *. apply andb_prop in K. destruct K as [K1 K2]. inversion H'.
      f_equal; [apply Hx; assumption|apply IH; assumption].
  - destruct t as [| | | | | | | | | | |d']; simpl in K, H; try discriminate. cbn [inj]. f_equal.
    inversion H as [H']. clear H. revert d' K H'. induction IHd as [|[k x] d Hx Hd IH]; intros [|[k' t] d'] K H'; try discriminate.
    + reflexivity.
    + cbn [map forallb snd] in *. apply andb_prop in K. destruct K as [K1 K2]. inversion H'.
      f_equal; [f_equal; apply Hx; assumption|apply IH; assumption].
Qed.

(* witnesses (annotations as pydantic 2.7.3 answers them; pycfmodel gives the same results) *)
Import Typed.Witness String.
Local Open Scope string_scope.

(* ["2020-01-01", "2020-01-01T10:00:00"]: the date alternative rejects the second member, the timestamp alternative accepts
   both (a date alone is midnight), so the first member becomes a TIMESTAMP; on its own it is a DATE *)
Definition g_date_only : gvalue := GStr (s "2020-01-01") None (ann None false (Some "2020-01-01") (Some "2020-01-01T00:00:00") None).
Definition g_timestamp : gvalue := GStr (s "2020-01-01T10:00:00") None (ann None false None (Some "2020-01-01T10:00:00") None).
Example list_locality_witness :
  cast SPEC g_date_only = TDate (s "2020-01-01")
  /\ cast SPEC (GList [g_date_only; g_timestamp]) = TList [TDatetime (s "2020-01-01T00:00:00"); TDatetime (s "2020-01-01T10:00:00")]
  /\ cast SPEC (GList [g_date_only; text "x"]) = TList [TDate (s "2020-01-01"); TStr (s "x")]
  /\ localb SPEC g_date_only = false /\ localb SPEC g_timestamp = true
  /\ cast_ok SPEC (GList [g_date_only; g_timestamp]) (cast SPEC (GList [g_date_only; g_timestamp])) = true.
Proof. vm_compute. repeat split; reflexivity. Qed.

(* JSON text of JSON text: "\"\\\"x\\\"\"" is cast to the text "\"x\"" (one decoding); the dump of that, cast again, is x *)
Definition g_json_twice : gvalue := GStr (s """\""x\""""") (Some g_str_json_str) no_ann.
Example idempotence_witness :
  cast SPEC g_json_twice = TStr (s """x""") /\ cast SPEC g_str_json_str = TStr (s "x") /\ inert SPEC g_str_json_str = false.
Proof. vm_compute. repeat split; reflexivity. Qed.

(* inputs of the Examples of Properties/C18.v *)
Definition g_plain : gvalue :=
  GDict [(s "Flags", GList [g_str_TRUE; g_str_yes]); (s "Count", g_str_1e3); (s "When", g_str_date);
         (s "Nums", GList [g_int_1; GInt 2 (ann (Some 2%Z) true None None None)]);
         (s "Nested", GDict [(s "Ratio", g_float_1_5); (s "Empty", g_empty_obj); (s "Deep", GList [GList [GNull; g_true]])] None)] None.
Definition g_inert : gvalue :=
  GDict [(s "a", GList [g_int_1; g_true; text "x"; GNull; g_float_1_5; GDict [] None]); (s "b", g_str_json_obj)] None.
Definition g_int_1000 : gvalue :=
  GInt 1000 (ann (Some 1000%Z) true None (Some "1970-01-01T00:16:40+00:00") (Some (KNet4, "0.0.3.232/32"))).
