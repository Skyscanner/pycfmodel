(* C14 -- the dispatch model (Typed/Dispatch.v): its decision table, what resolve() and expand_actions() leave where it is,
   and that both preserve the class the dispatch chooses. *)
From Coq Require Import List Bool NArith ZArith Lia.
From PV Require Import Base.Str Base.Value Resolver.Consts Resolver.Text Resolver.Resolve Resolver.Spec Typed.Dispatch.
Import ListNotations.
Local Open Scope N_scope.

Lemma class_of_In (modelled : list (str * str)) t c : class_of modelled t = Some c -> In c (map snd modelled).
Proof. intros H. apply lookup_In in H. exact (in_map snd _ _ H). Qed.
Lemma class_of_not_generic modelled t c : ~ In GENERIC (map snd modelled) -> class_of modelled t = Some c -> c <> GENERIC.
Proof. intros N H E. subst c. exact (N (class_of_In _ _ _ H)). Qed.

Section Facts.
  Variable modelled : list (str * str).
  Variable class_accepts : str -> value -> bool.
  Variable generic_accepts : value -> bool.
  Notation disp := (dispatch_resource modelled class_accepts generic_accepts).
  Notation gen := (as_generic modelled generic_accepts).

  (* the generic validator never yields anything but GenericResource, and refuses modelled types while strict *)
  Lemma as_generic_class strict r d o : gen strict r d = Ok o -> o_class o = GENERIC /\ o_kept o = keys (props_of d).
  Proof.
    unfold as_generic. destruct (match type_of d with TyStr s => strict && is_modelled modelled s | TyMissing => false | TyOther => true end);
      [discriminate|]. destruct (generic_accepts r); [|discriminate]. intros H; inv H. split; reflexivity.
  Qed.
  (* every cell: Type a string or not / modelled or not / the class's verdict / strict or not / GenericResource's verdict;
     the theorems of this section each read one region of it *)
  Theorem dispatch_decision_table strict r :
    disp strict r =
    match r with
    | VDict d =>
        let generic := Ok {| o_class := GENERIC; o_kept := keys (props_of d) |} in
        match type_of d with
        | TyOther => Err EValidation
        | TyMissing => if generic_accepts r then generic else Err EValidation
        | TyStr s =>
            match class_of modelled s with
            | None => if generic_accepts r then generic else Err EValidation
            | Some c =>
                match class_accepts c r, strict, generic_accepts r with
                | true, _, _ => Ok {| o_class := c; o_kept := [] |}
                | false, true, _ => Err EValidation
                | false, false, true => generic
                | false, false, false => Err EValidation
                end
            end
        end
    | _ => Err EValidation
    end.
  Proof.
    destruct r as [| | | | | | |d]; try reflexivity. unfold dispatch_resource, as_generic, is_modelled.
    destruct (type_of d) as [|s|] eqn:Ht; [reflexivity| |reflexivity].
    destruct (class_of modelled s) as [c|] eqn:Hc.
    - destruct (class_accepts c (VDict d)); [reflexivity|]. destruct strict; [reflexivity|].
      cbn [andb]. destruct (generic_accepts (VDict d)); reflexivity.
    - rewrite andb_false_r. reflexivity.
  Qed.

  (* strict mode, modelled Type: the result is the dedicated class, never GenericResource *)
  Theorem dispatch_exact d s c o :
    type_of d = TyStr s -> class_of modelled s = Some c ->
    disp true (VDict d) = Ok o -> o_class o = c /\ class_accepts c (VDict d) = true.
  Proof.
    intros Ht Hc. rewrite dispatch_decision_table. cbv zeta. rewrite Ht, Hc.
    destruct (class_accepts c (VDict d)); [|discriminate]. intros H; inv H. split; reflexivity.
  Qed.

  Theorem dispatch_strict_rejects d s c :
    type_of d = TyStr s -> class_of modelled s = Some c -> class_accepts c (VDict d) = false ->
    disp true (VDict d) = Err EValidation.
  Proof. intros Ht Hc Hr. rewrite dispatch_decision_table. cbv zeta. rewrite Ht, Hc, Hr. reflexivity. Qed.

  Theorem dispatch_accepts d s c :
    type_of d = TyStr s -> class_of modelled s = Some c -> class_accepts c (VDict d) = true ->
    forall strict, disp strict (VDict d) = Ok {| o_class := c; o_kept := [] |}.
  Proof. intros Ht Hc Ha strict. rewrite dispatch_decision_table. cbv zeta. rewrite Ht, Hc, Ha. reflexivity. Qed.

  (* strict mode switched off: a modelled resource that its class refuses is downgraded (if GenericResource takes it) *)
  Theorem dispatch_nonstrict_downgrade d s c :
    type_of d = TyStr s -> class_of modelled s = Some c -> class_accepts c (VDict d) = false ->
    disp false (VDict d) =
      if generic_accepts (VDict d) then Ok {| o_class := GENERIC; o_kept := keys (props_of d) |} else Err EValidation.
  Proof. intros Ht Hc Hr. rewrite dispatch_decision_table. cbv zeta. rewrite Ht, Hc, Hr. destruct (generic_accepts (VDict d)); reflexivity. Qed.

  (* any other Type string, or no Type at all: a generic resource with exactly the property keys of the definition *)
  Theorem dispatch_generic_keeps strict d :
    (type_of d = TyMissing \/ exists s, type_of d = TyStr s /\ class_of modelled s = None) ->
    disp strict (VDict d) =
      if generic_accepts (VDict d) then Ok {| o_class := GENERIC; o_kept := keys (props_of d) |} else Err EValidation.
  Proof. rewrite dispatch_decision_table. cbv zeta. intros [Ht | (s & Ht & Hc)]; rewrite Ht; [|rewrite Hc]; reflexivity. Qed.

  (* the only failure is a validation error; a Type that is not a string is one (finding F13, repaired) *)
  Theorem dispatch_errors strict r e : disp strict r = Err e -> e = EValidation.
  Proof.
    rewrite dispatch_decision_table. destruct r; try (intros H; inv H; reflexivity). cbv zeta.
    destruct (type_of d); [| destruct (class_of modelled s); [destruct (class_accepts s0 (VDict d)); [|destruct strict]|] |];
      try destruct (generic_accepts (VDict d)); intros H; inv H; reflexivity.
  Qed.
  Theorem dispatch_bad_type strict d : type_of d = TyOther -> disp strict (VDict d) = Err EValidation.
  Proof. intros Ht. unfold dispatch_resource. rewrite Ht. reflexivity. Qed.

  (* the class of the result is a function of the Type string alone, as long as the dedicated class accepts *)
  Theorem dispatch_class_by_type strict d d' s c o o' :
    type_of d = TyStr s -> type_of d' = TyStr s -> class_of modelled s = Some c ->
    class_accepts c (VDict d) = true -> class_accepts c (VDict d') = true ->
    disp strict (VDict d) = Ok o -> disp strict (VDict d') = Ok o' -> o_class o = c /\ o_class o' = c.
  Proof.
    intros Ht Ht' Hc Ha Ha'. rewrite (dispatch_accepts _ _ _ Ht Hc Ha), (dispatch_accepts _ _ _ Ht' Hc Ha').
    intros H H'; inv H; inv H'. split; reflexivity.
  Qed.
End Facts.

Section FilterFacts.
  Variable bases : str -> list str.
  Theorem filter_by_type_sub allowed rs : incl (filter_by_type bases allowed rs) rs.
  Proof. intros x H. apply filter_In in H. tauto. Qed.
End FilterFacts.

(* resolve() leaves a fixed Type string where it is *)
Lemma type_fixed_render t : type_fixed t = true -> forall ps, render_str ps t = t.
Proof.
  unfold type_fixed, render_str. destruct (ssm_key t); [discriminate|]. intros H ps.
  apply andb_true_iff in H. destruct H as [H _]. apply negb_true_iff in H. rewrite H. reflexivity.
Qed.
Lemma type_fixed_not_novalue t : type_fixed t = true -> is_novalue (VStr t) = false.
Proof.
  unfold type_fixed. destruct (ssm_key t); [discriminate|]. intros H.
  apply andb_true_iff in H. destruct H as [_ H]. apply negb_true_iff in H. exact H.
Qed.

(* resolve() leaves where it is every entry whose value it maps to itself and does not prune *)
Lemma rdict_keeps e key v : resolve e v = Ok v -> is_novalue v = false ->
  forall d d', rdict e d = Ok d' -> lookup key d = Some v -> lookup key d' = Some v.
Proof.
  intros Hv Hn. induction d as [|[k x] d IH]; intros d' Hr Hl; [discriminate|].
  cbn [rdict] in Hr. fold (rdict e) in Hr.
  destruct (resolve e x) as [x'|] eqn:Ex; cbn [bind] in Hr; [|discriminate].
  destruct (rdict e d) as [ds|] eqn:Ed; cbn [bind] in Hr; [|discriminate].
  cbn [lookup] in Hl. destruct (str_eqb key k) eqn:Ek.
  - inv Hl. rewrite Hv in Ex. inv Ex. rewrite Hn in Hr. inv Hr. cbn [lookup]. rewrite Ek. reflexivity.
  - destruct (is_novalue x'); inv Hr; [apply IH; auto|]. cbn [lookup]. rewrite Ek. apply IH; auto.
Qed.
(* model_dump() of a resource has several keys (every declared field is dumped), so it is never taken for a function *)
Theorem resolve_keeps e key v d r' :
  resolve e v = Ok v -> is_novalue v = false -> is_fn_dict d = false -> lookup key d = Some v ->
  resolve e (VDict d) = Ok r' -> exists d', r' = VDict d' /\ lookup key d' = Some v.
Proof.
  intros Hv Hnv Hn Hl Hr. rewrite (resolve_dict_generic e d Hn) in Hr.
  destruct (rdict e d) as [d'|] eqn:Ed; cbn [bind] in Hr; [|discriminate]. inv Hr.
  exists d'. split; [reflexivity|]. exact (rdict_keeps e key v Hv Hnv d d' Ed Hl).
Qed.
Lemma resolve_str_fixed e t : type_fixed t = true -> resolve e (VStr t) = Ok (VStr t).
Proof. intros Hf. cbn [resolve]. rewrite (type_fixed_render t Hf). reflexivity. Qed.
Theorem resolve_keeps_type e t d r' :
  type_fixed t = true -> is_fn_dict d = false -> lookup K_Type d = Some (VStr t) ->
  resolve e (VDict d) = Ok r' -> exists d', r' = VDict d' /\ lookup K_Type d' = Some (VStr t).
Proof. intros Hf. exact (resolve_keeps e K_Type (VStr t) d r' (resolve_str_fixed e t Hf) (type_fixed_not_novalue t Hf)). Qed.

(* expand_actions() leaves every scalar that is not under Action / NotAction where it is *)
Section ExpandFacts.
  Variable ex : bool -> value -> res value.
  Lemma expand_scalar s : expand_obj ex (VStr s) = Ok (VStr s).
  Proof. reflexivity. Qed.

  Definition edict := fix go (d : list (str * value)) : res (list (str * value)) :=
    match d with
    | [] => Ok []
    | (k, x) :: xs =>
        x' <- match x with
              | VNull => Ok VNull
              | _ => if str_eqb k K_Action then ex false x
                     else if str_eqb k K_NotAction then ex true x
                     else expand_obj ex x
              end ;;
        xs' <- go xs ;; Ok ((k, x') :: xs')
    end.
  Lemma expand_dict d : expand_obj ex (VDict d) = (d' <- edict d ;; Ok (VDict d')).
  Proof. reflexivity. Qed.

  Lemma edict_keys d : forall d', edict d = Ok d' -> keys d' = keys d.
  Proof.
    induction d as [|[k x] d IH]; intros d' H; cbn [edict] in H; [inv H; reflexivity|].
    bind_inv. inv H.
    unfold keys in *. simpl. f_equal. apply IH. reflexivity.
  Qed.

  (* a Type entry (a string, or null: GenericResource.Type is Optional) is not under Action / NotAction *)
  Lemma edict_keeps_lit key v : str_eqb key K_Action = false -> str_eqb key K_NotAction = false ->
    v = VNull \/ (exists t, v = VStr t) ->
    forall d d', edict d = Ok d' -> lookup key d = Some v -> lookup key d' = Some v.
  Proof.
    intros Na Nn Hv. induction d as [|[k x] d IH]; intros d' H Hl; [discriminate|].
    cbn [lookup] in Hl. destruct (str_eqb key k) eqn:Ek.
    - inv Hl. apply str_eqb_spec in Ek. subst k. cbn [edict] in H.
      assert (match v with
              | VNull => Ok VNull
              | _ => if str_eqb key K_Action then ex false v else if str_eqb key K_NotAction then ex true v else expand_obj ex v
              end = Ok v) as Ev.
      { destruct Hv as [-> | (t & ->)]; [reflexivity|]. rewrite Na, Nn. reflexivity. }
      rewrite Ev in H. cbn [bind] in H. bind_inv. inv H.
      cbn [lookup]. rewrite str_eqb_refl. reflexivity.
    - cbn [edict] in H. bind_inv. inv H.
      cbn [lookup]. rewrite Ek. apply IH; auto.
  Qed.
  Theorem expand_keeps_type_lit d v r' :
    lookup K_Type d = Some v -> v = VNull \/ (exists t, v = VStr t) -> expand_obj ex (VDict d) = Ok r' ->
    exists d', r' = VDict d' /\ lookup K_Type d' = Some v /\ keys d' = keys d.
  Proof.
    intros Hl Hv H. rewrite expand_dict in H. destruct (edict d) as [d'|] eqn:Ed; cbn [bind] in H; [|discriminate]. inv H.
    exists d'. split; [reflexivity|]. split; [|apply edict_keys; exact Ed].
    eapply edict_keeps_lit; eauto; vm_compute; reflexivity.
  Qed.
  Theorem expand_keeps_type d r' t :
    lookup K_Type d = Some (VStr t) -> expand_obj ex (VDict d) = Ok r' ->
    exists d', r' = VDict d' /\ lookup K_Type d' = Some (VStr t) /\ keys d' = keys d.
  Proof. intros Hl. exact (expand_keeps_type_lit d (VStr t) r' Hl (or_intror (ex_intro _ t eq_refl))). Qed.
End ExpandFacts.

(* hence both transformations preserve the class chosen by the dispatch *)
Section Preserved.
  Variable modelled : list (str * str).
  Variable class_accepts : str -> value -> bool.
  Variable generic_accepts : value -> bool.
  Notation disp := (dispatch_resource modelled class_accepts generic_accepts).

  Lemma type_of_str d t : lookup K_Type d = Some (VStr t) -> type_of d = TyStr t.
  Proof. unfold type_of. intros ->. reflexivity. Qed.

  (* strict mode: if the dumped resource [d] of a modelled type is resolved to [r'] and the re-validation of r' succeeds,
     the class is again the class of that type *)
  Theorem preserved_by_resolve e d t c r' o :
    lookup K_Type d = Some (VStr t) -> class_of modelled t = Some c -> type_fixed t = true -> is_fn_dict d = false ->
    resolve e (VDict d) = Ok r' -> disp true r' = Ok o -> o_class o = c.
  Proof.
    intros Hl Hc Hf Hn Hr Hd. destruct (resolve_keeps_type e t d r' Hf Hn Hl Hr) as (d' & -> & Hl').
    exact (proj1 (dispatch_exact modelled class_accepts generic_accepts d' t c o (type_of_str _ _ Hl') Hc Hd)).
  Qed.

  Theorem preserved_by_expand ex d t c r' o :
    lookup K_Type d = Some (VStr t) -> class_of modelled t = Some c ->
    expand_obj ex (VDict d) = Ok r' -> disp true r' = Ok o -> o_class o = c.
  Proof.
    intros Hl Hc Hr Hd. destruct (expand_keeps_type ex d r' t Hl Hr) as (d' & -> & Hl' & _).
    exact (proj1 (dispatch_exact modelled class_accepts generic_accepts d' t c o (type_of_str _ _ Hl') Hc Hd)).
  Qed.

  (* a generic resource stays generic: an unmodelled Type string that resolution leaves alone is still unmodelled *)
  Theorem generic_preserved_by_expand ex strict d t r' o :
    lookup K_Type d = Some (VStr t) -> class_of modelled t = None ->
    expand_obj ex (VDict d) = Ok r' -> disp strict r' = Ok o -> o_class o = GENERIC.
  Proof.
    intros Hl Hc Hr Hd. destruct (expand_keeps_type ex d r' t Hl Hr) as (d' & -> & Hl' & _).
    rewrite (dispatch_generic_keeps modelled class_accepts generic_accepts strict d') in Hd
      by (right; exists t; split; [apply type_of_str; exact Hl' | exact Hc]).
    destruct (generic_accepts (VDict d')); inv Hd. reflexivity.
  Qed.
End Preserved.
