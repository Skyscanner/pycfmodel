(* Generic property values of an unmodelled resource (C13, C18).

   [gvalue] is the JSON value pycfmodel receives, ANNOTATED at every node with the answers of the leaf
   oracles, computed by the harness with pydantic / the standard library IN ISOLATION (never through
   pycfmodel's casting code):
     scalar leaves  : what TypeAdapter(ResolvableInt / ResolvableDate / ResolvableDatetime / ResolvableIPNetwork)
                      answers for the leaf, and whether Python's float() reads it as a number;
     string leaves  : additionally what json.loads answers (itself an annotated tree);
     object nodes   : which member of the `Properties` union TypeAdapter(Properties) accepts for the node on its own,
                      the canonical dump of the instance it builds, the PolicyName and the statements (Sid, Condition)
                      of the policy document it holds.
   [tval] is what the generic cast produces.  The second half of the file is what the runner needs: the plain value under the
   annotations ([strip]), the dump of a [tval] ([tdump], [tenc]) and the decoder of the annotated tree the harness sends ([gdec]). *)
From Coq Require Import List Bool NArith ZArith.
From PV Require Import Base.Str Base.Value.
Import ListNotations.
Local Open Scope N_scope.

(* members of pycfmodel.model.resources.properties.types.Properties, in source order *)
Inductive pk := PkPolicy | PkPolicyDocument | PkEgress | PkIngress | PkStatement | PkCondition | PkTag.
Definition pk_eqb (a b : pk) : bool :=
  match a, b with
  | PkPolicy, PkPolicy | PkPolicyDocument, PkPolicyDocument | PkEgress, PkEgress | PkIngress, PkIngress
  | PkStatement, PkStatement | PkCondition, PkCondition | PkTag, PkTag => true
  | _, _ => false
  end.
Lemma pk_eqb_spec a b : pk_eqb a b = true <-> a = b.
Proof. destruct a, b; simpl; split; congruence. Qed.

(* leaf oracles *)
Record sann := {
  a_int : option Z;                 (* TypeAdapter(ResolvableInt) *)
  a_float : bool;                   (* float(text) succeeds / the leaf is a JSON number or boolean *)
  a_date : option str;              (* TypeAdapter(ResolvableDate): isoformat() of the result *)
  a_datetime : option str;          (* TypeAdapter(ResolvableDatetime): isoformat() *)
  a_net : option (tkind * str);     (* TypeAdapter(ResolvableIPNetwork): KNet4/KNet6, str() of the network *)
  a_abort_date : bool;              (* the date parser RAISES something that is not a ValidationError (year 0) *)
  a_abort_datetime : bool           (* the same for the datetime parser *)
}.
Definition no_ann : sann :=
  {| a_int := None; a_float := false; a_date := None; a_datetime := None; a_net := None;
     a_abort_date := false; a_abort_datetime := false |}.

(* recogniser oracle for an object node *)
Record recog := {
  r_kind : pk;
  r_dump : str;                     (* canonical text of model_dump() of the instance the oracle built *)
  r_name : option str;              (* PolicyName, for a Policy wrapper *)
  r_doc : value                     (* statements of the document: VList [VList [sid; condition-or-VNull]; ...] *)
}.

Inductive gvalue :=
| GNull
| GBool (b : bool) (a : sann)
| GInt (z : Z) (a : sann)
| GFloat (text : str) (a : sann)                       (* text = repr() of the Python float *)
| GStr (s : str) (j : option gvalue) (a : sann)        (* j = json.loads s *)
| GList (l : list gvalue)
| GDict (d : list (str * gvalue)) (r : option recog).

Fixpoint gsize (g : gvalue) : nat :=
  match g with
  | GStr _ (Some j) _ => S (gsize j)
  | GList l => S (fold_right (fun x acc => gsize x + acc) 0 l)%nat
  | GDict d _ => S (fold_right (fun kv acc => gsize (snd kv) + acc) 0 d)%nat
  | _ => 1%nat
  end.
(* structural induction: a node without members (null, a boolean, a number, text that is not JSON) is a leaf *)
Definition gleaf (g : gvalue) : bool :=
  match g with GStr _ (Some _) _ | GList _ | GDict _ _ => false | _ => true end.
Section GInd.
  Variable P : gvalue -> Prop.
  Hypothesis Hleaf : forall g, gleaf g = true -> P g.
  Hypothesis Hjson : forall s j a, P j -> P (GStr s (Some j) a).
  Hypothesis Hlist : forall l, Forall P l -> P (GList l).
  Hypothesis Hdict : forall d r, Forall (fun kv => P (snd kv)) d -> P (GDict d r).
  Fixpoint gvalue_ind' (g : gvalue) : P g :=
    match g with
    | GStr s (Some j) a => Hjson s j a (gvalue_ind' j)
    | GList l => Hlist l ((fix go (l : list gvalue) : Forall P l :=
        match l with [] => Forall_nil _ | x :: xs => Forall_cons _ (gvalue_ind' x) (go xs) end) l)
    | GDict d r => Hdict d r ((fix go (d : list (str * gvalue)) : Forall (fun kv => P (snd kv)) d :=
        match d with [] => Forall_nil _ | (k, x) :: xs => Forall_cons (k, x) (gvalue_ind' x) (go xs) end) d)
    | g' => Hleaf g' eq_refl
    end.
End GInd.

(* the plain JSON value under the annotations *)
Fixpoint strip (g : gvalue) : value :=
  match g with
  | GNull => VNull
  | GBool b _ => VBool b
  | GInt z _ => VInt z
  | GFloat t _ => VTyped KFloat t
  | GStr s _ _ => VStr s
  | GList l => VList (map strip l)
  | GDict d _ => VDict (map (fun kv => match kv with (k, x) => (k, strip x) end) d)
  end.

Inductive tval :=
| TNull
| TBool (b : bool)
| TInt (z : Z)
| TFloat (text : str)
| TStr (s : str)
| TDate (text : str)
| TDatetime (text : str)
| TNet (k : tkind) (text : str)
| TFn (raw : value)                                   (* FunctionDict: the object as written *)
| TProp (r : recog)                                   (* an instance of a member of the Properties union *)
| TList (l : list tval)
| TGeneric (d : list (str * tval)).                   (* pycfmodel.model.generic.Generic *)

Fixpoint tsize (t : tval) : nat :=
  match t with
  | TList l => S (fold_right (fun x acc => tsize x + acc) 0 l)%nat
  | TGeneric d => S (fold_right (fun kv acc => tsize (snd kv) + acc) 0 d)%nat
  | _ => 1%nat
  end.

(* encodings used by the runner *)
Definition K_FN : str := [0; 102; 110].                 (* "\0fn" *)
Definition K_PROP : str := [0; 112; 114; 111; 112].     (* "\0prop" *)
Definition K_DUMP : str := [0; 100; 117; 109; 112].     (* "\0dump" *)

Definition pk_code (k : pk) : Z :=
  match k with PkPolicy => 0 | PkPolicyDocument => 1 | PkEgress => 2 | PkIngress => 3 | PkStatement => 4
  | PkCondition => 5 | PkTag => 6 end%Z.
Definition pk_of_code (z : Z) : option pk :=
  match z with
  | 0 => Some PkPolicy | 1 => Some PkPolicyDocument | 2 => Some PkEgress | 3 => Some PkIngress
  | 4 => Some PkStatement | 5 => Some PkCondition | 6 => Some PkTag | _ => None
  end%Z.

(* what the harness sees as Properties.<name>: value and Python type *)
Fixpoint tenc (t : tval) : value :=
  match t with
  | TNull => VNull
  | TBool b => VBool b
  | TInt z => VInt z
  | TFloat x => VTyped KFloat x
  | TStr s => VStr s
  | TDate x => VTyped KDate x
  | TDatetime x => VTyped KDatetime x
  | TNet k x => VTyped k x
  | TFn raw => VDict [(K_FN, raw)]
  | TProp r => VDict [(K_PROP, VInt (pk_code (r_kind r))); (K_DUMP, VStr (r_dump r))]
  | TList l => VList (map tenc l)
  | TGeneric d => VDict (map (fun kv => match kv with (k, x) => (k, tenc x) end) d)
  end.

(* model_dump(): typed atoms stay objects, Generic -> dict, FunctionDict -> its members, property models -> their dump *)
Fixpoint tdump (t : tval) : value :=
  match t with
  | TFn raw => raw
  | TProp r => VDict [(K_DUMP, VStr (r_dump r))]
  | TList l => VList (map tdump l)
  | TGeneric d => VDict (map (fun kv => match kv with (k, x) => (k, tdump x) end) d)
  | _ => tenc t
  end.

(* decoding of the annotated tree sent by the harness:
   VNull | [1;b;ann] | [2;z;ann] | [3;text;ann] | [4;s;[]|[j];ann] | [5;[..]] | [6;{..};null|[kind;dump;name;doc]]
   ann = [int|null; floatflag; date|null; datetime|null; net|null; abort_date; abort_datetime] *)
Definition ostr (v : value) : option (option str) :=
  match v with VNull => Some None | VStr s => Some (Some s) | _ => None end.
Definition dec_ann (v : value) : option sann :=
  match v with
  | VList [i; VBool f; d; dt; n; VBool ad; VBool adt] =>
      match (match i with VNull => Some None | VInt z => Some (Some z) | _ => None end), ostr d, ostr dt,
            (match n with VNull => Some None | VTyped KNet4 t => Some (Some (KNet4, t)) | VTyped KNet6 t => Some (Some (KNet6, t))
             | _ => None end) with
      | Some i', Some d', Some dt', Some n' =>
          Some {| a_int := i'; a_float := f; a_date := d'; a_datetime := dt'; a_net := n';
                  a_abort_date := ad; a_abort_datetime := adt |}
      | _, _, _, _ => None
      end
  | _ => None
  end.
Definition dec_recog (v : value) : option (option recog) :=
  match v with
  | VNull => Some None
  | VList [VInt k; VStr dump; nm; doc] =>
      match pk_of_code k, ostr nm with
      | Some k', Some nm' => Some (Some {| r_kind := k'; r_dump := dump; r_name := nm'; r_doc := doc |})
      | _, _ => None
      end
  | _ => None
  end.

Fixpoint gdec (v : value) : option gvalue :=
  match v with
  | VNull => Some GNull
  | VList [VInt 1; VBool b; a] => option_map (GBool b) (dec_ann a)
  | VList [VInt 2; VInt z; a] => option_map (GInt z) (dec_ann a)
  | VList [VInt 3; VStr t; a] => option_map (GFloat t) (dec_ann a)
  | VList [VInt 4; VStr s; VList []; a] => option_map (GStr s None) (dec_ann a)
  | VList [VInt 4; VStr s; VList [j]; a] =>
      match gdec j, dec_ann a with
      | Some j', Some a' => Some (GStr s (Some j') a')
      | _, _ => None
      end
  | VList [VInt 5; VList l] =>
      option_map GList
        ((fix go (l : list value) : option (list gvalue) :=
            match l with
            | [] => Some []
            | x :: xs => match gdec x, go xs with Some x', Some xs' => Some (x' :: xs') | _, _ => None end
            end) l)
  | VList [VInt 6; VDict d; r] =>
      match (fix go (d : list (str * value)) : option (list (str * gvalue)) :=
               match d with
               | [] => Some []
               | (k, x) :: xs => match gdec x, go xs with Some x', Some xs' => Some ((k, x') :: xs') | _, _ => None end
               end) d, dec_recog r with
      | Some d', Some r' => Some (GDict d' r')
      | _, _ => None
      end
  | _ => None
  end.
