(* C15 -- Gallina models of pycfmodel's OWN leaf validators and validator hooks (pycfmodel/model/types.py, base.py,
   properties/tag.py, statement.py, statement_condition.py), and the proof, for each of them, that it ACCEPTS ITS OWN OUTPUT:
   validating what model_dump() returns for a validated value gives that value back.

   A validated leaf is carried as the [value] that model_dump() (python mode) returns for it:
     bool -> VBool, str -> VStr, int -> VInt, bytes -> VBytes, date / datetime -> VTyped KDate / KDatetime (text = str(obj)),
     IPv4Network -> VTyped KNet4 (text = str(net) = print4), IPv6Network -> VTyped KNet6 (text = net.exploded = print6_full),
     FunctionDict / Dict / List / Any -> the plain data.
   pydantic-core's own scalar validators (str, int, bool, date, datetime, PositiveInt, Union[int,str]) and the generic
   re-casting of class Generic (property C18) are NOT modelled: they are the Section variable [core] of [leaf_validate]. *)
From Coq Require Import List Bool NArith ZArith Lia.
From PV Require Import Base.Str Base.Value Resolver.Consts Resolver.Text.
From PV Require Import Net.Arith Net.NetText Net.IPv4 Net.IPv4Thm Net.IPv6 Net.IPv6Thm.
From PV Require Import Policy.Policy Typed.Schema.
Import ListNotations.
Local Open Scope N_scope.

(* SemiStrictBool.__new__: bool -> itself; str whose lower() is "true"/"false" -> that bool; anything else ValueError *)
Definition semi_strict_bool (v : value) : res value :=
  match v with
  | VBool b => Ok (VBool b)
  | VStr s => if str_eqb (lower s) S_true then Ok (VBool true)
              else if str_eqb (lower s) S_false then Ok (VBool false) else Err EValidation
  | _ => Err EValidation
  end.
Lemma semi_strict_bool_out v w : semi_strict_bool v = Ok w -> exists b, w = VBool b.
Proof.
  destruct v; simpl; try discriminate.
  - intros H; inv H. eexists; reflexivity.
  - destruct (str_eqb (lower s) S_true); [intros H; inv H; eexists; reflexivity|].
    destruct (str_eqb (lower s) S_false); [intros H; inv H; eexists; reflexivity | discriminate].
Qed.
Lemma semi_strict_bool_own v w : semi_strict_bool v = Ok w -> semi_strict_bool w = Ok w.
Proof. intros H. destruct (semi_strict_bool_out v w H) as [b ->]. reflexivity. Qed.

(* LooseIPv4Network / LooseIPv6Network: ipaddress.IPvXNetwork(value, strict=False).  An int (bool included) is an address
   (/32, /128); packed bytes likewise; ANY other object -- a network object too -- goes through str(value) and the text parser
   (ipaddress._split_optional_netmask), so re-validating a dumped network parses its own text. *)
Definition as_val {A} (r : res A) : res A := match r with Err EValue => Err EValidation | _ => r end.
Definition be_bytes (bs : list N) : N := fold_left (fun acc b => acc * 256 + b mod 256) bs 0.   (* big-endian; members are bytes *)
Definition net4_text (n : net) : value := VTyped KNet4 (print4 n).
Definition net6_text (n : net) : value := VTyped KNet6 (print6_full n).
Definition loose_net4 (v : value) : res value :=
  match v with
  | VStr s | VTyped _ s => n <- as_val (parse4 s) ;; Ok (net4_text n)
  | VInt z => if (0 <=? z)%Z && (z <? 4294967296)%Z then Ok (net4_text (Z.to_N z, 32)) else Err EValidation
  | VBool b => Ok (net4_text (if b then 1 else 0, 32))
  | VBytes bs => if Nat.eqb (length bs) 4 then Ok (net4_text (be_bytes bs, 32)) else Err EValidation
  | VNull | VList _ | VDict _ => Err EValidation
  end.
Definition loose_net6 (v : value) : res value :=
  match v with
  | VStr s | VTyped _ s => n <- as_val (parse6 s) ;; Ok (net6_text n)
  | VInt z => if (0 <=? z)%Z && (z <? 2 ^ 128)%Z then Ok (net6_text (Z.to_N z, 128)) else Err EValidation
  | VBool b => Ok (net6_text (if b then 1 else 0, 128))
  | VBytes bs => if Nat.eqb (length bs) 16 then Ok (net6_text (be_bytes bs, 128)) else Err EValidation
  | VNull | VList _ | VDict _ => Err EValidation
  end.

Lemma as_val_ok {A} (r : res A) a : as_val r = Ok a -> r = Ok a.
Proof. destruct r as [x|[]]; simpl; congruence. Qed.
Lemma be_bytes_bound bs : forall acc, fold_left (fun a b => a * 256 + b mod 256) bs acc < (acc + 1) * 256 ^ N.of_nat (length bs).
Proof.
  induction bs as [|b bs IH]; intros acc; cbn [fold_left length]; [simpl; lia|].
  specialize (IH (acc * 256 + b mod 256)). rewrite Nat2N.inj_succ, N.pow_succ_r'.
  pose proof (N.mod_lt b 256 ltac:(lia)). nia.
Qed.

(* a well-formed network re-validates to itself, from its text (json mode) and from the object (python mode) alike *)
Lemma loose_net4_text n : wf W4 n -> loose_net4 (net4_text n) = Ok (net4_text n) /\ loose_net4 (VStr (print4 n)) = Ok (net4_text n).
Proof. intros H. unfold loose_net4, net4_text. rewrite (parse4_print4 n H). split; reflexivity. Qed.
Lemma loose_net6_text n : wf W6 n -> loose_net6 (net6_text n) = Ok (net6_text n) /\ loose_net6 (VStr (print6_full n)) = Ok (net6_text n).
Proof. intros H. unfold loose_net6, net6_text. rewrite (parse6_print6_full n H). split; reflexivity. Qed.

Lemma wf4_host a : a < 2 ^ 32 -> wf W4 (a, 32).
Proof. intros H. unfold wf, W4, blk. replace (32 - 32) with 0 by lia. simpl. repeat split; [lia | exact H | apply N.mod_1_r]. Qed.
Lemma wf6_host a : a < 2 ^ 128 -> wf W6 (a, 128).
Proof. intros H. unfold wf, W6, blk. replace (128 - 128) with 0 by lia. simpl. repeat split; [lia | exact H | apply N.mod_1_r]. Qed.

(* every output of the validator is (the dump of) a well-formed network ... *)
Lemma loose_net4_out v w : loose_net4 v = Ok w -> exists n, wf W4 n /\ w = net4_text n.
Proof.
  destruct v as [ |b|z|s|k s|bs|l|d]; cbn [loose_net4 loose_net6]; try discriminate.
  - intros H; inv H. exists (if b then 1 else 0, 32). split; [apply wf4_host; destruct b; vm_compute; reflexivity | reflexivity].
  - destruct ((0 <=? z)%Z && (z <? 4294967296)%Z) eqn:E; [|discriminate]. intros H; inv H.
    apply andb_true_iff in E. destruct E as [E1 E2]. apply Z.leb_le in E1. apply Z.ltb_lt in E2.
    exists (Z.to_N z, 32). split; [|reflexivity]. apply wf4_host. change (2 ^ 32) with 4294967296. lia.
  - intros H. bind_inv. inv H. eexists. split; [|reflexivity]. apply as_val_ok in E. eapply parse4_wf; eauto.
  - intros H. bind_inv. inv H. eexists. split; [|reflexivity]. apply as_val_ok in E. eapply parse4_wf; eauto.
  - destruct (Nat.eqb (length bs) 4) eqn:E; [|discriminate]. intros H; inv H. apply Nat.eqb_eq in E.
    exists (be_bytes bs, 32). split; [|reflexivity]. apply wf4_host. unfold be_bytes.
    pose proof (be_bytes_bound bs 0) as B. rewrite E in B. simpl in B. exact B.
Qed.
Lemma loose_net6_out v w : loose_net6 v = Ok w -> exists n, wf W6 n /\ w = net6_text n.
Proof.
  destruct v as [ |b|z|s|k s|bs|l|d]; cbn [loose_net4 loose_net6]; try discriminate.
  - intros H; inv H. exists (if b then 1 else 0, 128). split; [apply wf6_host; destruct b; vm_compute; reflexivity | reflexivity].
  - destruct ((0 <=? z)%Z && (z <? 2 ^ 128)%Z) eqn:E; [|discriminate]. intros H; inv H.
    apply andb_true_iff in E. destruct E as [E1 E2]. apply Z.leb_le in E1. apply Z.ltb_lt in E2.
    exists (Z.to_N z, 128). split; [|reflexivity]. apply wf6_host.
    apply N2Z.inj_lt. rewrite Z2N.id by exact E1. rewrite N2Z.inj_pow. exact E2.
  - intros H. bind_inv. inv H. eexists. split; [|reflexivity]. apply as_val_ok in E. eapply parse6_wf; eauto.
  - intros H. bind_inv. inv H. eexists. split; [|reflexivity]. apply as_val_ok in E. eapply parse6_wf; eauto.
  - destruct (Nat.eqb (length bs) 16) eqn:E; [|discriminate]. intros H; inv H. apply Nat.eqb_eq in E.
    exists (be_bytes bs, 128). split; [|reflexivity]. apply wf6_host. unfold be_bytes.
    pose proof (be_bytes_bound bs 0) as B. rewrite E in B. simpl in B. exact B.
Qed.
(* ... hence the validator accepts its own output *)
Lemma loose_net4_own v w : loose_net4 v = Ok w -> loose_net4 w = Ok w.
Proof. intros H. destruct (loose_net4_out v w H) as (n & Hn & ->). apply loose_net4_text. exact Hn. Qed.
Lemma loose_net6_own v w : loose_net6 v = Ok w -> loose_net6 w = Ok w.
Proof. intros H. destruct (loose_net6_out v w H) as (n & Hn & ->). apply loose_net6_text. exact Hn. Qed.

(* base64: binascii.a2b_base64 in its default (non-strict) mode, as base64.b64decode calls it (CPython 3.12 binascii.c):
   characters outside the alphabet are skipped; '=' counts as padding only when at least two characters of the current quad
   have been read, and the first sufficient pad sequence ends the decoding; a dangling quad is an error. *)
Definition b64_val (c : N) : option N :=
  if (65 <=? c) && (c <=? 90) then Some (c - 65)
  else if (97 <=? c) && (c <=? 122) then Some (c - 71)
  else if (48 <=? c) && (c <=? 57) then Some (c + 4)
  else if c =? 43 then Some 62
  else if c =? 47 then Some 63
  else None.
Fixpoint b64_go (s : list N) (qp lc pads : N) (acc : list N) : option (list N) :=
  match s with
  | [] => if qp =? 0 then Some (rev acc) else None
  | c :: r =>
      if c =? 61 then
        if (2 <=? qp) && (4 <=? qp + (pads + 1)) then Some (rev acc)
        else b64_go r qp lc (if 2 <=? qp then pads + 1 else pads) acc
      else match b64_val c with
           | None => b64_go r qp lc pads acc
           | Some d =>
               if qp =? 0 then b64_go r 1 d 0 acc
               else if qp =? 1 then b64_go r 2 (d mod 16) 0 ((lc * 4 + d / 16) :: acc)
               else if qp =? 2 then b64_go r 3 (d mod 4) 0 ((lc * 16 + d / 4) :: acc)
               else b64_go r 0 0 0 ((lc * 64 + d) :: acc)
           end
  end.
Definition b64decode (s : list N) : option (list N) := b64_go s 0 0 0 [].

(* validate_binary AFTER the repair (commit a48b8e2): bytes pass through, text is base64-decoded (non-ASCII text cannot be
   encoded for the decoder: ValueError), anything else is a ValueError -- each surfacing as pydantic's ValidationError *)
Definition validate_binary (v : value) : res value :=
  match v with
  | VBytes b => Ok (VBytes b)
  | VStr s => if forallb (fun c => c <? 128) s
              then match b64decode s with Some b => Ok (VBytes b) | None => Err EValidation end
              else Err EValidation
  | _ => Err EValidation
  end.
Lemma validate_binary_out v w : validate_binary v = Ok w -> exists b, w = VBytes b.
Proof.
  destruct v; simpl; try discriminate.
  - destruct (forallb (fun c => c <? 128) s); [|discriminate]. destruct (b64decode s); [|discriminate].
    intros H; inv H. eexists; reflexivity.
  - intros H; inv H. eexists; reflexivity.
Qed.
Lemma validate_binary_own v w : validate_binary v = Ok w -> validate_binary w = Ok w.
Proof. intros H. destruct (validate_binary_out v w H) as [b ->]. reflexivity. Qed.

(* the validator BEFORE the repair: b64decode applied to whatever comes (bytes are "bytes-like" and get decoded AGAIN);
   binascii.Error -> ValueError; an object b64decode cannot take -> TypeError (finding F11, repaired) *)
Definition validate_binary_old (v : value) : res value :=
  match v with
  | VBytes s => match b64decode s with Some b => Ok (VBytes b) | None => Err EValidation end
  | VStr s => if forallb (fun c => c <? 128) s
              then match b64decode s with Some b => Ok (VBytes b) | None => Err EValidation end
              else Err EValidation
  | _ => Err EType
  end.
(* b"hello" (the decoding of "aGVsbG8=") is refused by its own validator; b"abcd" comes back as three other bytes *)
Theorem Binary_refuted : exists b, validate_binary_old (VBytes b) <> Ok (VBytes b).
Proof. exists [104; 101; 108; 108; 111]. vm_compute. discriminate. Qed.
Example Binary_old_witnesses :
  validate_binary_old (VStr [97;71;86;115;98;71;56;61]) = Ok (VBytes [104;101;108;108;111]) /\
  validate_binary_old (VBytes [104;101;108;108;111]) = Err EValidation /\
  validate_binary_old (VBytes [97;98;99;100]) = Ok (VBytes [105;183;29]) /\
  validate_binary_old (VInt 5) = Err EType /\
  validate_binary (VStr [97;71;86;115;98;71;56;61]) = Ok (VBytes [104;101;108;108;111]) /\
  validate_binary (VBytes [104;101;108;108;111]) = Ok (VBytes [104;101;108;108;111]) /\
  validate_binary (VInt 5) = Err EValidation.
Proof. vm_compute. repeat split. Qed.

(* Tag: ConfigDict(coerce_numbers_to_str=True) + Value's before-validator coerce_bools_to_strings *)
Definition tag_value_hook (v : value) : value :=
  match v with VBool b => VStr (if b then S_True else S_False) | _ => v end.
Definition str_num (v : value) : res value :=
  match v with
  | VStr s => Ok (VStr s)
  | VInt z => Ok (VStr (str_of_Z z))
  | VTyped KFloat t => Ok (VStr t)
  | VBytes _ => Err EUndefined            (* lax str decodes bytes; never JSON *)
  | _ => Err EValidation                 (* bool is NOT a number for coerce_numbers_to_str: hence the hook *)
  end.
Lemma str_num_out v w : str_num v = Ok w -> exists s, w = VStr s.
Proof. destruct v as [ | | | |[] | | |]; simpl; try discriminate; intros H; inv H; eexists; reflexivity. Qed.
Lemma str_num_own v w : str_num v = Ok w -> str_num w = Ok w.
Proof. intros H. destruct (str_num_out v w H) as [s ->]. reflexivity. Qed.
Lemma tag_value_hook_str s : tag_value_hook (VStr s) = VStr s.
Proof. reflexivity. Qed.
Lemma tag_value_hook_dict d : tag_value_hook (VDict d) = VDict d.
Proof. reflexivity. Qed.
(* bools become the strings "True" / "False", numbers their decimal text; the dump (a str) is taken back unchanged *)
Theorem tag_value_stable v w : str_num (tag_value_hook v) = Ok w -> str_num (tag_value_hook w) = Ok w.
Proof. intros H. destruct (str_num_out _ w H) as [s ->]. reflexivity. Qed.

(* Statement.Effect: after-validator on a validated value: a str is capitalized and must be Allow / Deny; a function object
   passes *)
Definition effect_hook (w : value) : res value :=
  match w with VStr s => t <- effect_store s ;; Ok (VStr t) | _ => Ok w end.

(* StatementCondition.remove_colon (model validator, mode before): every key loses its colons *)
Definition strip_colons (k : str) : str := filter (fun c => negb (c =? 58)) k.
Definition remove_colon (d : list (str * value)) : list (str * value) := map (fun kv => (strip_colons (fst kv), snd kv)) d.
Lemma strip_colons_idem k : strip_colons (strip_colons k) = strip_colons k.
Proof.
  unfold strip_colons. induction k as [|c k IH]; cbn [filter]; [reflexivity|].
  destruct (c =? 58) eqn:E; cbn [negb filter]; [exact IH | rewrite E; cbn [negb]; f_equal; exact IH].
Qed.
Lemma strip_colons_id k : existsb (N.eqb 58) k = false -> strip_colons k = k.
Proof.
  unfold strip_colons. induction k as [|c k IH]; cbn [existsb filter]; [reflexivity|]. intros H. apply orb_false_iff in H. destruct H as [H1 H2].
  rewrite N.eqb_sym in H1. rewrite H1. cbn [negb]. f_equal. apply IH. exact H2.
Qed.
Theorem remove_colon_idem d : remove_colon (remove_colon d) = remove_colon d.
Proof. unfold remove_colon. rewrite map_map. apply map_ext. intros [k v]. simpl. rewrite strip_colons_idem. reflexivity. Qed.

(* StatementCondition.__eq__: the dumps of the FIELDS are compared; the lazily built evaluator `_eval` (a private attribute:
   never dumped) takes no part.  An object is (fields, cache). *)
Definition cond_obj := (list (str * value) * option N)%type.       (* cache: None = not built yet, Some id = some closure *)
Definition cond_eq (a b : cond_obj) : bool := veqb (VDict (fst a)) (VDict (fst b)).

(* FunctionDict.check_if_valid_function: exactly one key and that key an implemented intrinsic function; extra = allow keeps
   the body as it is *)
Definition function_dict (v : value) : res value :=
  match v with
  | VDict [(k, _)] => if mem_str k MODEL_FUNCTIONS then Ok v else Err EValidation
  | _ => Err EValidation
  end.
Lemma function_dict_id v w : function_dict v = Ok w -> w = v.
Proof.
  unfold function_dict. destruct v as [ | | | | | | |d]; try discriminate. destruct d as [|[k b] [|? ?]]; try discriminate.
  destruct (mem_str k MODEL_FUNCTIONS); [|discriminate]. intros H; inv H. reflexivity.
Qed.

Definition literal (s : str) (v : value) : res value :=
  match v with VStr s' => if str_eqb s s' then Ok v else Err EValidation | _ => Err EValidation end.
Lemma literal_id s v w : literal s v = Ok w -> w = v /\ v = VStr s.
Proof.
  destruct v; simpl; try discriminate. destruct (str_eqb s s0) eqn:E; [|discriminate]. intros H; inv H.
  apply str_eqb_spec in E. subst. split; reflexivity.
Qed.
Definition dict_any (v : value) : res value := match v with VDict _ => Ok v | _ => Err EValidation end.
Definition list_any (v : value) : res value := match v with VList _ => Ok v | _ => Err EValidation end.

(* all leaves: pycfmodel's own ones as above, the rest delegated to the oracle [core] *)
Definition is_core (k : leaf) : bool :=
  match k with LStr | LInt | LPosInt | LIntOrStr | LBool | LDate | LDatetime | LGeneric => true | _ => false end.
Definition leaf_validate (core : leaf -> value -> res value) (k : leaf) (v : value) : res value :=
  match k with
  | LSemiBool => semi_strict_bool v
  | LNet4 => loose_net4 v
  | LNet6 => loose_net6 v
  | LBinary => validate_binary v
  | LStrNum => str_num v
  | LLit s => literal s v
  | LFn => function_dict v
  | LAny => Ok v
  | LDictAny => dict_any v
  | LListAny => list_any v
  | LStr | LInt | LPosInt | LIntOrStr | LBool | LDate | LDatetime | LGeneric => core k v
  end.

(* leaves that hand their input back unchanged *)
Definition identity_leaf (k : leaf) : bool :=
  match k with LLit _ | LFn | LAny | LDictAny | LListAny => true | _ => false end.
Lemma identity_leaf_id core k v w : identity_leaf k = true -> leaf_validate core k v = Ok w -> w = v.
Proof.
  destruct k; try discriminate; intros _; cbn [leaf_validate].
  - intros H. apply (literal_id _ _ _ H).
  - apply function_dict_id.
  - intros H; inv H; reflexivity.
  - destruct v; simpl; try discriminate; intros H; inv H; reflexivity.
  - destruct v; simpl; try discriminate; intros H; inv H; reflexivity.
Qed.

(* every modelled leaf accepts its own output; for the oracle leaves this is the hypothesis *)
Theorem leaf_accepts_own_output core :
  (forall k v w, is_core k = true -> core k v = Ok w -> core k w = Ok w) ->
  forall k v w, leaf_validate core k v = Ok w -> leaf_validate core k w = Ok w.
Proof.
  intros Hc k v w. destruct (identity_leaf k) eqn:Ei; [intros H; pose proof (identity_leaf_id core k v w Ei H); subst w; exact H|].
  destruct k; try discriminate Ei; cbn [leaf_validate]; try (apply Hc; reflexivity).
  - apply str_num_own.
  - apply semi_strict_bool_own.
  - apply loose_net4_own.
  - apply loose_net6_own.
  - apply validate_binary_own.
Qed.
Lemma function_dict_out v w : function_dict v = Ok w -> exists d, w = VDict d.
Proof. intros H. pose proof (function_dict_id _ _ H); subst w. destruct v; try discriminate. eexists; reflexivity. Qed.
