(* C19 -- "malformed templates are rejected cleanly", for whole parse: the schema interpreter of Typed/Roundtrip.v
   ([validate tbl modelled strict leafv n t v] = pydantic validating the plain data [v] against the annotation [t] over the
   class table [tbl]) composed with its leaf validators.  The structure walk and pycfmodel's own hooks add no exception kind
   of their own, for every class table, value, annotation and fuel: the only way another exception can leave parse is through
   a leaf validator, which is where the historical defects were (F11 b64decode of a number, F13 unhashable Type, F26 year-0
   date).  The interpreter is a model of pydantic UNDER the hypothesis that the leaves are clean: a union of the model treats
   any error other than "declined" / "out of fuel" as a refusal and tries the next member, whereas pydantic lets a foreign
   exception through at once; so for unclean leaves the model is only faithful at a leaf position, which is where the
   converse (a leaf's exception does leave, unchanged) is stated.

   pycfmodel's own leaf validators (Typed/Leaves.v) are Gallina functions and are proved clean here; the scalar validators
   of pydantic-core and class Generic are the oracle [core], for which cleanliness stays the hypothesis [core_clean] (tied
   by the sandboxed fuzzer of harness/props/c19.py, stream (b); F26 was a violation of it).  For the runner's own instance
   of the oracle ([core_dumped], Typed/RoundtripRun.v) the hypothesis is proved.  The leaves and hooks of the interpreter
   are the custom validators of Robust/Validators.v (tied to the code by direct calls) under pydantic's contract
   [pydantic_wrap] (ValueError -> ValidationError, anything else propagates).  With fuel above the depth of the value the nesting
   limit is not among the outcomes ([validate_clean_depth]). *)
From Coq Require Import List Bool NArith ZArith Lia.
From PV Require Import Base.Str Base.ListFacts Base.Value Base.WireFacts Resolver.Consts.
From PV Require Import Net.NetText Net.IPv4 Net.IPv4Thm Net.IPv6.
From PV Require Import Typed.Schema Typed.Dispatch Typed.Leaves Typed.Roundtrip Typed.RoundtripFacts Typed.RoundtripRun.
From PV Require Robust.RConsts Robust.Validators Robust.ValidatorsFacts.
From PVGen Require Schema.
Import ListNotations.

(* outcome sets *)
Definition okp (allowed : err -> bool) {A : Type} (r : res A) : Prop :=
  match r with Ok _ => True | Err e => allowed e = true end.
(* a leaf validator: a value, ValidationError, or the model declines *)
Definition A_leaf (e : err) : bool := match e with EValidation | EUndefined => true | _ => false end.
(* parse: the same, or the nesting limit *)
Definition A_parse (e : err) : bool := match e with EValidation | EUndefined | ERecursion => true | _ => false end.

(* the same sets, spelled out *)
Definition leaf_outcome {A : Type} (r : res A) : Prop :=
  (exists a, r = Ok a) \/ r = Err EValidation \/ r = Err EUndefined.
Definition parse_outcome {A : Type} (r : res A) : Prop :=
  (exists a, r = Ok a) \/ r = Err EValidation \/ r = Err EUndefined \/ r = Err ERecursion.
Lemma okp_leaf_iff {A} (r : res A) : okp A_leaf r <-> leaf_outcome r.
Proof.
  unfold leaf_outcome. destruct r as [a|e]; simpl.
  - split; [intros _; left; eexists; reflexivity | intros _; exact I].
  - split.
    + destruct e; try discriminate; intros _; [right; left | right; right]; reflexivity.
    + intros [[a H] | [H | H]]; [discriminate | inv H; reflexivity | inv H; reflexivity].
Qed.
Lemma okp_parse_iff {A} (r : res A) : okp A_parse r <-> parse_outcome r.
Proof.
  unfold parse_outcome. destruct r as [a|e]; simpl.
  - split; [intros _; left; eexists; reflexivity | intros _; exact I].
  - split.
    + destruct e; try discriminate; intros _; [right; left | right; right; right | right; right; left]; reflexivity.
    + intros [[a H] | [H | [H | H]]]; [discriminate | inv H; reflexivity ..].
Qed.
Lemma okp_mono (a a' : err -> bool) {A} (r : res A) : (forall e, a e = true -> a' e = true) -> okp a r -> okp a' r.
Proof. intros H. destruct r; simpl; auto. Qed.
Lemma leaf_in_parse e : A_leaf e = true -> A_parse e = true.
Proof. destruct e; simpl; congruence. Qed.

(* what is asked of the leaf validators *)
Definition leaves_clean (leafv : leaf -> value -> res value) : Prop := forall k v, leaf_outcome (leafv k v).

(* nesting depth of a value (Base/WireFacts.v: a scalar has depth 1) *)
Lemma vdepth_pos v : 1 <= vdepth v.
Proof. destruct v; simpl; lia. Qed.
Lemma vdepth_in_list x l : In x l -> vdepth x < vdepth (VList l).
Proof. intros H. pose proof (max_le_fold vdepth l x H). simpl. lia. Qed.
Lemma vdepth_in_dict kv d : In kv d -> vdepth (snd kv) < vdepth (VDict d).
Proof. intros H. pose proof (max_le_fold (fun kv => vdepth (snd kv)) d kv H) as M. simpl in M. simpl. lia. Qed.
Lemma vdepth_tag v : vdepth (tag_value_hook v) = vdepth v.
Proof. destruct v; reflexivity. Qed.

(* pycfmodel's own hooks, as they enter the interpreter: each answers with a value or with ValidationError *)
Lemma effect_hook_cases w : (exists w', effect_hook w = Ok w') \/ effect_hook w = Err EValidation.
Proof.
  destruct w; try (left; eexists; reflexivity).
  unfold effect_hook, Policy.effect_store, Policy.effect_norm.
  destruct (str_eqb (Policy.capitalize s) (Policy.name Policy.Allow)); [left; eexists; reflexivity|].
  destruct (str_eqb (Policy.capitalize s) (Policy.name Policy.Deny)); [left; eexists; reflexivity | right; reflexivity].
Qed.
Lemma check_type_cases modelled strict v :
  check_type modelled strict v = Ok v \/ check_type modelled strict v = Err EValidation.
Proof.
  destruct v; simpl; auto. destruct (strict && is_modelled modelled s); auto.
Qed.
(* a before-hook hands on the value itself or its Tag coercion (a scalar for a scalar), or refuses *)
Lemma before_hook_cases modelled strict h v :
  before_hook modelled strict h v = Err EValidation \/
  exists v1, before_hook modelled strict h v = Ok v1 /\ (v1 = v \/ v1 = tag_value_hook v).
Proof.
  destruct h; cbn [before_hook].
  - right. exists v. auto.
  - right. exists v. auto.
  - right. exists (tag_value_hook v). auto.
  - destruct (check_type_cases modelled strict v) as [-> | ->]; [right; exists v; auto | left; reflexivity].
Qed.
Lemma after_hook_cases h x : (exists x', after_hook h x = Ok x') \/ after_hook h x = Err EValidation.
Proof.
  destruct h; try (left; eexists; reflexivity). destruct x; try (left; eexists; reflexivity).
  cbn [after_hook]. destruct (effect_hook_cases v) as [[w' ->] | ->]; [left; eexists; reflexivity | right; reflexivity].
Qed.
(* the class hook (remove_colon) is a total function on objects that keeps every member *)
Lemma class_hook_members h d kv : In kv (class_hook h d) -> exists kv0, In kv0 d /\ snd kv0 = snd kv.
Proof.
  destruct h; cbn [class_hook]; [intros H; exists kv; auto|].
  unfold remove_colon. intros H. apply in_map_iff in H. destruct H as (kv0 & <- & Hin). exists kv0. auto.
Qed.

(* the composition, once for every outcome set that contains ValidationError and "declined" *)
Section Clean.
  Variable allowed : err -> bool.
  Hypothesis A_val : allowed EValidation = true.
  Hypothesis A_und : allowed EUndefined = true.
  Notation good := (okp allowed).

  Lemma good_bind {A B} (r : res A) (f : A -> res B) : good r -> (forall a, good (f a)) -> good (bind r f).
  Proof. destruct r as [a|e]; simpl; auto. Qed.
  Lemma good_mapM {A B} (f : A -> res B) l : (forall a, In a l -> good (f a)) -> good (mapM f l).
  Proof.
    induction l as [|a l IH]; intros H; cbn [mapM]; [exact I|].
    apply good_bind; [apply H; left; reflexivity|]. intros y.
    apply good_bind; [apply IH; intros b Hb; apply H; right; exact Hb | intros ys; exact I].
  Qed.
  Lemma good_first_ok rs : Forall good rs -> good (first_ok rs).
  Proof.
    induction 1 as [|r rs Hr _ IH]; cbn [first_ok]; [exact A_val|].
    destruct r as [x|e]; [exact I|]. destruct (is_hard e); [exact Hr | exact IH].
  Qed.
  Lemma good_smart_ok rs : Forall good rs -> good (smart_ok rs).
  Proof.
    induction 1 as [|r rs Hr _ IH]; cbn [smart_ok]; [exact A_val|].
    destruct r as [x|e]; [destruct (forallb is_soft rs); [exact I | exact A_und]|].
    destruct (is_hard e); [exact Hr | exact IH].
  Qed.
  Lemma good_map_Forall {A} (f : A -> res tval) ts : (forall t, In t ts -> good (f t)) -> Forall good (map f ts).
  Proof.
    intros H. apply Forall_forall. intros r Hr. apply in_map_iff in Hr. destruct Hr as (t & <- & Hin). apply H. exact Hin.
  Qed.

  Variable modelled : list (str * str).
  Variable strict : bool.
  Variable leafv : leaf -> value -> res value.
  Hypothesis Hleaf : forall k v, good (leafv k v).

  (* the structure of one annotation; the values handed on are [v] itself or members of [v] *)
  Section Step.
    Variable D : value -> Prop.                    (* the values under consideration: closed under "member of" *)
    Hypothesis D_list : forall l x, D (VList l) -> In x l -> D x.
    Hypothesis D_dict : forall d kv, D (VDict d) -> In kv d -> D (snd kv).
    Variable bn : str -> value -> res tval.
    Hypothesis Hbn : forall name v, D v -> good (bn name v).

    Lemma step_good : forall t v, D v -> good (validate_step modelled leafv bn t v).
    Proof.
      induction t as [k|t IHt|t IHt|ts IHts|ts IHts|t IHt|name| |t IHt] using ftype_ind'; intros v Dv.
      - (* leaf *) cbn [validate_step]. apply good_bind; [apply Hleaf | intros w; exact I].
      - (* List[t] *) cbn [validate_step]. destruct v as [ | | | | | |l|d]; try exact A_val.
        apply good_bind; [|intros xs; exact I]. apply good_mapM. intros x Hx. apply IHt. exact (D_list l x Dv Hx).
      - (* Dict[str, t] *) cbn [validate_step]. destruct v as [ | | | | | |l|d]; try exact A_val.
        apply good_bind; [|intros xs; exact I]. apply good_mapM. intros kv Hkv.
        apply good_bind; [apply IHt; exact (D_dict d kv Dv Hkv) | intros x; exact I].
      - (* left-to-right union *) cbn [validate_step]. apply good_first_ok. apply good_map_Forall.
        intros t' Hin. rewrite Forall_forall in IHts. exact (IHts t' Hin v Dv).
      - (* smart union *) cbn [validate_step]. apply good_smart_ok. apply good_map_Forall.
        intros t' Hin. rewrite Forall_forall in IHts. exact (IHts t' Hin v Dv).
      - (* Resolvable[t] *) cbn [validate_step]. apply good_first_ok. constructor; [exact (IHt v Dv)|]. constructor; [|constructor].
        apply good_bind; [apply Hleaf | intros w; exact I].
      - (* model class *) cbn [validate_step]. exact (Hbn name v Dv).
      - (* resource union *) cbn [validate_step]. destruct v as [ | | | | | |l|d]; try exact A_val.
        destruct (type_of d) as [|s|]; [exact (Hbn _ _ Dv) | | exact A_val].
        destruct (class_of modelled s) as [c|]; [|exact (Hbn _ _ Dv)].
        apply good_first_ok. constructor; [exact (Hbn _ _ Dv)|]. constructor; [exact (Hbn _ _ Dv) | constructor].
      - (* Optional[t] *) cbn [validate_step]. destruct v; try exact I; exact (IHt _ Dv).
    Qed.
  End Step.

  (* one model class; its fields are members of the object, possibly through a before-hook *)
  Section Model.
    Variables Dp Dc : value -> Prop.                (* the object / its members *)
    Hypothesis D_child : forall d kv, Dp (VDict d) -> In kv d -> Dc (snd kv).
    Hypothesis D_tag : forall v, Dc v -> Dc (tag_value_hook v).
    Variable rec : ftype -> value -> res tval.
    Hypothesis Hrec : forall t v, Dc v -> good (rec t v).

    Lemma field_good d f : (forall v, lookup (f_name f) d = Some v -> Dc v) -> good (validate_field modelled strict rec d f).
    Proof.
      intros Hd. unfold validate_field. destruct (lookup (f_name f) d) as [v|].
      - specialize (Hd v eq_refl).
        destruct (before_hook_cases modelled strict (f_hook f) v) as [-> | (v1 & -> & Hv1)]; [exact A_val|]. cbn [bind].
        assert (Dc v1) as Dv1 by (destruct Hv1 as [-> | ->]; [exact Hd | exact (D_tag v Hd)]).
        apply good_bind; [exact (Hrec _ _ Dv1)|]. intros x.
        destruct (after_hook_cases (f_hook f) x) as [[x' ->] | ->]; [exact I | exact A_val].
      - destruct (f_default f); [exact A_val | exact I | exact I].
    Qed.

    Lemma model_good c v : Dp v -> good (validate_model modelled strict rec c v).
    Proof.
      intros Dv. unfold validate_model. destruct v as [ | | | | | |l|d0]; try exact A_val. cbv zeta.
      destruct (negb (nodupb (keys (class_hook (c_hook c) d0)))); [exact A_und|].
      apply good_bind.
      - apply good_mapM. intros f _. apply field_good. intros v Hl. apply lookup_In in Hl.
        destruct (class_hook_members _ _ _ Hl) as (kv0 & Hin & E). cbn [snd] in E. rewrite <- E. exact (D_child d0 kv0 Dv Hin).
      - intros fs. destruct (c_extra c); try exact I.
        destruct (extras_of c (class_hook (c_hook c) d0)); [exact I | exact A_val].
    Qed.

    Lemma by_name_good tbl name v : Dp v -> good (by_name tbl modelled strict rec name v).
    Proof. intros Dv. unfold by_name. destruct (find_class tbl name); [apply model_good; exact Dv | exact A_und]. Qed.
  End Model.
End Clean.

(* induction on the fuel *)
Section Parse.
  Variable tbl : list cschema.
  Variable modelled : list (str * str).
  Variable strict : bool.
  Variable leafv : leaf -> value -> res value.
  Notation val := (validate tbl modelled strict leafv).
  Hypothesis Hleaf : forall k v, okp A_leaf (leafv k v).

  Lemma validate_good n : forall t v, okp A_parse (val n t v).
  Proof.
    assert (Hl : forall k v, okp A_parse (leafv k v)) by (intros k v; exact (okp_mono _ _ _ leaf_in_parse (Hleaf k v))).
    induction n as [|n IH]; intros t v; cbn [validate].
    - apply (step_good A_parse eq_refl eq_refl modelled leafv Hl (fun _ => True)); auto. intros name v0 _. reflexivity.
    - apply (step_good A_parse eq_refl eq_refl modelled leafv Hl (fun _ => True)); auto. intros name v0 _.
      apply (by_name_good A_parse eq_refl eq_refl modelled strict (fun _ => True) (fun _ => True)); auto.
  Qed.

  (* fuel that covers the nesting depth of the value never runs out: whatever the table *)
  Lemma validate_good_depth n : forall t v, vdepth v <= n -> okp A_leaf (val n t v).
  Proof.
    induction n as [|n IH]; intros t v Hd; [pose proof (vdepth_pos v); lia|]. cbn [validate].
    apply (step_good A_leaf eq_refl eq_refl modelled leafv Hleaf (fun v => vdepth v <= S n)).
    - intros l x Hl Hx. pose proof (vdepth_in_list x l Hx). lia.
    - intros d kv Hl Hx. pose proof (vdepth_in_dict kv d Hx). lia.
    - intros name v0 Hv0.
      apply (by_name_good A_leaf eq_refl eq_refl modelled strict (fun v => vdepth v <= S n) (fun v => vdepth v <= n)).
      + intros d kv Hl Hx. pose proof (vdepth_in_dict kv d Hx). lia.
      + intros v1 H1. rewrite vdepth_tag. exact H1.
      + exact IH.
      + exact Hv0.
    - exact Hd.
  Qed.
End Parse.

(* fuel is monotone: a SETTLED answer (a model, or an error that is not "declined" / "out of fuel") is the answer
   for every larger fuel.  No hypothesis on the table or on the leaves. *)
Definition settled {A} (r : res A) : Prop := match r with Ok _ => True | Err e => is_hard e = false end.
Definition rle {A} (r r' : res A) : Prop := settled r -> r' = r.

Lemma rle_refl {A} (r : res A) : rle r r.
Proof. intros _. reflexivity. Qed.
Lemma rle_trans {A} (a b c : res A) : rle a b -> rle b c -> rle a c.
Proof. intros H1 H2 Hs. pose proof (H1 Hs) as E. rewrite E in H2. rewrite (H2 Hs). reflexivity. Qed.
Lemma rle_bind {A B} (r r' : res A) (f f' : A -> res B) : rle r r' -> (forall a, rle (f a) (f' a)) -> rle (bind r f) (bind r' f').
Proof.
  intros H1 H2 Hs. destruct r as [a|e].
  - rewrite (H1 I). cbn [bind] in *. exact (H2 a Hs).
  - cbn [bind] in Hs. rewrite (H1 Hs). reflexivity.
Qed.
Lemma rle_mapM {A B} (f f' : A -> res B) l : (forall a, In a l -> rle (f a) (f' a)) -> rle (mapM f l) (mapM f' l).
Proof.
  induction l as [|a l IH]; intros H; cbn [mapM]; [apply rle_refl|].
  apply rle_bind; [apply H; left; reflexivity|]. intros y.
  apply rle_bind; [apply IH; intros b Hb; apply H; right; exact Hb | intros ys; apply rle_refl].
Qed.
Lemma rle_first_ok rs rs' : Forall2 rle rs rs' -> rle (first_ok rs) (first_ok rs').
Proof.
  induction 1 as [|r r' rs rs' Hr _ IH]; cbn [first_ok]; [apply rle_refl|]. intros Hs.
  destruct r as [x|e].
  - rewrite (Hr I). reflexivity.
  - destruct (is_hard e) eqn:Eh; [cbn in Hs; congruence|]. rewrite (Hr Eh), Eh. exact (IH Hs).
Qed.
Lemma soft_all_rle rs rs' : Forall2 rle rs rs' -> forallb is_soft rs = true -> forallb is_soft rs' = true.
Proof.
  induction 1 as [|r r' rs rs' Hr _ IH]; cbn [forallb]; [reflexivity|]. intros H. apply andb_true_iff in H. destruct H as [H1 H2].
  apply andb_true_iff. split; [|exact (IH H2)]. destruct r as [x|e]; [discriminate|]. cbn [is_soft] in H1.
  apply negb_true_iff in H1. rewrite (Hr H1). cbn [is_soft]. rewrite H1. reflexivity.
Qed.
Lemma rle_smart_ok rs rs' : Forall2 rle rs rs' -> rle (smart_ok rs) (smart_ok rs').
Proof.
  induction 1 as [|r r' rs rs' Hr Hrs IH]; cbn [smart_ok]; [apply rle_refl|]. intros Hs.
  destruct r as [x|e].
  - rewrite (Hr I). destruct (forallb is_soft rs) eqn:Ea; [|cbn in Hs; discriminate].
    rewrite (soft_all_rle rs rs' Hrs Ea). reflexivity.
  - destruct (is_hard e) eqn:Eh; [cbn in Hs; congruence|]. rewrite (Hr Eh), Eh. exact (IH Hs).
Qed.

Section Mono.
  Variable tbl : list cschema.
  Variable modelled : list (str * str).
  Variable strict : bool.
  Variable leafv : leaf -> value -> res value.
  Notation val := (validate tbl modelled strict leafv).

  Lemma step_rle bn bn' : (forall name v, rle (bn name v) (bn' name v)) ->
    forall t v, rle (validate_step modelled leafv bn t v) (validate_step modelled leafv bn' t v).
  Proof.
    intros Hbn. induction t as [k|t IHt|t IHt|ts IHts|ts IHts|t IHt|name| |t IHt] using ftype_ind'; intros v.
    - apply rle_refl.
    - cbn [validate_step]. destruct v; try apply rle_refl. apply rle_bind; [|intros; apply rle_refl].
      apply rle_mapM. intros x _. apply IHt.
    - cbn [validate_step]. destruct v; try apply rle_refl. apply rle_bind; [|intros; apply rle_refl].
      apply rle_mapM. intros kv _. apply rle_bind; [apply IHt | intros; apply rle_refl].
    - cbn [validate_step]. apply rle_first_ok. apply Forall2_maps. revert IHts. apply Forall_impl. intros t' H. exact (H v).
    - cbn [validate_step]. apply rle_smart_ok. apply Forall2_maps. revert IHts. apply Forall_impl. intros t' H. exact (H v).
    - cbn [validate_step]. apply rle_first_ok. constructor; [apply IHt|]. constructor; [apply rle_refl | constructor].
    - cbn [validate_step]. apply Hbn.
    - cbn [validate_step]. destruct v as [ | | | | | |l|d]; try apply rle_refl.
      destruct (type_of d) as [|s|]; [apply Hbn | | apply rle_refl].
      destruct (class_of modelled s) as [c|]; [|apply Hbn].
      apply rle_first_ok. constructor; [apply Hbn|]. constructor; [apply Hbn | constructor].
    - cbn [validate_step]. destruct v; try apply rle_refl; apply IHt.
  Qed.

  Lemma model_rle rec rec' : (forall t v, rle (rec t v) (rec' t v)) ->
    forall c v, rle (validate_model modelled strict rec c v) (validate_model modelled strict rec' c v).
  Proof.
    intros Hrec c v. unfold validate_model. destruct v; try apply rle_refl. cbv zeta.
    destruct (negb (nodupb (keys (class_hook (c_hook c) d)))); [apply rle_refl|].
    apply rle_bind; [|intros; apply rle_refl]. apply rle_mapM. intros f _. unfold validate_field.
    destruct (lookup (f_name f) (class_hook (c_hook c) d)); [|apply rle_refl].
    apply rle_bind; [apply rle_refl|]. intros v1. apply rle_bind; [apply Hrec | intros; apply rle_refl].
  Qed.

  Lemma fuel_step n : forall t v, rle (val n t v) (val (S n) t v).
  Proof.
    induction n as [|n IH]; intros t v.
    - cbn [validate]. apply step_rle. intros name v0 Hs. cbn in Hs. discriminate.
    - change (val (S (S n))) with (validate_step modelled leafv (by_name tbl modelled strict (val (S n)))).
      change (val (S n)) with (validate_step modelled leafv (by_name tbl modelled strict (val n))) at 1.
      apply step_rle. intros name v0. unfold by_name. destruct (find_class tbl name); [|apply rle_refl].
      apply model_rle. exact IH.
  Qed.
  Lemma fuel_mono n m : n <= m -> forall t v, rle (val n t v) (val m t v).
  Proof.
    induction 1 as [|m _ IH]; intros t v; [apply rle_refl|]. eapply rle_trans; [apply IH | apply fuel_step].
  Qed.
End Mono.

(* the theorems, spelled out *)
Theorem validate_clean :
  forall (tbl : list cschema) (modelled : list (str * str)) (strict : bool) (leafv : leaf -> value -> res value),
    leaves_clean leafv ->
    forall (n : nat) (t : ftype) (v : value), parse_outcome (validate tbl modelled strict leafv n t v).
Proof.
  intros tbl modelled strict leafv Hl n t v. apply okp_parse_iff. apply validate_good.
  intros k w. apply okp_leaf_iff. apply Hl.
Qed.
Theorem validate_clean_depth :
  forall tbl modelled strict leafv, leaves_clean leafv ->
    forall n t v, vdepth v <= n -> leaf_outcome (validate tbl modelled strict leafv n t v).
Proof.
  intros tbl modelled strict leafv Hl n t v Hd. apply okp_leaf_iff. apply validate_good_depth; [|exact Hd].
  intros k w. apply okp_leaf_iff. apply Hl.
Qed.

(* the leaf validators the runner uses: pycfmodel's own ones are clean (proved); pydantic-core's are the oracle [core] *)
Definition core_clean (core : leaf -> value -> res value) : Prop := forall k v, is_core k = true -> leaf_outcome (core k v).

Lemma lo_ok {A} (a : A) : leaf_outcome (Ok a).
Proof. left. eexists; reflexivity. Qed.
Lemma lo_val {A} : leaf_outcome (@Err A EValidation).
Proof. right; left; reflexivity. Qed.
Lemma lo_und {A} : leaf_outcome (@Err A EUndefined).
Proof. right; right; reflexivity. Qed.

Lemma semi_strict_bool_lo v : leaf_outcome (semi_strict_bool v).
Proof.
  destruct v; cbn [semi_strict_bool]; try apply lo_val; [apply lo_ok|].
  destruct (str_eqb (lower s) S_true); [apply lo_ok|]. destruct (str_eqb (lower s) S_false); [apply lo_ok | apply lo_val].
Qed.
Lemma net4_text_lo s : leaf_outcome (n <- as_val (parse4 s) ;; Ok (net4_text n)).
Proof. destruct (parse4_err s) as [-> | [n ->]]; cbn [as_val bind]; [apply lo_val | apply lo_ok]. Qed.
Lemma loose_net4_lo v : leaf_outcome (loose_net4 v).
Proof.
  destruct v as [ |b|z|s|k s|bs|l|d]; cbn [loose_net4]; try apply lo_val; try apply net4_text_lo.
  - apply lo_ok.
  - destruct ((0 <=? z)%Z && (z <? 4294967296)%Z); [apply lo_ok | apply lo_val].
  - destruct (Nat.eqb (length bs) 4); [apply lo_ok | apply lo_val].
Qed.
Lemma net6_text_lo s : leaf_outcome (n <- as_val (parse6 s) ;; Ok (net6_text n)).
Proof.
  unfold parse6. destruct (has_ch PERCENT s); [apply lo_und|].
  destruct (written6 s) as [[x l]|]; cbn [as_val bind]; [apply lo_ok | apply lo_val].
Qed.
Lemma loose_net6_lo v : leaf_outcome (loose_net6 v).
Proof.
  destruct v as [ |b|z|s|k s|bs|l|d]; cbn [loose_net6]; try apply lo_val; try apply net6_text_lo.
  - apply lo_ok.
  - destruct ((0 <=? z)%Z && (z <? 2 ^ 128)%Z); [apply lo_ok | apply lo_val].
  - destruct (Nat.eqb (length bs) 16); [apply lo_ok | apply lo_val].
Qed.
Lemma validate_binary_lo v : leaf_outcome (validate_binary v).
Proof.
  destruct v; cbn [validate_binary]; try apply lo_val; [|apply lo_ok].
  destruct (forallb (fun c => (c <? 128)%N) s); [|apply lo_val]. destruct (b64decode s); [apply lo_ok | apply lo_val].
Qed.
Lemma str_num_lo v : leaf_outcome (str_num v).
Proof. destruct v as [ | | | |[]| | | ]; cbn [str_num]; try apply lo_val; try apply lo_ok; apply lo_und. Qed.
Lemma literal_lo s v : leaf_outcome (literal s v).
Proof. destruct v; cbn [literal]; try apply lo_val. destruct (str_eqb s s0); [apply lo_ok | apply lo_val]. Qed.
Lemma function_dict_lo v : leaf_outcome (function_dict v).
Proof.
  unfold function_dict. destruct v as [ | | | | | | |d]; try apply lo_val. destruct d as [|[k b] [|? ?]]; try apply lo_val.
  destruct (mem_str k MODEL_FUNCTIONS); [apply lo_ok | apply lo_val].
Qed.

Theorem leaf_validate_clean core : core_clean core -> leaves_clean (leaf_validate core).
Proof.
  intros Hc k v. destruct k; cbn [leaf_validate]; try (apply Hc; reflexivity).
  - apply str_num_lo.
  - apply semi_strict_bool_lo.
  - apply loose_net4_lo.
  - apply loose_net6_lo.
  - apply validate_binary_lo.
  - apply literal_lo.
  - apply function_dict_lo.
  - apply lo_ok.
  - destruct v; cbn [dict_any]; try apply lo_val; apply lo_ok.
  - destruct v; cbn [list_any]; try apply lo_val; apply lo_ok.
Qed.

(* the runner's instance of the oracle meets the hypothesis *)
Lemma core_dumped_clean : core_clean core_dumped.
Proof.
  intros k v _. apply okp_leaf_iff. unfold core_dumped.
  destruct v as [ |b|z|s|kd t|bs|l|d]; destruct k; try exact I; try reflexivity;
    try (destruct kd; first [exact I | reflexivity]);
    try (destruct (looks_numeric s); first [exact I | reflexivity]).
  destruct (0 <? z)%Z; first [exact I | reflexivity].
Qed.

(* on the class table generated from the live classes (gen/Schema.v).  The composition theorem holds for EVERY table,
   so nothing has to be checked about the generated one: the instance is the theorem. *)
Theorem validate_clean_live :
  forall (core : leaf -> value -> res value), core_clean core ->
    forall strict n t v,
      parse_outcome (validate Schema.CLASSES Schema.RESOURCE_MODELS strict (leaf_validate core) n t v) /\
      (vdepth v <= n -> leaf_outcome (validate Schema.CLASSES Schema.RESOURCE_MODELS strict (leaf_validate core) n t v)).
Proof.
  intros core Hc strict n t v. split.
  - apply validate_clean. apply leaf_validate_clean. exact Hc.
  - apply validate_clean_depth. apply leaf_validate_clean. exact Hc.
Qed.

(* where the interpreter's leaves and the validators of Robust/Validators.v are written differently: the base64 loop and the
   test for a modelled type *)
Local Open Scope N_scope.
Lemma b64_go_same s : forall qp lc pads acc, b64_go s qp lc pads acc = Validators.b64dec_go s qp pads lc acc.
Proof.
  induction s as [|c r IH]; intros qp lc pads acc; cbn [b64_go Validators.b64dec_go]; [reflexivity|].
  change (Validators.b64_val c) with (b64_val c).
  destruct (c =? 61); [destruct ((2 <=? qp) && (4 <=? qp + (pads + 1))); [reflexivity | apply IH]|].
  destruct (b64_val c) as [d|]; [|apply IH].
  destruct (qp =? 0); [apply IH|]. destruct (qp =? 1); [apply IH|]. destruct (qp =? 2); apply IH.
Qed.
Lemma is_modelled_keys modelled s : is_modelled modelled s = mem_str s (keys modelled).
Proof.
  unfold is_modelled, class_of, mem_str, keys. induction modelled as [|[k c] m IH]; cbn [lookup map existsb fst]; [reflexivity|].
  destruct (str_eqb s k); [reflexivity | exact IH].
Qed.
