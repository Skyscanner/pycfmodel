(* What the definitions of Typed/Cast.v do, node by node: the answer of the union ([choose_spec]) and the equations of [cast] for
   a leaf, a function call, an array (typed or not), an object, JSON text.  For every configuration and every annotation.
   Used by C13 (Typed/Collect.v, CollectFacts.v) and C18 (Typed/CastOk.v, CastShape.v). *)
From Coq Require Import List Bool NArith ZArith Lia.
From PV Require Import Base.Str Base.Value Typed.GValue Typed.Cast.
Import ListNotations.

Lemma flat_map_flat_map {A B C} (f : A -> list B) (g : B -> list C) l :
  flat_map g (flat_map f l) = flat_map (fun x => flat_map g (f x)) l.
Proof. induction l; simpl; [reflexivity|]. rewrite flat_map_app. congruence. Qed.
Lemma flat_map_ext_in {A B} (f g : A -> list B) l :
  (forall x, In x l -> f x = g x) -> flat_map f l = flat_map g l.
Proof. induction l; simpl; intros H; [reflexivity|]. rewrite H, IHl; auto. Qed.
Lemma flat_map_nil {A B} (f : A -> list B) l : (forall x, In x l -> f x = []) -> flat_map f l = [].
Proof. induction l; simpl; intros H; [reflexivity|]. rewrite H, IHl; auto. Qed.
Lemma flat_map_map {A B C} (f : A -> B) (g : B -> list C) l : flat_map g (map f l) = flat_map (fun x => g (f x)) l.
Proof. induction l; simpl; congruence. Qed.
Lemma map_combine_map {A B C} (f : A -> B -> C) (h : A -> B) l :
  map (fun p => f (fst p) (snd p)) (combine l (map h l)) = map (fun x => f x (h x)) l.
Proof. induction l; simpl; congruence. Qed.

(* a typed value without members that is neither a function call nor a property model *)
Definition atom (t : tval) : bool :=
  match t with TFn _ | TProp _ | TList _ | TGeneric _ => false | _ => true end.

(* an alternative answers only for a scalar node, with a value of its own type *)
Lemma scalar_inv b g t : scalar b g = Some t ->
  is_scalar g = true /\
  match b, t with
  | BBool, TBool _ | BInt, TInt _ | BDate, TDate _ | BDatetime, TDatetime _ | BIp, TNet _ _ | BStr, TStr _ => True
  | _, _ => False
  end.
Proof.
  destruct b, g; simpl; try discriminate;
    repeat match goal with |- context [option_map _ ?o] => destruct o; simpl end;
    intros H; inversion H; split; constructor.
Qed.
Lemma scalar_atom b g t : scalar b g = Some t -> atom t = true.
Proof. intros H. apply scalar_inv in H. destruct H as [_ H]. destruct b, t; try contradiction; reflexivity. Qed.

Lemma fnb_dict c g : fnb c g = true -> exists k x r, g = GDict [(k, x)] r.
Proof.
  destruct g as [| | | | | |d r]; simpl; try discriminate. destruct d as [|[k x] [|kv d]]; try discriminate.
  intros _. eauto.
Qed.
Lemma fnb_choose c g : fnb c g = true -> choose c g = CFn.
Proof. intros H. destruct (fnb_dict c g H) as (k & x & r & ->). unfold choose. rewrite H. reflexivity. Qed.

(* Resolvable[T] on a member of a list: what T reads, else a function call as written *)
Lemma member_inv c b g t : member c b g = Some t -> scalar b g = Some t \/ (fnb c g = true /\ t = TFn (strip g)).
Proof.
  unfold member. destruct (scalar b g); [intros H; left; exact H|].
  destruct (fnb c g); [|discriminate]. intros H; inversion H. right. split; reflexivity.
Qed.
Lemma member_nonscalar c b g :
  is_scalar g = false -> member c b g = if fnb c g then Some (TFn (strip g)) else None.
Proof.
  intros H. unfold member. destruct (scalar b g) eqn:E; [|reflexivity].
  apply scalar_inv in E. destruct E as [E _]. congruence.
Qed.

Lemma in_branches b : In b BRANCHES.
Proof. destruct b; simpl; tauto. Qed.
Lemma try_branch_spec c g b :
  match try_branch c g b with
  | CFn | CProp _ => False
  | CScalar t => guard_item c b g = true /\ scalar b g = Some t
  | CList b' => b' = b /\ exists l, g = GList l /\ forallb (guard_item c b) l = true /\
                                   forall x, In x l -> member c b x <> None
  | CNone => True
  end.
Proof.
  unfold try_branch. destruct (guard c b g) eqn:G; simpl; [|exact I].
  destruct (scalar b g) eqn:E.
  - split; [|reflexivity]. apply scalar_inv in E. destruct g; try exact G. destruct E; discriminate.
  - destruct g; try exact I. destruct (forallb _ l) eqn:F; [|exact I].
    split; [reflexivity|]. exists l. repeat split; [exact G|].
    intros x Hx. rewrite forallb_forall in F. specialize (F x Hx). destruct (member c b x); congruence.
Qed.
Lemma first_branch_spec c g bs :
  match first_branch c g bs with
  | CFn | CProp _ => False
  | CScalar t => exists b, guard_item c b g = true /\ scalar b g = Some t
  | CList b => exists l, g = GList l /\ forallb (guard_item c b) l = true /\ forall x, In x l -> member c b x <> None
  | CNone => True
  end.
Proof.
  induction bs as [|b bs IH]; simpl; [exact I|]. destruct (aborts c g b); [exact I|].
  pose proof (try_branch_spec c g b) as S.
  destruct (try_branch c g b); try contradiction; try exact IH.
  - exists b; exact S.
  - destruct S as [-> S]. exact S.
Qed.
(* a function call is an object with one member; a property model an object the recogniser names (not an empty one, under
   the specified algorithm); a typed atom comes from a scalar through an alternative whose guard lets it pass; a typed list
   is an array all of whose members one alternative reads *)
Lemma choose_spec c g :
  match choose c g with
  | CFn => fnb c g = true
  | CProp r => exists d, g = GDict d (Some r) /\ (c_empty_plain c = true -> d <> [])
  | CScalar t => exists b, guard_item c b g = true /\ scalar b g = Some t
  | CList b => exists l, g = GList l /\ forallb (guard_item c b) l = true /\ forall x, In x l -> member c b x <> None
  | CNone => True
  end.
Proof.
  assert (choose c g = first_branch c g BRANCHES \/ exists d r, g = GDict d r) as [K|(d & r & ->)] by (destruct g; eauto).
  { rewrite K. pose proof (first_branch_spec c g BRANCHES) as S. destruct (first_branch c g BRANCHES); (contradiction || exact S). }
  unfold choose. destruct d as [|kv d].
  - destruct (c_empty_plain c); [exact I|]. destruct r as [r|]; [|exact I]. exists []. repeat split. discriminate.
  - destruct (fnb c _); [reflexivity|]. destruct r as [r|]; [|exact I]. eexists. repeat split. discriminate.
Qed.

Lemma choose_leaf c g : gleaf g = true -> match choose c g with CScalar t => atom t = true | CNone => True | _ => False end.
Proof.
  intros L. pose proof (choose_spec c g) as S. destruct (choose c g) as [|r|t|b|].
  - apply fnb_dict in S. destruct S as (k & x & r & ->). discriminate.
  - destruct S as (d & -> & _). discriminate.
  - destruct S as (b & _ & S). exact (scalar_atom b g t S).
  - destruct S as (l & -> & _). discriminate.
  - exact I.
Qed.
Lemma choose_scalar_atom c g t : choose c g = CScalar t -> atom t = true.
Proof. intros E. pose proof (choose_spec c g) as S. rewrite E in S. destruct S as (b & _ & S). exact (scalar_atom b g t S). Qed.
Lemma choose_list_shape c l :
  match choose c (GList l) with CFn | CProp _ | CScalar _ => False | _ => True end.
Proof.
  pose proof (choose_spec c (GList l)) as S. destruct (choose c (GList l)); try exact I.
  - discriminate.
  - destruct S as (d & S & _). discriminate.
  - destruct S as (b & _ & S). apply scalar_inv in S. destruct S; discriminate.
Qed.
Lemma choose_dict_shape c d r :
  match choose c (GDict d r) with CScalar _ | CList _ => False | _ => True end.
Proof.
  pose proof (choose_spec c (GDict d r)) as S. destruct (choose c (GDict d r)); try exact I.
  - destruct S as (b & _ & S). apply scalar_inv in S. destruct S; discriminate.
  - destruct S as (l & S & _). discriminate.
Qed.

Lemma cast_leaf_atom c g : gleaf g = true -> atom (cast c g) = true.
Proof.
  intros L. pose proof (choose_leaf c g L) as S.
  destruct g as [| | | |s [j|] a| |]; try discriminate; [reflexivity|..]; cbn [cast];
    destruct (choose c _); try contradiction; try exact S; reflexivity.
Qed.
Lemma cast_fn c g : fnb c g = true -> cast c g = TFn (strip g).
Proof.
  intros H. pose proof (fnb_choose c g H) as E. destruct (fnb_dict c g H) as (k & x & r & ->).
  cbn [cast]. rewrite E. reflexivity.
Qed.
Lemma cast_dict_plain c d r :
  choose c (GDict d r) = CNone -> cast c (GDict d r) = TGeneric (cast_props c d).
Proof. intros H. cbn [cast]. rewrite H. reflexivity. Qed.

(* an array: no alternative reads it, or the list-of-strings alternative does (its members are cast again one by one), or
   another alternative does, and then each member becomes what that alternative reads it as *)
Lemma cast_list_typed c l b :
  choose c (GList l) = CList b -> cast c (GList l) = TList (map (fun x => recast_with c b x (cast c x)) l).
Proof. intros H. cbn [cast]. rewrite H. cbn [finish list_members]. rewrite map_combine_map. reflexivity. Qed.
Lemma cast_list_cases c l :
  ((choose c (GList l) = CNone \/ choose c (GList l) = CList BStr) /\ cast c (GList l) = TList (map (cast c) l))
  \/ exists b, b <> BStr /\ choose c (GList l) = CList b /\
               cast c (GList l) = TList (map (fun x => recast_with c b x (cast c x)) l).
Proof.
  pose proof (choose_list_shape c l) as S. destruct (choose c (GList l)) as [| | |b|] eqn:E; try contradiction.
  - rewrite (cast_list_typed c l b E).
    destruct b; [right; eexists; repeat split; discriminate ..|left; split; [right|]; reflexivity].
  - left. split; [left; reflexivity|]. cbn [cast]. rewrite E. reflexivity.
Qed.
Lemma typed_member c l b x :
  choose c (GList l) = CList b -> b <> BStr -> In x l ->
  (guard_item c b x = true /\ scalar b x = Some (recast_with c b x (cast c x)))
  \/ (fnb c x = true /\ recast_with c b x (cast c x) = cast c x).
Proof.
  intros E Hb Hx. pose proof (choose_spec c (GList l)) as S. rewrite E in S.
  destruct S as (l' & El & G & M). inversion El; subst l'. rewrite forallb_forall in G.
  specialize (G x Hx). specialize (M x Hx).
  assert (recast_with c b x (cast c x) = match member c b x with Some t => t | None => cast c x end) as R
    by (destruct b; try reflexivity; congruence).
  rewrite R. destruct (member c b x) as [t|] eqn:Mx; [|congruence].
  destruct (member_inv c b x t Mx) as [Sc|[F ->]]; [left; split; assumption|right].
  split; [exact F|]. symmetry. apply cast_fn. exact F.
Qed.

Lemma choose_null c : choose c GNull = CNone.
Proof.
  unfold choose, BRANCHES. cbn [first_branch]. unfold aborts, try_branch. cbn. rewrite !andb_false_r. cbn. reflexivity.
Qed.
(* JSON text: the union sees what it encodes (text inside is not decoded a second time) and the text stays if that is rejected *)
Lemma cast_json c s j a :
  cast c (GStr s (Some j) a) =
  if is_cnone (choose c j) then TStr s else cast c (match j with GStr s' _ a' => GStr s' None a' | _ => j end).
Proof.
  destruct j as [| | | |s' j' a'|l|d r]; cbn [cast].
  1: rewrite choose_null; reflexivity.
  4: change (choose c (GStr s' None a')) with (choose c (GStr s' j' a')).
  5: pose proof (choose_list_shape c l) as S.
  all: destruct (choose c _); try contradiction; reflexivity.
Qed.
