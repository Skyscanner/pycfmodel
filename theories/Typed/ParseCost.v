(* C19 -- the cost of whole parse in the magnitude-free cost model: [validate_c] is the schema interpreter of
   Typed/Roundtrip.v with a step counter.

   WHAT A STEP IS.  One step per node of the input visited, per union alternative that visits it:
     - a leaf validator call costs 1, whatever the value (a number of any magnitude, an address range of any width,
       a text of any length: the counter does not look inside a leaf).  class Generic, Any and the unparametrised
       Dict / List are leaves of the schema (Typed/Schema.v): the subtree under them is ONE step here; the walk that
       re-casts a generic subtree is the subject of C18 (Typed/Cast.v: structural recursion over that subtree);
     - List / Dict[str, .] / a model class cost 1 for the container node plus the cost of the members visited; a class
       visits the members named by its fields (hooks -- check_type, Tag coercion, Effect, remove_colon -- and the
       look-up of defaults are per-node work and cost nothing more); pydantic collects the errors of ALL members, so the
       counter does not stop at the first failing member (the RESULT does, as in [mapM]);
     - a left-to-right union pays for its alternatives up to and including the first that accepts (or that declines /
       runs out of fuel); a smart union pays for all of them; Resolvable[t] pays t and, when t refuses, the FunctionDict
       leaf; the resource union pays the dedicated class and, when it refuses, GenericResource.

   THEOREMS.  [validate_c_costs]: the counter does not disturb the result, and ([cost_bound]) for EVERY table, annotation,
   value, fuel and leaf validators,
        steps  <=  weight tbl modelled n t * vsize v
   where [vsize] is the node count of the value and [weight] is computed from the table, the annotation and the fuel
   alone (how many times one node can be visited: alternatives add up, class nesting takes the heaviest field).  In
   closed form ([cost_bound_pow]): weight n t <= fwidth t * U ^ n, U = the largest number of alternatives a single field
   annotation of the table spreads over one node -- exponential in the fuel only if a class reaches itself through a
   union; that is inherent (each level may try every alternative on the same nodes).  For a union-free table and
   annotation U = 1 and the bound is LINEAR with constant 1 ([plain_fwidth], [plain_table_width]): steps <= vsize v.  For the class table
   generated from the live classes the weight at the runner's fuel is a number computed by the kernel
   ([live_weight], at most LIVE_K = 64): parse costs at most that many steps per node of the template. *)
From Coq Require Import List Bool NArith ZArith Lia.
From PV Require Import Base.Str Base.Value Resolver.Consts.
From PV Require Import Typed.Schema Typed.Dispatch Typed.Leaves Typed.Roundtrip Typed.RoundtripFacts Typed.RoundtripRun.
From PV Require Import Typed.ParseClean.
From PV Require Typed.RoundtripTable.
From PVGen Require Schema.
Import ListNotations.

Fixpoint mapM_c {A B} (f : A -> res B * nat) (l : list A) : res (list B) * nat :=
  match l with
  | [] => (Ok [], 0)
  | x :: r => let p := f x in let q := mapM_c f r in
              (y <- fst p ;; ys <- fst q ;; Ok (y :: ys), snd p + snd q)
  end.
Fixpoint first_ok_c (rs : list (res tval * nat)) : res tval * nat :=
  match rs with
  | [] => (Err EValidation, 0)
  | p :: r =>
      match fst p with
      | Ok x => (Ok x, snd p)
      | Err e => if is_hard e then (Err e, snd p) else let q := first_ok_c r in (fst q, snd p + snd q)
      end
  end.
Fixpoint smart_ok_c (rs : list (res tval * nat)) : res tval * nat :=
  match rs with
  | [] => (Err EValidation, 0)
  | p :: r =>
      match fst p with
      | Ok x => (if forallb is_soft (map fst r) then Ok x else Err EUndefined, snd p + list_sum (map snd r))
      | Err e => if is_hard e then (Err e, snd p) else let q := smart_ok_c r in (fst q, snd p + snd q)
      end
  end.

Section CostDef.
  Variable tbl : list cschema.
  Variable modelled : list (str * str).
  Variable strict : bool.
  Variable leafv : leaf -> value -> res value.

  Definition validate_field_c (rec : ftype -> value -> res tval * nat) (d : list (str * value)) (f : field)
    : res (str * tval) * nat :=
    match lookup (f_name f) d with
    | Some v =>
        match before_hook modelled strict (f_hook f) v with
        | Ok v1 => let p := rec (f_type f) v1 in
                   (x <- fst p ;; x' <- after_hook (f_hook f) x ;; Ok (f_name f, x'), snd p)
        | Err e => (Err e, 0)
        end
    | None => (match f_default f with DRequired => Err EValidation | _ => Ok (f_name f, default_tval f) end, 0)
    end.

  Definition validate_model_c (rec : ftype -> value -> res tval * nat) (c : cschema) (v : value) : res tval * nat :=
    match v with
    | VDict d0 =>
        let d := class_hook (c_hook c) d0 in
        if negb (nodupb (keys d)) then (Err EUndefined, 1)
        else
          let q := mapM_c (validate_field_c rec d) (c_fields c) in
          (fs <- fst q ;;
           match c_extra c, extras_of c d with
           | Forbid, _ :: _ => Err EValidation
           | Ignore, _ => Ok (XModel (c_name c) fs [])
           | _, ex => Ok (XModel (c_name c) fs ex)
           end, 1 + snd q)
    | _ => (Err EValidation, 1)
    end.

  Definition by_name_c (rec : ftype -> value -> res tval * nat) (name : str) (v : value) : res tval * nat :=
    match find_class tbl name with
    | Some c => validate_model_c rec c v
    | None => (Err EUndefined, 1)
    end.

  Definition validate_step_c (bn : str -> value -> res tval * nat) : ftype -> value -> res tval * nat :=
    fix vt (t : ftype) (v : value) {struct t} : res tval * nat :=
      match t with
      | TLeaf k => (w <- leafv k v ;; Ok (XLeaf w), 1)
      | TOpt t' => match v with VNull => (Ok (XLeaf VNull), 1) | _ => vt t' v end
      | TList t' =>
          match v with
          | VList l => let q := mapM_c (vt t') l in (xs <- fst q ;; Ok (XList xs), 1 + snd q)
          | _ => (Err EValidation, 1)
          end
      | TDictOf t' =>
          match v with
          | VDict d => let q := mapM_c (fun kv => let p := vt t' (snd kv) in (x <- fst p ;; Ok (fst kv, x), snd p)) d in
                       (xs <- fst q ;; Ok (XDict xs), 1 + snd q)
          | _ => (Err EValidation, 1)
          end
      | TUnionLR ts => first_ok_c (map (fun t' => vt t' v) ts)
      | TUnionSmart ts => smart_ok_c (map (fun t' => vt t' v) ts)
      | TResolvable t' => first_ok_c [vt t' v; (w <- leafv LFn v ;; Ok (XLeaf w), 1)]
      | TModel name => bn name v
      | TResource =>
          match v with
          | VDict d =>
              match type_of d with
              | TyStr s =>
                  match class_of modelled s with
                  | Some c => first_ok_c [bn c v; bn GENERIC v]
                  | None => bn GENERIC v
                  end
              | TyMissing => bn GENERIC v
              | TyOther => (Err EValidation, 1)
              end
          | _ => (Err EValidation, 1)
          end
      end.

  Fixpoint validate_c (n : nat) : ftype -> value -> res tval * nat :=
    match n with
    | O => validate_step_c (fun _ _ => (Err ERecursion, 1))
    | S n' => validate_step_c (by_name_c (validate_c n'))
    end.

  (* how many times one node can be visited: a function of the table, the annotation and the fuel.  The fields of a class
     with distinct names read distinct members of the object, so the members are visited as often as the dearest field visits
     its own: the maximum; fields that share a name may all read the same member: the sum *)
  Definition cweight (w : ftype -> nat) (c : cschema) : nat :=
    let ws := map (fun f => w (f_type f)) (c_fields c) in
    Nat.max 1 (if nodupb (map f_name (c_fields c)) then list_max ws else list_sum ws).
  Fixpoint tweight (wm : str -> nat) (t : ftype) : nat :=
    match t with
    | TLeaf _ => 1
    | TOpt t' | TList t' | TDictOf t' => Nat.max 1 (tweight wm t')
    | TUnionLR ts | TUnionSmart ts => list_sum (map (tweight wm) ts)
    | TResolvable t' => tweight wm t' + 1
    | TModel name => wm name
    | TResource => Nat.max 1 (list_max (map (fun sc => wm (snd sc)) modelled) + wm GENERIC)
    end.
  Fixpoint mweight (n : nat) (name : str) : nat :=
    match n with
    | O => 1
    | S n' => match find_class tbl name with
              | Some c => cweight (tweight (mweight n')) c
              | None => 1
              end
    end.
  Definition weight (n : nat) (t : ftype) : nat := tweight (mweight n) t.

  (* closed form: the alternatives one annotation spreads over a node (classes counted once), the largest such number
     over the fields of the table *)
  Definition fwidth (t : ftype) : nat := tweight (fun _ => 1) t.
  Definition table_width : nat := Nat.max 1 (list_max (map (cweight fwidth) tbl)).
End CostDef.

(* the union-free fragment *)
Fixpoint plain (t : ftype) : bool :=
  match t with
  | TLeaf _ | TModel _ => true
  | TList t' | TDictOf t' | TOpt t' => plain t'
  | TUnionLR _ | TUnionSmart _ | TResolvable _ | TResource => false
  end.
Definition plain_class (c : cschema) : bool :=
  nodupb (map f_name (c_fields c)) && forallb (fun f => plain (f_type f)) (c_fields c).
Definition plain_table (tbl : list cschema) : bool := forallb plain_class tbl.

Lemma list_sum_cons x l : list_sum (x :: l) = x + list_sum l.
Proof. reflexivity. Qed.
(* write a sum over a mapped literal list as x1 + (x2 + ... + 0) *)
Ltac lsum := cbn [map]; repeat rewrite list_sum_cons; try change (list_sum []) with 0.
Lemma list_sum_le_map {A} (f g : A -> nat) l : (forall a, In a l -> f a <= g a) -> list_sum (map f l) <= list_sum (map g l).
Proof.
  induction l as [|a l IH]; intros H; lsum; [lia|].
  pose proof (H a (or_introl eq_refl)). specialize (IH (fun b Hb => H b (or_intror Hb))). lia.
Qed.
Lemma list_sum_mul_l {A} (g : A -> nat) k l : list_sum (map (fun x => k * g x) l) = k * list_sum (map g l).
Proof. induction l as [|a l IH]; lsum; [lia | rewrite IH; lia]. Qed.
Lemma list_sum_mul_r {A} (g : A -> nat) k l : list_sum (map (fun x => g x * k) l) = list_sum (map g l) * k.
Proof. induction l as [|a l IH]; lsum; [lia | rewrite IH; lia]. Qed.
Lemma list_max_cons x l : list_max (x :: l) = Nat.max x (list_max l).
Proof. reflexivity. Qed.
Lemma list_max_In x l : In x l -> x <= list_max l.
Proof.
  induction l as [|y l IH]; [intros []|]. rewrite list_max_cons. intros [-> | H]; [lia | specialize (IH H); lia].
Qed.
Lemma list_max_map_In {A} (f : A -> nat) a l : In a l -> f a <= list_max (map f l).
Proof. intros H. apply list_max_In. apply in_map. exact H. Qed.
Lemma list_max_scale {A} (f g : A -> nat) M l : (forall a, In a l -> f a <= g a * M) -> list_max (map f l) <= list_max (map g l) * M.
Proof.
  induction l as [|a l IH]; intros H; cbn [map]; [cbn; lia|]. rewrite !list_max_cons.
  pose proof (H a (or_introl eq_refl)). specialize (IH (fun b Hb => H b (or_intror Hb))).
  pose proof (Nat.le_max_l (g a) (list_max (map g l))). pose proof (Nat.le_max_r (g a) (list_max (map g l))).
  apply Nat.max_lub; nia.
Qed.
Lemma list_sum_scale {A} (f g : A -> nat) M l : (forall a, In a l -> f a <= g a * M) -> list_sum (map f l) <= list_sum (map g l) * M.
Proof. intros H. rewrite <- list_sum_mul_r. apply list_sum_le_map. exact H. Qed.
Lemma max1_scale x y M : 1 <= M -> x <= y * M -> Nat.max 1 x <= Nat.max 1 y * M.
Proof. intros. pose proof (Nat.le_max_l 1 y). pose proof (Nat.le_max_r 1 y). apply Nat.max_lub; nia. Qed.
Lemma node_bound X D : 1 + X * D <= Nat.max 1 X * S D.
Proof. pose proof (Nat.le_max_l 1 X). pose proof (Nat.le_max_r 1 X). nia. Qed.

Definition dsum (d : list (str * value)) : nat := list_sum (map (fun kv => vsize (snd kv)) d).
Definition osize (o : option value) : nat := match o with Some v => vsize v | None => 0 end.
Lemma vsize_tag v : vsize (tag_value_hook v) = vsize v.
Proof. destruct v; reflexivity. Qed.
Lemma dsum_class_hook h d : dsum (class_hook h d) = dsum d.
Proof. destruct h; cbn [class_hook]; [reflexivity|]. unfold dsum, remove_colon. rewrite map_map. reflexivity. Qed.
Lemma lookup_le_dsum k d : osize (lookup k d) <= dsum d.
Proof.
  unfold dsum. induction d as [|[k' x] d IH]; cbn [lookup]; lsum; cbn [osize]; [lia|].
  destruct (str_eqb k k'); cbn [osize snd]; lia.
Qed.
(* fields with distinct names look at distinct members of the object *)
Lemma sum_if_nodup (fs : list field) k a (g : field -> nat) : NoDup (map f_name fs) ->
  list_sum (map (fun f => if str_eqb (f_name f) k then a else g f) fs) <= a + list_sum (map g fs).
Proof.
  induction fs as [|f fs IH]; intros Hn; lsum; [lia|]. cbn [map] in Hn. inv Hn.
  destruct (str_eqb (f_name f) k) eqn:E.
  - apply str_eqb_spec in E.
    assert (list_sum (map (fun f0 => if str_eqb (f_name f0) k then a else g f0) fs) = list_sum (map g fs)) as ->; [|lia].
    f_equal. apply map_ext_in. intros f0 Hin. destruct (str_eqb (f_name f0) k) eqn:E0; [|reflexivity].
    apply str_eqb_spec in E0. exfalso. apply H1. rewrite E, <- E0. apply in_map. exact Hin.
  - specialize (IH H2). lia.
Qed.
Lemma lookup_sum_nodup (fs : list field) d : NoDup (map f_name fs) ->
  list_sum (map (fun f => osize (lookup (f_name f) d)) fs) <= dsum d.
Proof.
  intros Hn. unfold dsum. induction d as [|[k x] d IH]; cbn [lookup]; lsum; cbn [snd].
  - cbn [osize]. induction fs as [|f fs IHf]; lsum; [lia|]. cbn [map] in Hn. inv Hn. specialize (IHf H2). lia.
  - etransitivity; [|apply Nat.add_le_mono_l; exact IH].
    etransitivity; [|apply (sum_if_nodup fs k (vsize x) (fun f => osize (lookup (f_name f) d)) Hn)].
    apply Nat.eq_le_incl. f_equal. apply map_ext. intros f. destruct (str_eqb (f_name f) k); reflexivity.
Qed.

(* the combinators: result and cost together.  [costs rc r n]: the instrumented run [rc] answers [r] within [n] steps *)
Definition costs {A} (rc : res A * nat) (r : res A) (n : nat) : Prop := fst rc = r /\ snd rc <= n.
Lemma costs_ret {A} (r : res A) n m : n <= m -> costs (r, n) r m.
Proof. intros H. split; [reflexivity | exact H]. Qed.
Lemma mapM_c_costs {A B} (f : A -> res B * nat) (g : A -> res B) (h : A -> nat) l :
  (forall a, In a l -> costs (f a) (g a) (h a)) -> costs (mapM_c f l) (mapM g l) (list_sum (map h l)).
Proof.
  induction l as [|a l IH]; intros H; cbn [mapM_c mapM]; lsum; [apply costs_ret; lia|]. cbv zeta.
  destruct (H a (or_introl eq_refl)) as [E1 C1]. destruct (IH (fun b Hb => H b (or_intror Hb))) as [E2 C2].
  unfold costs. cbn [fst snd]. rewrite E1, E2. split; [reflexivity | lia].
Qed.
Lemma first_ok_c_costs rs : costs (first_ok_c rs) (first_ok (map fst rs)) (list_sum (map snd rs)).
Proof.
  induction rs as [|p rs [E C]]; cbn [first_ok_c map first_ok]; lsum; [apply costs_ret; lia|].
  destruct (fst p) as [x|e]; [apply costs_ret; lia|].
  destruct (is_hard e); [apply costs_ret; lia|]. cbv zeta. unfold costs. cbn [fst snd]. split; [exact E | lia].
Qed.
Lemma smart_ok_c_costs rs : costs (smart_ok_c rs) (smart_ok (map fst rs)) (list_sum (map snd rs)).
Proof.
  induction rs as [|p rs [E C]]; cbn [smart_ok_c map smart_ok]; lsum; [apply costs_ret; lia|].
  destruct (fst p) as [x|e]; [apply costs_ret; lia|].
  destruct (is_hard e); [apply costs_ret; lia|]. cbv zeta. unfold costs. cbn [fst snd]. split; [exact E | lia].
Qed.

Section CostFacts.
  Variable tbl : list cschema.
  Variable modelled : list (str * str).
  Variable strict : bool.
  Variable leafv : leaf -> value -> res value.
  Notation vstep := (validate_step modelled leafv).
  Notation vstep_c := (validate_step_c modelled leafv).
  Notation val := (validate tbl modelled strict leafv).
  Notation val_c := (validate_c tbl modelled strict leafv).
  Notation tw := (tweight modelled).
  Notation mw := (mweight tbl modelled).
  Notation fw := (fwidth modelled).
  Notation U := (table_width tbl modelled).

  (* result and bound, one level: the structure of the annotation *)
  Lemma step_costs wm bnc bn : (forall name v, costs (bnc name v) (bn name v) (wm name * vsize v)) ->
    forall t v, costs (vstep_c bnc t v) (vstep bn t v) (tw wm t * vsize v).
  Proof.
    intros Hbn. induction t as [k|t IHt|t IHt|ts IHts|ts IHts|t IHt|name| |t IHt] using ftype_ind'; intros v;
      pose proof (vsize_pos v) as Hpos.
    - apply costs_ret; cbn [tweight]; lia.
    - (* List *) cbn [validate_step_c validate_step tweight]. destruct v as [ | | | | | |l|d]; try (apply costs_ret; nia).
      cbv zeta. destruct (mapM_c_costs (vstep_c bnc t) (vstep bn t) (fun x => tw wm t * vsize x) l (fun x _ => IHt x)) as [E M].
      rewrite E. split; [reflexivity|]. cbn [snd]. rewrite vsize_list.
      rewrite list_sum_mul_l in M. pose proof (node_bound (tw wm t) (list_sum (map vsize l))). lia.
    - (* Dict *) cbn [validate_step_c validate_step tweight]. destruct v as [ | | | | | |l|d]; try (apply costs_ret; nia).
      cbv zeta.
      match goal with |- costs (_ <- fst (mapM_c ?f d) ;; _, _) _ _ =>
        destruct (mapM_c_costs f (fun kv => x <- vstep bn t (snd kv) ;; Ok (fst kv, x)) (fun kv => tw wm t * vsize (snd kv)) d) as [E M] end.
      { intros kv _. destruct (IHt (snd kv)) as [E C]. rewrite <- E. split; [reflexivity | exact C]. }
      rewrite E. split; [reflexivity|]. cbn [snd]. rewrite vsize_dict.
      rewrite list_sum_mul_l in M. pose proof (node_bound (tw wm t) (list_sum (map (fun kv => vsize (snd kv)) d))). lia.
    - (* left-to-right union *) cbn [validate_step_c validate_step tweight]. rewrite Forall_forall in IHts.
      destruct (first_ok_c_costs (map (fun t' => vstep_c bnc t' v) ts)) as [E C]. rewrite !map_map in *. split.
      + rewrite E. f_equal. apply map_ext_in. intros t' Hin. exact (proj1 (IHts t' Hin v)).
      + etransitivity; [exact C|]. rewrite <- list_sum_mul_r. apply list_sum_le_map. intros t' Hin. exact (proj2 (IHts t' Hin v)).
    - (* smart union *) cbn [validate_step_c validate_step tweight]. rewrite Forall_forall in IHts.
      destruct (smart_ok_c_costs (map (fun t' => vstep_c bnc t' v) ts)) as [E C]. rewrite !map_map in *. split.
      + rewrite E. f_equal. apply map_ext_in. intros t' Hin. exact (proj1 (IHts t' Hin v)).
      + etransitivity; [exact C|]. rewrite <- list_sum_mul_r. apply list_sum_le_map. intros t' Hin. exact (proj2 (IHts t' Hin v)).
    - (* Resolvable *) cbn [validate_step_c validate_step tweight]. destruct (IHt v) as [Et Ct].
      destruct (first_ok_c_costs [vstep_c bnc t v; (w <- leafv LFn v ;; Ok (XLeaf w), 1)]) as [E C].
      split; [rewrite E; cbn [map fst]; rewrite Et; reflexivity|]. revert C. lsum; cbn [snd]. nia.
    - cbn [validate_step_c validate_step tweight]. apply Hbn.
    - (* resource union *) cbn [validate_step_c validate_step tweight].
      set (R := list_max (map (fun sc => wm (snd sc)) modelled)).
      destruct v as [ | | | | | |l|d]; try (apply costs_ret; nia).
      destruct (Hbn GENERIC (VDict d)) as [Eg Hg].
      destruct (type_of d) as [|s|]; [split; [exact Eg | nia] | | apply costs_ret; nia].
      destruct (class_of modelled s) as [c|] eqn:Ec; [|split; [exact Eg | nia]].
      destruct (Hbn c (VDict d)) as [Ec' Hc]. destruct (first_ok_c_costs [bnc c (VDict d); bnc GENERIC (VDict d)]) as [E C].
      split; [rewrite E; cbn [map]; rewrite Ec', Eg; reflexivity|]. revert C. lsum.
      assert (wm c <= R) as Hle.
      { unfold class_of in Ec. apply lookup_In in Ec. exact (list_max_map_In (fun sc => wm (snd sc)) (s, c) modelled Ec). }
      nia.
    - (* Optional *) cbn [validate_step_c validate_step tweight].
      destruct v; [apply costs_ret; cbn [vsize]; nia | match goal with |- costs (vstep_c bnc t ?x) _ _ => destruct (IHt x) as [E C] end; split; [exact E | nia] ..].
  Qed.

  Lemma field_costs recc rec (w : ftype -> nat) d f : (forall t v, costs (recc t v) (rec t v) (w t * vsize v)) ->
    costs (validate_field_c modelled strict recc d f) (validate_field modelled strict rec d f) (w (f_type f) * osize (lookup (f_name f) d)).
  Proof.
    intros Hrec. unfold validate_field_c, validate_field. destruct (lookup (f_name f) d) as [v|]; cbn [osize]; [|apply costs_ret; lia].
    destruct (before_hook_cases modelled strict (f_hook f) v) as [-> | (v1 & -> & Hv1)]; [apply costs_ret; lia|]. cbv zeta.
    destruct (Hrec (f_type f) v1) as [E C]. split; [cbn [fst bind]; rewrite E; reflexivity|]. cbn [snd].
    assert (vsize v1 = vsize v) as <- by (destruct Hv1 as [-> | ->]; [reflexivity | apply vsize_tag]). exact C.
  Qed.

  Lemma model_costs recc rec (w : ftype -> nat) : (forall t v, costs (recc t v) (rec t v) (w t * vsize v)) ->
    forall c v, costs (validate_model_c modelled strict recc c v) (validate_model modelled strict rec c v) (cweight w c * vsize v).
  Proof.
    intros Hrec c v. pose proof (vsize_pos v) as Hpos. unfold validate_model_c, validate_model, cweight.
    destruct v as [ | | | | | |l|d0]; try (apply costs_ret; nia). cbv zeta.
    set (d := class_hook (c_hook c) d0). destruct (negb (nodupb (keys d))); [apply costs_ret; nia|].
    destruct (mapM_c_costs (validate_field_c modelled strict recc d) (validate_field modelled strict rec d)
                (fun f => w (f_type f) * osize (lookup (f_name f) d)) (c_fields c) (fun f _ => field_costs recc rec w d f Hrec)) as [E M].
    split; [cbn [fst]; rewrite E; reflexivity|]. cbn [snd].
    rewrite vsize_dict. fold (dsum d0). rewrite <- (dsum_class_hook (c_hook c) d0). fold d.
    destruct (nodupb (map f_name (c_fields c))) eqn:En.
    - (* distinct field names: distinct members *)
      set (W := list_max (map (fun f => w (f_type f)) (c_fields c))).
      assert (list_sum (map (fun f => w (f_type f) * osize (lookup (f_name f) d)) (c_fields c)) <= W * dsum d) as B.
      { etransitivity; [apply (list_sum_le_map _ (fun f => W * osize (lookup (f_name f) d)))|].
        - intros f Hin. apply Nat.mul_le_mono_r. exact (list_max_map_In (fun f => w (f_type f)) f (c_fields c) Hin).
        - rewrite list_sum_mul_l. apply Nat.mul_le_mono_l. apply lookup_sum_nodup. apply nodupb_NoDup. exact En. }
      pose proof (node_bound W (dsum d)). lia.
    - (* a table that repeats a field name: every field may look at the same member *)
      set (W := list_sum (map (fun f => w (f_type f)) (c_fields c))).
      assert (list_sum (map (fun f => w (f_type f) * osize (lookup (f_name f) d)) (c_fields c)) <= W * dsum d) as B.
      { etransitivity; [apply (list_sum_le_map _ (fun f => w (f_type f) * dsum d))|].
        - intros f _. apply Nat.mul_le_mono_l. apply lookup_le_dsum.
        - rewrite list_sum_mul_r. apply Nat.le_refl. }
      pose proof (node_bound W (dsum d)). lia.
  Qed.

  Theorem validate_c_costs n : forall t v, costs (val_c n t v) (val n t v) (weight tbl modelled n t * vsize v).
  Proof.
    unfold weight. induction n as [|n IH]; intros t v; cbn [validate_c validate]; apply step_costs; intros name v0;
      pose proof (vsize_pos v0) as Hpos; cbn [mweight].
    - apply costs_ret; lia.
    - unfold by_name_c, by_name. destruct (find_class tbl name) as [c|]; [|apply costs_ret; lia].
      apply model_costs. exact IH.
  Qed.
  Theorem cost_bound n t v : snd (val_c n t v) <= weight tbl modelled n t * vsize v.
  Proof. exact (proj2 (validate_c_costs n t v)). Qed.

  (* the weight in closed form *)
  Lemma tweight_scale wm wm' M : 1 <= M -> (forall name, wm name <= wm' name * M) -> forall t, tw wm t <= tw wm' t * M.
  Proof.
    intros HM Hwm.
    induction t as [k|t IHt|t IHt|ts IHts|ts IHts|t IHt|name| |t IHt] using ftype_ind'; cbn [tweight].
    - lia.
    - apply max1_scale; assumption.
    - apply max1_scale; assumption.
    - apply list_sum_scale. rewrite Forall_forall in IHts. exact IHts.
    - apply list_sum_scale. rewrite Forall_forall in IHts. exact IHts.
    - nia.
    - apply Hwm.
    - apply max1_scale; [exact HM|]. pose proof (Hwm GENERIC).
      pose proof (list_max_scale (fun sc => wm (snd sc)) (fun sc => wm' (snd sc)) M modelled (fun sc _ => Hwm (snd sc))).
      nia.
    - apply max1_scale; assumption.
  Qed.
  Lemma cweight_scale (w w' : ftype -> nat) M c : 1 <= M -> (forall t, w t <= w' t * M) -> cweight w c <= cweight w' c * M.
  Proof.
    intros HM H. unfold cweight. apply max1_scale; [exact HM|]. destruct (nodupb (map f_name (c_fields c))).
    - apply list_max_scale. intros f _. apply H.
    - apply list_sum_scale. intros f _. apply H.
  Qed.
  Lemma table_width_pos : 1 <= U.
  Proof. unfold table_width. lia. Qed.
  Lemma pow_pos n : 1 <= U ^ n.
  Proof. pose proof table_width_pos. induction n as [|n IH]; cbn [Nat.pow]; nia. Qed.
  Lemma mweight_pow n : forall name, mw n name <= U ^ n.
  Proof.
    (* one level of fuel multiplies the weight of a class by at most the table width: weights scale ([cweight_scale],
       [tweight_scale]), so the class weight over [mw n] is at most its weight over the constant 1, times U ^ n *)
    induction n as [|n IH]; intros name; cbn [mweight Nat.pow]; [lia|]. pose proof (pow_pos n) as Hp. pose proof table_width_pos as HU.
    destruct (find_class tbl name) as [c|] eqn:Ef; [|nia].
    etransitivity; [apply (cweight_scale _ fw (U ^ n) c Hp); intros t; apply (tweight_scale _ (fun _ => 1) _ Hp); intros name0; rewrite Nat.mul_1_l; apply IH|].
    apply Nat.mul_le_mono_r. unfold find_class in Ef. apply find_some in Ef. destruct Ef as [Hin _].
    pose proof (list_max_map_In (cweight fw) c tbl Hin). unfold table_width. lia.
  Qed.
  Theorem weight_pow n t : weight tbl modelled n t <= fw t * U ^ n.
  Proof. unfold weight. apply (tweight_scale _ (fun _ => 1)); [apply pow_pos | intros name; rewrite Nat.mul_1_l; apply mweight_pow]. Qed.
  Theorem cost_bound_pow n t v : snd (val_c n t v) <= fw t * U ^ n * vsize v.
  Proof. etransitivity; [apply cost_bound|]. apply Nat.mul_le_mono_r. apply weight_pow. Qed.

  (* the weight whatever the fuel: weights per class that one more level of nesting does not exceed *)
  Lemma tweight_mono wm wm' : (forall name, wm name <= wm' name) -> forall t, tw wm t <= tw wm' t.
  Proof.
    intros H t. rewrite <- (Nat.mul_1_r (tw wm' t)). apply tweight_scale; [lia|]. intros name. rewrite Nat.mul_1_r. apply H.
  Qed.
  Lemma cweight_mono (w w' : ftype -> nat) c : (forall t, w t <= w' t) -> cweight w c <= cweight w' c.
  Proof.
    intros H. rewrite <- (Nat.mul_1_r (cweight w' c)). apply cweight_scale; [lia|]. intros t. rewrite Nat.mul_1_r. apply H.
  Qed.
  Lemma mweight_le (B : str -> nat) : (forall name, 1 <= B name) ->
    (forall name c, find_class tbl name = Some c -> cweight (tw B) c <= B name) -> forall n name, mw n name <= B name.
  Proof.
    intros H1 H2. induction n as [|n IH]; intros name; cbn [mweight]; [apply H1|].
    destruct (find_class tbl name) as [c|] eqn:Ef; [|apply H1].
    etransitivity; [|exact (H2 name c Ef)]. apply cweight_mono. apply tweight_mono. exact IH.
  Qed.

  (* such weights are found level by level, every class once per level, until a level adds nothing; a class table without
     repeated field names is asked for so that the search need not test the names of a class at every level *)
  Definition wlook (w : list (str * nat)) (name : str) : nat :=
    Nat.max 1 (match lookup name w with Some k => k | None => 0 end).
  Definition wstep (w : list (str * nat)) : list (str * nat) :=
    map (fun c => (c_name c, list_max (map (fun f => tw (wlook w) (f_type f)) (c_fields c)))) tbl.
  Fixpoint wfix (fuel : nat) (w : list (str * nat)) : option (list (str * nat)) :=
    match fuel with
    | O => None
    | S k => let w' := wstep w in if forallb (fun p => snd p <=? wlook w (fst p)) w' then Some w else wfix k w'
    end.
  Definition weight_check (fuel : nat) (t : ftype) (K : nat) : bool :=
    match wfix fuel [] with Some w => tw (wlook w) t <=? K | None => false end.

  Lemma wfix_closed fuel : forall w0 w, wfix fuel w0 = Some w ->
    forall c, In c tbl -> list_max (map (fun f => tw (wlook w) (f_type f)) (c_fields c)) <= wlook w (c_name c).
  Proof.
    induction fuel as [|k IH]; intros w0 w; cbn [wfix]; [discriminate|]. cbv zeta.
    destruct (forallb _ (wstep w0)) eqn:E; [|apply IH]. intros [= <-] c Hc. rewrite forallb_forall in E.
    apply Nat.leb_le. exact (E _ (in_map _ tbl c Hc)).
  Qed.
  Theorem weight_checked fuel t K : table_wf tbl = true -> weight_check fuel t K = true -> forall n, weight tbl modelled n t <= K.
  Proof.
    unfold weight_check. intros Hwf H n. destruct (wfix fuel []) as [w|] eqn:E; [|discriminate]. apply Nat.leb_le in H.
    etransitivity; [|exact H]. apply tweight_mono. apply mweight_le; [intros name; apply Nat.le_max_l|].
    intros name c Ef. destruct (find_class_In _ _ _ Ef) as [Hc <-]. unfold cweight.
    rewrite (proj2 (nodupb_NoDup _) (names_nodup tbl Hwf c Hc)). apply Nat.max_lub; [apply Nat.le_max_l|].
    exact (wfix_closed fuel [] w E c Hc).
  Qed.

  (* the union-free fragment: linear, constant 1 *)
  Lemma plain_fwidth t : plain t = true -> fw t = 1.
  Proof.
    unfold fwidth. induction t; cbn [plain tweight]; try discriminate; try reflexivity; intros H; rewrite (IHt H); reflexivity.
  Qed.
  Lemma list_max_ones {A} (f : A -> nat) l : (forall a, In a l -> f a = 1) -> list_max (map f l) <= 1.
  Proof.
    induction l as [|a l IH]; intros H; cbn [map]; [cbn; lia|]. rewrite list_max_cons.
    rewrite (H a (or_introl eq_refl)). specialize (IH (fun b Hb => H b (or_intror Hb))). lia.
  Qed.
  Lemma plain_cweight c : plain_class c = true -> cweight fw c = 1.
  Proof.
    unfold plain_class, cweight. intros H. apply andb_true_iff in H. destruct H as [H1 H2]. rewrite H1.
    rewrite forallb_forall in H2.
    pose proof (list_max_ones (fun f => fw (f_type f)) (c_fields c) (fun f Hf => plain_fwidth _ (H2 f Hf))). lia.
  Qed.
  Lemma plain_table_width : plain_table tbl = true -> U = 1.
  Proof.
    unfold plain_table, table_width. intros H. rewrite forallb_forall in H.
    pose proof (list_max_ones (cweight fw) tbl (fun c Hc => plain_cweight c (H c Hc))). lia.
  Qed.
End CostFacts.

(* the class table generated from the live classes: the weight stops growing after a few levels of fuel, i.e. no class
   reaches itself through a union (the same value at fuel 8, 10 and 64), so
   [weight_check] finds the per-class weights after a few levels; the theorem is stated with head-room so that an unrelated
   change of the classes does not break it.  One whole template costs at most LIVE_K steps per node, whatever the leaf
   validators.  In [live_weight] DEPTH (= 64, the runner's fuel) occurs twice: as the parse fuel at which the weight is bounded
   and as the fuel of the search [weight_check], for which any number past the nesting depth of the classes would do; LIVE_K is
   a third, unrelated 64. *)
Definition LIVE_K : nat := 64.
Definition CFMODEL_T : ftype := TModel [67;70;77;111;100;101;108]%N.      (* "CFModel": the class of a whole template *)
Lemma CFMODEL_T_eq : CFMODEL_T = RoundtripTable.CFMODEL.
Proof. reflexivity. Qed.
Lemma live_weight : weight Schema.CLASSES Schema.RESOURCE_MODELS DEPTH CFMODEL_T <= LIVE_K.
Proof. apply (weight_checked _ _ DEPTH); [exact RoundtripTable.Schema_table_wf | vm_compute; reflexivity]. Qed.

(* two small tables for the examples (names as code points: "N", "c"; "P", "a", "b") *)
Definition mk_field (n : str) (t : ftype) : field := {| f_name := n; f_default := DNone; f_hook := HNone; f_type := TOpt t |}.
Definition mk_class (n : str) (fs : list field) : cschema :=
  {| c_name := n; c_bases := []; c_extra := Forbid; c_hook := CNone; c_private := []; c_custom_eq := false; c_fields := fs |}.
(* a class that reaches itself through a union of width 2: every level tries both alternatives on the same nodes *)
Definition T_REC : list cschema := [mk_class [78%N] [mk_field [99%N] (TUnionLR [TModel [78%N]; TModel [78%N]])]].
(* {"c": {"c": ... 5}}: k objects around a number that no alternative accepts *)
Fixpoint chain (k : nat) : value := match k with O => VInt 5 | S k' => VDict [([99%N], chain k')] end.
(* a union-free table: P = { a : List[int], b : P } *)
Definition T_PLAIN : list cschema := [mk_class [80%N] [mk_field [97%N] (TList TInt); mk_field [98%N] (TModel [80%N])]].
Definition plain_value : value :=
  VDict [([97%N], VList [VInt 1; VInt 1000000000000000000000000000000; VInt 0]);
         ([98%N], VDict [([97%N], VList []); ([98%N], VNull)])].
