(* C05, error-freedom: a well-typed expression resolves (type soundness of Robust/WellFormed.v against the
   big-step semantics Resolver/Spec.v, hence against the executable [resolve] by eval_complete), and a valid
   template goes through Template.resolve_model without any Err. *)
From Coq Require Import List Bool NArith ZArith Lia.
From PV Require Import Base.Str Base.ListFacts Base.Value Resolver.Consts Resolver.Text Resolver.Resolve Resolver.Spec Resolver.Template
  Resolver.CondFacts Resolver.SubFacts Robust.WellFormed.
Import ListNotations.
Local Open Scope N_scope.

Lemma strs_plain l : forallb is_vstr l = true -> existsb has_numeric l = false.
Proof.
  induction l as [|x xs IH]; simpl; [reflexivity|]. intros H. apply andb_true_iff in H. destruct H as [Hx Hxs].
  destruct x; try discriminate. simpl. apply IH. assumption.
Qed.
Lemma shape_sub a b r : sub a b = true -> shape a r = true -> shape b r = true.
Proof.
  destruct a, b; simpl; try discriminate; auto; intros _ H.
  - destruct r; try discriminate. reflexivity.
  - destruct r; try discriminate. simpl. rewrite strs_plain by assumption. reflexivity.
Qed.
Lemma sub_refl a : sub a a = true.
Proof. destruct a; reflexivity. Qed.
Lemma sub_lub_l a b : sub a (lub a b) = true.
Proof. destruct a, b; reflexivity. Qed.
Lemma sub_lub_r a b : sub b (lub a b) = true.
Proof. destruct a, b; reflexivity. Qed.


(* parameter values: what Ref / Fn::Sub insert *)
Lemma normalize_pv_str ps v : pv_str v = true -> exists s, normalize ps v = Ok (VStr s).
Proof. destruct v; simpl; try discriminate; eauto. Qed.
Lemma normalize_pv_strs_list ps l : forallb pv_str l = true ->
  exists l', mlist (normalize ps) l = Ok l' /\ forallb is_vstr l' = true.
Proof.
  induction l as [|x xs IH]; simpl; [eauto|]. intros H. apply andb_true_iff in H. destruct H as [Hx Hxs].
  destruct (normalize_pv_str ps x Hx) as [s ->]. destruct (IH Hxs) as (l' & -> & Hl'). simpl.
  destruct (str_eqb s S_NOVALUE); eexists; split; try reflexivity; simpl; assumption.
Qed.
Lemma normalize_pv_strs ps v : pv_strs v = true -> exists l', normalize ps v = Ok (VList l') /\ forallb is_vstr l' = true.
Proof.
  destruct v; simpl; try discriminate. intros H. destruct (normalize_pv_strs_list ps l H) as (l' & E & Hl').
  fold (mlist (normalize ps)). rewrite E. simpl. eauto.
Qed.
Lemma normalize_pv_ok ps v : pv_ok v = true -> exists r, normalize ps v = Ok r /\ has_numeric r = false.
Proof.
  induction v as [| | | | | | l IH | d IH] using value_ind'; intros H; try (simpl; eauto; fail).
  - simpl in H. rewrite normalize_list.
    assert (G : exists l', mlist (normalize ps) l = Ok l' /\ existsb has_numeric l' = false).
    { induction IH as [|x xs Hx Hxs IHl]; [simpl; eauto|]. simpl in H. apply andb_true_iff in H. destruct H as [H1 H2].
      destruct (Hx H1) as (x' & Ex & Hx'). destruct (IHl H2) as (xs' & Exs & Hxs'). simpl. rewrite Ex, Exs. simpl.
      destruct (is_novalue x'); eexists; split; try reflexivity; simpl; try rewrite Hx'; assumption. }
    destruct G as (l' & -> & Hl'). simpl. eauto.
  - simpl in H. apply andb_true_iff in H. destruct H as [Hf H]. apply negb_true_iff in Hf. rewrite normalize_dict, Hf.
    assert (G : exists d', mdict (normalize ps) d = Ok d' /\ existsb (fun kv => has_numeric (snd kv)) d' = false).
    { clear Hf. induction IH as [|[k x] xs Hx Hxs IHl]; [simpl; eauto|]. simpl in H, Hx. apply andb_true_iff in H. destruct H as [H1 H2].
      destruct (Hx H1) as (x' & Ex & Hx'). destruct (IHl H2) as (xs' & Exs & Hxs'). simpl. rewrite Ex, Exs. simpl.
      destruct (is_novalue x'); eexists; split; try reflexivity; simpl; try rewrite Hx'; assumption. }
    destruct G as (d' & -> & Hd'). simpl. eauto.
Qed.

Lemma none_exists {A} (f : A -> bool) l : forallb (fun x => negb (f x)) l = true -> existsb f l = false.
Proof.
  induction l as [|x xs IH]; simpl; [reflexivity|]. intros H. apply andb_true_iff in H. destruct H as [Hx Hxs].
  apply negb_true_iff in Hx. rewrite Hx. apply IH. assumption.
Qed.

Lemma do_ref_typed e name t : ref_ty (params e) name = Some t ->
  exists r, do_ref e (VStr name) = Ok r /\ shape t r = true.
Proof.
  unfold ref_ty, do_ref. destruct (lookup name (params e)) as [x|]; [|intros H; inv H; eexists; split; reflexivity].
  destruct (pv_str x) eqn:E1; [intros H; inv H; destruct (normalize_pv_str (params e) x E1) as [s ->]; eauto|].
  destruct (pv_strs x) eqn:E2; [intros H; inv H; destruct (normalize_pv_strs (params e) x E2) as (l' & -> & Hl'); eauto|].
  destruct (pv_ok x) eqn:E3; [|discriminate]. intros H; inv H.
  destruct (normalize_pv_ok (params e) x E3) as (r & -> & Hr). exists r. split; [reflexivity|]. simpl. rewrite Hr. reflexivity.
Qed.
Lemma do_ref_general e s : all_ps_ok (params e) = true -> exists r, do_ref e (VStr s) = Ok r /\ shape TPlain r = true.
Proof.
  intros H. unfold do_ref. destruct (lookup s (params e)) as [x|] eqn:L; [|eexists; split; reflexivity].
  pose proof (lookup_forallb pv_ok s (params e) x H L) as Hx.
  destruct (normalize_pv_ok (params e) x Hx) as (r & -> & Hr). exists r. split; [reflexivity|]. simpl. rewrite Hr. reflexivity.
Qed.

Lemma as_strs_ok l : forallb is_vstr l = true -> exists ss, as_strs l = Ok ss.
Proof.
  induction l as [|x xs IH]; simpl; [eauto|]. intros H. apply andb_true_iff in H. destruct H as [Hx Hxs].
  destruct x; try discriminate. destruct (IH Hxs) as [ss ->]. simpl. eauto.
Qed.
Lemma map_vstr_strs ss : forallb is_vstr (map VStr ss) = true.
Proof. induction ss; simpl; auto. Qed.
Lemma do_select_ok s l : int_text_ok s = true -> forallb is_vstr l = true ->
  exists r, do_select (VStr s) (VList l) = Ok r /\ shape TPlain r = true.
Proof.
  unfold int_text_ok, do_select. destruct (parse_int s) as [z|]; [|discriminate]. intros _ Hl.
  destruct ((z <? 0)%Z || (Z.of_nat (length l) <=? z)%Z); [eexists; split; reflexivity|].
  destruct (nth_error l (Z.to_nat z)) as [x|] eqn:E; [|eexists; split; reflexivity].
  exists x. split; [reflexivity|]. pose proof (forallb_nth_error is_vstr l _ x Hl E) as Hx. destruct x; try discriminate. reflexivity.
Qed.

(* every mapping is an object of objects; [maps_ok (mappings e)] unfolds to [SubFacts.mappings_wf e], which is how it is
   handed to [find_in_map_spec] below *)
Definition maps_ok (maps : list (str * value)) : Prop :=
  forall m top, lookup m maps = Some top -> exists t, top = VDict t /\
    forall k1 snd_, lookup k1 t = Some snd_ -> exists s, snd_ = VDict s.
Lemma wf_maps_ok maps : wf_maps maps = true -> maps_ok maps.
Proof.
  unfold wf_maps. intros H m top L.
  pose proof (lookup_forallb (fun v => match v with
      | VDict top => forallb (fun kv2 => match snd kv2 with VDict _ => true | _ => false end) top
      | _ => false end) m maps top H L) as Ht.
  destruct top; try discriminate. eexists. split; [reflexivity|]. intros k1 snd_ L1.
  pose proof (lookup_forallb (fun v => match v with VDict _ => true | _ => false end) k1 d snd_ Ht L1) as Hs.
  destruct snd_; try discriminate. eauto.
Qed.
Lemma leaf_ty_shape leaf : shape (leaf_ty leaf) leaf = true.
Proof.
  unfold leaf_ty. destruct (is_vstr leaf) eqn:E1; [exact E1|].
  destruct (shape TStrs leaf) eqn:E2; [exact E2|].
  destruct (negb (has_numeric leaf)) eqn:E3; [exact E3|reflexivity].
Qed.
Lemma do_fim_static e m k1 k2 : maps_ok (mappings e) ->
  exists r, do_find_in_map e (VStr m) (VStr k1) (VStr k2) = Ok r /\ shape (fim_static (mappings e) m k1 k2) r = true.
Proof.
  intros H. rewrite (find_in_map_spec e m k1 k2 H). eexists. split; [reflexivity|]. unfold mapping_leaf, fim_static.
  destruct (lookup m (mappings e)) as [[| | | | | | |top]|]; try reflexivity.
  destruct (lookup_bk k1 top) as [[| | | | | | |snd_]|]; try reflexivity.
  destruct (lookup_bk k2 snd_) as [leaf|]; [|reflexivity]. destruct leaf; try apply leaf_ty_shape. reflexivity.
Qed.

Lemma render_var_ok e custom name : forallb (fun kv => is_vstr (snd kv)) custom = true -> var_ok (params e) name = true ->
  exists s, render_var e custom name = Ok s.
Proof.
  intros Hc Hv. unfold render_var. destruct (lookup name custom) as [x|] eqn:L.
  - pose proof (lookup_forallb is_vstr name custom x Hc L) as Hx. destruct x; try discriminate. simpl. eauto.
  - unfold var_ok in Hv. destruct (lookup name (params e)) as [x|]; [|eauto].
    destruct (normalize_pv_str (params e) x Hv) as [s ->]. simpl. eauto.
Qed.
Lemma render_toks_ok e custom ts : forallb (fun kv => is_vstr (snd kv)) custom = true ->
  forallb (tok_ok (params e)) ts = true -> exists s, render_toks e custom ts = Ok s.
Proof.
  intros Hc. induction ts as [|t ts IH]; simpl; [eauto|]. intros H. apply andb_true_iff in H. destruct H as [Ht Hts].
  destruct (IH Hts) as [s2 E2]. destruct t; simpl in *.
  - rewrite E2. simpl. eauto.
  - destruct (render_var_ok e custom name Hc Ht) as [s1 ->]. simpl. rewrite E2. simpl. eauto.
  - rewrite E2. simpl. eauto.
Qed.
Lemma do_sub_ok e text custom : forallb (fun kv => is_vstr (snd kv)) custom = true -> sub_text_ok (params e) text = true ->
  exists s, do_sub e text custom = Ok (VStr s).
Proof.
  intros Hc Ht. unfold do_sub. destruct (render_toks_ok e custom (sub_tokens text) Hc Ht) as [s ->]. simpl. eauto.
Qed.

Section Unfold.
Variables ps maps : list (str * value).
Notation T := (ty_of ps maps).
Lemma ty_list l : T (VList l) = list_ty (map T l).
Proof. reflexivity. Qed.
Lemma ty_dict_generic d : is_fn_dict d = false -> T (VDict d) = dict_ty (map (fun kv => T (snd kv)) d).
Proof.
  intros H. destruct d as [|[k body] [|kv2 rest]]; try reflexivity.
  cbn [ty_of]. rewrite !(not_fn_key k _ H) by (apply mem_str_In; reflexivity). reflexivity.
Qed.
Lemma ty_ref_import k body : k = K_Ref \/ k = K_ImportValue -> T (VDict [(k, body)]) = ref_rule ps body (T body).
Proof. intros [-> | ->]; reflexivity. Qed.
Lemma ty_join dl l : T (VDict [(K_Join, VList [dl; l])]) = join_ty (T dl) (T l).
Proof. reflexivity. Qed.
Lemma ty_split dl s : T (VDict [(K_Split, VList [dl; s])]) = split_rule ps dl (T s).
Proof. reflexivity. Qed.
Lemma ty_select i l : T (VDict [(K_Select, VList [i; l])]) = select_rule ps i (T l).
Proof. reflexivity. Qed.
Lemma ty_fim m k1 k2 : T (VDict [(K_FindInMap, VList [m; k1; k2])]) = fim_rule ps maps m k1 k2 (T m) (T k1) (T k2).
Proof. reflexivity. Qed.
Lemma ty_sub_text text : T (VDict [(K_Sub, VStr text)]) = if sub_text_ok ps text then Some TStr else None.
Proof. reflexivity. Qed.
Lemma ty_sub_vars text cd : T (VDict [(K_Sub, VList [VStr text; VDict cd])]) =
  sub_vars_ty ps text (is_fn_dict cd) (map (fun kv => T (snd kv)) cd).
Proof. reflexivity. Qed.
Lemma ty_base64 body : T (VDict [(K_Base64, body)]) = base64_ty (T body).
Proof. reflexivity. Qed.
Lemma ty_if c t f : T (VDict [(K_If, VList [c; t; f])]) = if is_vstr c then if_ty (T t) (T f) else None.
Proof. reflexivity. Qed.
Lemma ty_and parts : T (VDict [(K_And, VList parts)]) = all_bool (map T parts).
Proof. reflexivity. Qed.
Lemma ty_or parts : T (VDict [(K_Or, VList parts)]) = all_bool (map T parts).
Proof. reflexivity. Qed.
Lemma ty_not x rest : T (VDict [(K_Not, VList (x :: rest))]) = all_bool [T x].
Proof. reflexivity. Qed.
Lemma ty_equals a b : T (VDict [(K_Equals, VList [a; b])]) = equals_ty (T a) (T b).
Proof. reflexivity. Qed.
Lemma ty_ill k body er : ill_call k body er -> T (VDict [(k, body)]) = None.
Proof.
  intros H. ill_shapes H; try reflexivity.
  (* Fn::Sub with three or more arguments: [ty_of] looks at the second, [y], before it counts them *)
  destruct y; reflexivity.
Qed.
End Unfold.

Lemma opt_sub_inv o t : opt_sub o t = true -> exists a, o = Some a /\ sub a t = true.
Proof. destruct o; simpl; [eauto | discriminate]. Qed.

Section Sound.
Variable e : env.
Hypothesis Hm : maps_ok (mappings e).
Hypothesis Hc : forall n, exists b, conds e n = Ok b.
Notation ps := (params e).
Notation maps := (mappings e).

(* the statement at one value, up to subtyping *)
Definition TyAt (v : value) : Prop :=
  forall T, opt_sub (ty_of ps maps v) T = true -> exists r, Eval e v r /\ shape T r = true.
Lemma ty_at_intro v : (forall t, ty_of ps maps v = Some t -> exists r, Eval e v r /\ shape t r = true) -> TyAt v.
Proof.
  intros H T Ho. apply opt_sub_inv in Ho. destruct Ho as (a & Ea & Hsub).
  destruct (H a Ea) as (r & Hr & Hsh). exists r. split; [assumption | eapply shape_sub; eauto].
Qed.

Lemma evallist_build T l : Forall TyAt l -> forallb (fun x => opt_sub (ty_of ps maps x) T) l = true ->
  exists l', EvalList e l l' /\ forallb (shape T) l' = true.
Proof.
  induction 1 as [|x xs Hx _ IH]; simpl; intros H; [exists []; split; [constructor | reflexivity]|].
  apply andb_true_iff in H. destruct H as [H1 H2].
  destruct (Hx T H1) as (r & Hr & Hs). destruct (IH H2) as (xs' & Hxs & Hs').
  destruct (is_novalue r) eqn:En.
  - exists xs'. split; [eapply EL_drop; eauto | assumption].
  - exists (r :: xs'). split; [eapply EL_keep; eauto | simpl; rewrite Hs, Hs'; reflexivity].
Qed.
Lemma evaldict_build T d : Forall (fun kv => TyAt (snd kv)) d ->
  forallb (fun kv => opt_sub (ty_of ps maps (snd kv)) T) d = true ->
  exists d', EvalDict e d d' /\ forallb (fun kv => shape T (snd kv)) d' = true.
Proof.
  induction 1 as [|[k x] xs Hx _ IH]; simpl; intros H; [exists []; split; [constructor | reflexivity]|].
  apply andb_true_iff in H. destruct H as [H1 H2].
  destruct (Hx T H1) as (r & Hr & Hs). destruct (IH H2) as (xs' & Hxs & Hs').
  destruct (is_novalue r) eqn:En.
  - exists xs'. split; [eapply ED_drop; eauto | assumption].
  - exists ((k, r) :: xs'). split; [eapply ED_keep; eauto | simpl; rewrite Hs, Hs'; reflexivity].
Qed.
Lemma evalall_build l : Forall TyAt l -> forallb (fun x => opt_sub (ty_of ps maps x) TBool) l = true -> exists b, EvalAll e l b.
Proof.
  induction 1 as [|x xs Hx _ IH]; simpl; intros H; [exists true; constructor|].
  apply andb_true_iff in H. destruct H as [H1 H2].
  destruct (Hx TBool H1) as (r & Hr & Hs). destruct r; try discriminate. destruct (IH H2) as (b' & Hb').
  destruct b.
  - exists b'. eapply EA_true; eauto; reflexivity.
  - exists false. eapply EA_false; eauto; reflexivity.
Qed.
Lemma evalany_build l : Forall TyAt l -> forallb (fun x => opt_sub (ty_of ps maps x) TBool) l = true -> exists b, EvalAny e l b.
Proof.
  induction 1 as [|x xs Hx _ IH]; simpl; intros H; [exists false; constructor|].
  apply andb_true_iff in H. destruct H as [H1 H2].
  destruct (Hx TBool H1) as (r & Hr & Hs). destruct r; try discriminate. destruct (IH H2) as (b' & Hb').
  destruct b.
  - exists true. eapply EO_true; eauto; reflexivity.
  - exists b'. eapply EO_false; eauto; reflexivity.
Qed.

Theorem ty_at : forall v, TyAt v.
Proof.
  apply resolve_ind.
  - intros [] Hv; try contradiction; apply ty_at_intro; intros t Ht; inv Ht; eexists; (split; [constructor | reflexivity]).
  - intros l IH. apply ty_at_intro. intros t Ht. rewrite ty_list in Ht. unfold list_ty in Ht. rewrite !forallb_map in Ht.
    destruct (forallb (fun x => opt_sub (ty_of ps maps x) TStr) l) eqn:E1.
    { inv Ht. destruct (evallist_build TStr l IH E1) as (l' & Hl & Hsh). exists (VList l'). split; [constructor; assumption | exact Hsh]. }
    destruct (forallb (fun x => opt_sub (ty_of ps maps x) TPlain) l) eqn:E2.
    { inv Ht. destruct (evallist_build TPlain l IH E2) as (l' & Hl & Hsh). exists (VList l'). split; [constructor; assumption|].
      simpl. rewrite (none_exists has_numeric) by assumption. reflexivity. }
    destruct (forallb (fun x => opt_sub (ty_of ps maps x) TAny) l) eqn:E3; [|discriminate].
    inv Ht. destruct (evallist_build TAny l IH E3) as (l' & Hl & Hsh). exists (VList l'). split; [constructor; assumption | reflexivity].
  - intros d Hf IH. apply ty_at_intro. intros t Ht. rewrite ty_dict_generic in Ht by assumption. unfold dict_ty in Ht.
    rewrite !forallb_map in Ht.
    destruct (forallb (fun kv => opt_sub (ty_of ps maps (snd kv)) TPlain) d) eqn:E2.
    { inv Ht. destruct (evaldict_build TPlain d IH E2) as (d' & Hd & Hsh). exists (VDict d'). split; [constructor; assumption|].
      simpl. rewrite (none_exists (fun kv => has_numeric (snd kv))) by assumption. reflexivity. }
    destruct (forallb (fun kv => opt_sub (ty_of ps maps (snd kv)) TAny) d) eqn:E3; [|discriminate].
    inv Ht. destruct (evaldict_build TAny d IH E3) as (d' & Hd & Hsh). exists (VDict d'). split; [constructor; assumption | reflexivity].
  - intros k body Hk IH. apply ty_at_intro. intros t Ht. rewrite ty_ref_import in Ht by assumption.
    assert (Hg : ref_general ps (ty_of ps maps body) = Some t -> exists r, Eval e (VDict [(k, body)]) r /\ shape t r = true).
    { unfold ref_general. destruct (opt_sub (ty_of ps maps body) TStr) eqn:Eb; [|discriminate].
      destruct (all_ps_ok ps) eqn:Ea; [|discriminate]. simpl. intros H; inv H.
      destruct (IH TStr Eb) as (b & Hb & Hsb). destruct b; try discriminate.
      destruct (do_ref_general e s Ea) as (r & Er & Hr'). exists r. split; [eapply E_ref; eauto | assumption]. }
    destruct body; try (apply Hg; exact Ht).
    simpl in Ht. destruct (do_ref_typed e _ t Ht) as (r & Er & Hr').
    exists r. split; [eapply E_ref; eauto; constructor | assumption].
  - intros dl l IH1 IH2. apply ty_at_intro. intros t Ht. rewrite ty_join in Ht. unfold join_ty in Ht.
    destruct (opt_sub (ty_of ps maps dl) TStr) eqn:E1; [|discriminate].
    destruct (opt_sub (ty_of ps maps l) TStrs) eqn:E2; [|discriminate]. inv Ht.
    destruct (IH1 TStr E1) as (d' & Hd & Hsd). destruct (IH2 TStrs E2) as (l' & Hl & Hsl).
    destruct d'; try discriminate. destruct l' as [| | | | | | ls |]; try discriminate.
    destruct (as_strs_ok ls Hsl) as [ss Ess].
    eexists. split; [eapply E_join; eauto; simpl; rewrite Ess; reflexivity | reflexivity].
  - intros dl sx _ IH. apply ty_at_intro. intros t Ht. rewrite ty_split in Ht.
    destruct dl as [| | | delim | | | |]; try discriminate. simpl in Ht. unfold split_ty in Ht.
    destruct (render_str ps delim) as [|c0 r0] eqn:Ed; [discriminate|].
    destruct (opt_sub (ty_of ps maps sx) TStr) eqn:E2; [|discriminate]. inv Ht.
    destruct (IH TStr E2) as (s' & Hs' & Hss). destruct s'; try discriminate.
    eexists. split.
    + eapply E_split; [constructor | eassumption|]. rewrite Ed. reflexivity.
    + simpl. apply map_vstr_strs.
  - intros i l _ IH. apply ty_at_intro. intros t Ht. rewrite ty_select in Ht.
    assert (Hsel : forall i' txt, Eval e i i' -> i' = VStr txt -> select_ty txt (ty_of ps maps l) = Some t ->
                   exists r, Eval e (VDict [(K_Select, VList [i; l])]) r /\ shape t r = true).
    { intros i' txt Hi -> Hsel. unfold select_ty in Hsel. destruct (int_text_ok txt) eqn:E1; [|discriminate].
      destruct (opt_sub (ty_of ps maps l) TStrs) eqn:E2; [|discriminate]. inv Hsel.
      destruct (IH TStrs E2) as (l' & Hl & Hsl). destruct l' as [| | | | | | ls |]; try discriminate.
      destruct (do_select_ok txt ls E1 Hsl) as (r & Er & Hr). exists r. split; [eapply E_select; eauto | assumption]. }
    destruct i; try discriminate; simpl in Ht; (eapply Hsel; [constructor | reflexivity | exact Ht]).
  - intros m k1 k2 IH1 IH2 IH3. apply ty_at_intro. intros t Ht. rewrite ty_fim in Ht.
    assert (Hg : fim_general (ty_of ps maps m) (ty_of ps maps k1) (ty_of ps maps k2) = Some t ->
                 exists r, Eval e (VDict [(K_FindInMap, VList [m; k1; k2])]) r /\ shape t r = true).
    { unfold fim_general. destruct (opt_sub (ty_of ps maps m) TStr) eqn:E1; [|discriminate].
      destruct (opt_sub (ty_of ps maps k1) TStr) eqn:E2; [|discriminate].
      destruct (opt_sub (ty_of ps maps k2) TStr) eqn:E3; [|discriminate]. simpl. intros H; inv H.
      destruct (IH1 TStr E1) as (m' & Hm' & Hsm). destruct (IH2 TStr E2) as (k1' & Hk1' & Hsk1).
      destruct (IH3 TStr E3) as (k2' & Hk2' & Hsk2).
      destruct m'; try discriminate. destruct k1'; try discriminate. destruct k2'; try discriminate.
      eexists. split; [eapply E_find_in_map; eauto; apply (find_in_map_spec e s s0 s1 Hm) | reflexivity]. }
    destruct m; try (apply Hg; exact Ht). destruct k1; try (apply Hg; exact Ht). destruct k2; try (apply Hg; exact Ht).
    simpl in Ht. inv Ht.
    destruct (do_fim_static e (render_str ps s) (render_str ps s0) (render_str ps s1) Hm) as (r & Er & Hr).
    exists r. split; [eapply E_find_in_map; [constructor | constructor | constructor | exact Er] | exact Hr].
  - intros text. apply ty_at_intro. intros t Ht. rewrite ty_sub_text in Ht.
    destruct (sub_text_ok ps text) eqn:E1; [|discriminate]. inv Ht.
    destruct (do_sub_ok e text [] eq_refl E1) as (s & Es). eexists. split; [apply E_sub_text; eassumption | reflexivity].
  - intros text vars _ IH. apply ty_at_intro. intros t Ht. destruct vars as [| | | | | | | cd]; try discriminate.
    rewrite ty_sub_vars in Ht. unfold sub_vars_ty in Ht. rewrite forallb_map in Ht.
    destruct (is_fn_dict cd) eqn:Ef; [discriminate|]. destruct (sub_text_ok ps text) eqn:E1; [|discriminate].
    destruct (forallb (fun kv => opt_sub (ty_of ps maps (snd kv)) TStr) cd) eqn:E2; [|discriminate]. simpl in Ht. inv Ht.
    destruct (evaldict_build TStr cd (IH cd eq_refl) E2) as (cd' & Hcd & Hsh).
    destruct (do_sub_ok e text cd' Hsh E1) as (s & Es).
    eexists. split; [eapply E_sub_vars; [apply E_dict; eassumption | eassumption] | reflexivity].
  - intros body IH. apply ty_at_intro. intros t Ht. rewrite ty_base64 in Ht. unfold base64_ty in Ht.
    destruct (opt_sub (ty_of ps maps body) TStr) eqn:E1; [|discriminate]. inv Ht.
    destruct (IH TStr E1) as (b & Hb & Hsb). destruct b; try discriminate.
    eexists. split; [eapply E_base64; eauto; reflexivity | reflexivity].
  - intros body. apply ty_at_intro. intros t Ht. inv Ht. eexists. split; [constructor | reflexivity].
  - intros body. apply ty_at_intro. intros t Ht. inv Ht. eexists. split; [constructor | reflexivity].
  - intros name. apply ty_at_intro. intros t Ht. inv Ht.
    destruct (Hc name) as [b Hb]. exists (VBool b). split; [constructor; assumption | reflexivity].
  - intros c tb fb IH1 IH2. apply ty_at_intro. intros t Ht. rewrite ty_if in Ht. simpl in Ht.
    unfold if_ty in Ht. destruct (ty_of ps maps tb) as [ta|] eqn:Eta; [|discriminate].
    destruct (ty_of ps maps fb) as [fa|] eqn:Efa; [|discriminate]. inv Ht.
    destruct (Hc c) as [b Hb]. destruct b.
    + destruct (IH1 (lub ta fa)) as (r & Hr & Hsr); [rewrite Eta; apply sub_lub_l|].
      exists r. split; [eapply E_if_true; eauto | assumption].
    + destruct (IH2 (lub ta fa)) as (r & Hr & Hsr); [rewrite Efa; apply sub_lub_r|].
      exists r. split; [eapply E_if_false; eauto | assumption].
  - intros parts IH. apply ty_at_intro. intros t Ht. rewrite ty_and in Ht. unfold all_bool in Ht. rewrite forallb_map in Ht.
    destruct (forallb (fun x => opt_sub (ty_of ps maps x) TBool) parts) eqn:E1; [|discriminate]. inv Ht.
    destruct (evalall_build parts IH E1) as (b & Hb). exists (VBool b). split; [constructor; assumption | reflexivity].
  - intros parts IH. apply ty_at_intro. intros t Ht. rewrite ty_or in Ht. unfold all_bool in Ht. rewrite forallb_map in Ht.
    destruct (forallb (fun x => opt_sub (ty_of ps maps x) TBool) parts) eqn:E1; [|discriminate]. inv Ht.
    destruct (evalany_build parts IH E1) as (b & Hb). exists (VBool b). split; [constructor; assumption | reflexivity].
  - intros x rest IH. apply ty_at_intro. intros t Ht. rewrite ty_not in Ht. unfold all_bool in Ht. simpl in Ht.
    destruct (opt_sub (ty_of ps maps x) TBool) eqn:E1; [|discriminate]. inv Ht.
    destruct (IH TBool E1) as (r & Hr & Hsr). destruct r; try discriminate.
    exists (VBool (negb b)). split; [eapply E_not; eauto; reflexivity | reflexivity].
  - intros a b IH1 IH2. apply ty_at_intro. intros t Ht. rewrite ty_equals in Ht. unfold equals_ty in Ht.
    destruct (opt_sub (ty_of ps maps a) TPlain && opt_sub (ty_of ps maps b) TPlain) eqn:E1.
    + inv Ht. apply andb_true_iff in E1. destruct E1 as [Ea Eb].
      destruct (IH1 TPlain Ea) as (a' & Ha & Hsa). destruct (IH2 TPlain Eb) as (b' & Hb & Hsb).
      simpl in Hsa, Hsb. apply negb_true_iff in Hsa, Hsb.
      exists (VBool (veqb a' b')). split; [eapply E_equals; eauto | reflexivity].
      unfold py_eq. rewrite Hsa, Hsb. destruct a'; try reflexivity. discriminate.
    + simpl in Ht. destruct (opt_sub (ty_of ps maps a) TBool && opt_sub (ty_of ps maps b) TBool) eqn:E2; [|discriminate].
      inv Ht. apply andb_true_iff in E2. destruct E2 as [Ea Eb].
      destruct (IH1 TBool Ea) as (a' & Ha & Hsa). destruct (IH2 TBool Eb) as (b' & Hb & Hsb).
      destruct a'; try discriminate. destruct b'; try discriminate.
      eexists. split; [eapply E_equals; eauto; reflexivity | reflexivity].
  - intros k body er H T Ho. rewrite (ty_ill ps maps k body er H) in Ho. discriminate.
Qed.
End Sound.

Theorem ty_sound e : maps_ok (mappings e) -> (forall n, exists b, conds e n = Ok b) ->
  forall n v t, (vsize v < n)%nat -> ty_of (params e) (mappings e) v = Some t ->
  exists r, Eval e v r /\ shape t r = true.
Proof. intros Hm Hc n v t _ Ht. apply (ty_at e Hm Hc v t). rewrite Ht. apply sub_refl. Qed.

Corollary wf_resolves e v : wf_maps (mappings e) = true -> (forall n, exists b, conds e n = Ok b) ->
  forall t, ty_of (params e) (mappings e) v = Some t -> exists r, resolve e v = Ok r /\ shape t r = true.
Proof.
  intros Hm Hc t Ht. destruct (ty_sound e (wf_maps_ok _ Hm) Hc (S (vsize v)) v t) as (r & Hr & Hs); [lia | assumption|].
  exists r. split; [apply eval_complete; assumption | assumption].
Qed.

Lemma py_str_ok_ok v : py_str_ok v = true -> exists s, py_str v = Ok s.
Proof. destruct v; simpl; try discriminate; eauto. destruct k; try discriminate; eauto. Qed.
Lemma wf_decl_ok d p : wf_decl d p = true -> exists o, ref_value d p = Ok o.
Proof.
  unfold wf_decl, ref_value. destruct (is_noecho d); [eauto|]. simpl.
  destruct (match p with Some p0 => Some p0 | None => field K_Default d end) as [v|]; [|destruct (is_list_type d); eauto].
  destruct (is_list_type d); simpl.
  - intros H. apply orb_true_iff in H. destruct H as [H|H].
    + destruct v; try discriminate. eauto.
    + destruct (py_str_ok_ok v H) as [s Es]. destruct v; try discriminate; simpl in *; try (inv Es; eauto; fail).
      rewrite Es. simpl. eauto.
  - intros H. destruct (py_str_ok_ok v H) as [s ->]. simpl. eauto.
Qed.
Lemma wf_decls_ok decls extra : wf_decls decls extra = true -> exists l, bind_declared decls extra = Ok l.
Proof.
  unfold wf_decls. induction decls as [|[k d] r IH]; simpl; [eauto|]. intros H. apply andb_true_iff in H. destruct H as [H1 H2].
  destruct (wf_decl_ok d _ H1) as [o ->]. destruct (IH H2) as [l ->]. simpl. eauto.
Qed.
Lemma wf_bind_params pseudo decls extra : wf_decls decls extra = true -> exists ps, bind_params pseudo decls extra = Ok ps.
Proof. intros H. unfold bind_params. destruct (wf_decls_ok decls extra H) as [l ->]. simpl. eauto. Qed.

(* conditions: on-demand evaluation never fails and never runs out of fuel *)
Lemma cond_val_total ps maps decl : wf_maps maps = true ->
  (forall n body, lookup n decl = Some body -> wf_cond ps maps body = true) ->
  forall fuel rem n, (length rem < fuel)%nat -> exists b, cond_val ps maps decl fuel rem n = Ok b.
Proof.
  intros Hm Hd. induction fuel as [|f IH]; intros rem n Hl; [lia|].
  simpl. destruct (mem_str n rem) eqn:Em; [|eauto]. destruct (lookup n decl) as [body|] eqn:L; [|eauto].
  pose proof (Hd n body L) as Hw. unfold wf_cond in Hw. apply opt_sub_inv in Hw. destruct Hw as (a & Ea & Hsub).
  set (e := {| params := ps; mappings := maps; conds := cond_val ps maps decl f (remove_str n rem) |}).
  destruct (wf_resolves e body Hm) with (t := a) as (r & Hr & Hs).
  - intros m. apply IH. pose proof (remove_str_length n rem Em). lia.
  - exact Ea.
  - rewrite Hr. simpl. destruct a; try discriminate. destruct r; try discriminate. simpl. eauto.
Qed.
Lemma cond_all_total ps maps decl names : wf_maps maps = true ->
  forallb (fun kb => wf_cond ps maps (snd kb)) decl = true -> exists l, cond_all ps maps decl names = Ok l.
Proof.
  intros Hm Hd. induction names as [|n r IH]; simpl; [eauto|].
  assert (Hb : exists b, cond_root ps maps decl n = Ok b).
  { unfold cond_root. apply cond_val_total; [assumption | | unfold keys; rewrite map_length; lia].
    intros m body L. exact (lookup_forallb (wf_cond ps maps) m decl body Hd L). }
  destruct Hb as [b ->]. destruct IH as [l ->]. simpl. eauto.
Qed.

Lemma resolve_resources_total e resolved rs : wf_maps (mappings e) = true -> (forall n, exists b, conds e n = Ok b) ->
  forallb (fun ir => wf_resource (params e) (mappings e) (snd ir)) rs = true ->
  exists l, resolve_resources e resolved rs = Ok l.
Proof.
  intros Hm Hc. induction rs as [|[id r] rest IH]; [simpl; eauto|]. intros H. cbn [forallb snd] in H.
  apply andb_true_iff in H. destruct H as [H1 H2]. cbn [resolve_resources].
  destruct (IH H2) as [l El]. unfold wf_resource in H1. destruct r; try discriminate.
  apply andb_true_iff in H1. destruct H1 as [Hg Hw]. unfold wf_expr in Hw.
  destruct (ty_of (params e) (mappings e) (VDict d)) as [t|] eqn:Et; [|discriminate].
  destruct (wf_resolves e (VDict d) Hm Hc t Et) as (r' & Er & _).
  assert (Hk : exists keep, gate resolved (VDict d) = Ok keep).
  { unfold gate. destruct (lookup K_Condition d) as [c|]; [|eauto]. destruct c; try discriminate; eauto. }
  destruct Hk as [keep ->]. cbn [bind]. destruct keep; [|eauto]. unfold resolve_resource. rewrite Er. cbn [bind]. rewrite El. cbn [bind]. eauto.
Qed.

(* the hypothesis of C05 about parameters alone already guarantees parameter binding *)
Theorem valid_template_binds pseudo decls extra maps cdecl rs :
  valid_template pseudo decls extra maps cdecl rs = true -> exists ps, bind_params pseudo decls extra = Ok ps.
Proof. unfold valid_template. intros H. apply andb_true_iff in H. destruct H as [Hd _]. apply wf_bind_params. assumption. Qed.
