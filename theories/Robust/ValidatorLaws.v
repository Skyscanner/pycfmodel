(* ALGEBRAIC LAWS of the custom validators of Robust/Validators.v: each validator accepts, unchanged, what it
   produced (the per-validator form of the C15 round trip); the exact acceptance sets of semi_strict_bool, the
   effect validator and check_type; the collision / identity / colon-freedom laws of remove_colon; the base64
   laws of validate_binary. *)
From Coq Require Import List Bool ZArith Lia.
From PV Require Import Base.Str Base.ListFacts Base.Value Resolver.Consts Resolver.Resolve Resolver.Text Resolver.ParamFacts Resolver.FnAlgebra
                       Robust.RConsts Robust.Validators Robust.ValidatorsFacts.
Import ListNotations.
Local Open Scope N_scope.

(* semi_strict_bool: exactly the booleans and the (ASCII) case-insensitive texts true / false *)
Theorem semi_strict_bool_exact v w :
  semi_strict_bool v = Ok w <->
  (exists b, v = VBool b /\ w = VBool b) \/
  (exists s, v = VStr s /\ ((lower s = S_true /\ w = VBool true) \/ (lower s = S_false /\ w = VBool false))).
Proof.
  split.
  - destruct v as [| b | z | s | k t | bs | l | d]; simpl; try discriminate.
    + intros H. inv H. left. eauto.
    + destruct (str_eqb (lower s) S_true) eqn:Et.
      * intros H. inv H. apply str_eqb_spec in Et. right. exists s. split; [reflexivity | left; split; [exact Et | reflexivity]].
      * destruct (str_eqb (lower s) S_false) eqn:Ef; [|discriminate].
        intros H. inv H. apply str_eqb_spec in Ef. right. exists s. split; [reflexivity | right; split; [exact Ef | reflexivity]].
  - intros [[b [Hv Hw]] | [s [Hv [[Hl Hw] | [Hl Hw]]]]]; subst v w; simpl.
    + reflexivity.
    + rewrite Hl. reflexivity.
    + rewrite Hl. reflexivity.
Qed.
Corollary semi_strict_bool_result v w : semi_strict_bool v = Ok w -> exists b, w = VBool b.
Proof.
  intros H. apply semi_strict_bool_exact in H. destruct H as [[b [_ Hw]] | [s [_ [[_ Hw] | [_ Hw]]]]]; eauto.
Qed.

(* effect validator: exactly the case-insensitive spellings of allow / deny, capitalised *)
Definition S_allow_l : str := [97; 108; 108; 111; 119].
Definition S_deny_l : str := [100; 101; 110; 121].
(* capitalised, a text reads [u :: t] (u an upper-case letter) exactly when, lower-cased, it reads [lower_cp u :: t] *)
Lemma capitalize_lower s u t : 65 <= u <= 90 -> (capitalize s = u :: t <-> lower s = lower_cp u :: t).
Proof.
  intros Hu. destruct s as [|c r]; [split; discriminate|]. unfold capitalize. cbn [lower map]. fold (lower r).
  split; intros H; injection H as Hc Hr; f_equal; try exact Hr; apply (upper_lower_cp u c Hu); exact Hc.
Qed.
Lemma capitalize_Allow s : capitalize s = S_Allow <-> lower s = S_allow_l.
Proof. apply (capitalize_lower s 65). lia. Qed.
Lemma capitalize_Deny s : capitalize s = S_Deny <-> lower s = S_deny_l.
Proof. apply (capitalize_lower s 68). lia. Qed.
Theorem effect_validator_exact s w :
  effect_validator (VStr s) = Ok w <->
  (lower s = S_allow_l /\ w = VStr S_Allow) \/ (lower s = S_deny_l /\ w = VStr S_Deny).
Proof.
  unfold effect_validator. cbv zeta. split.
  - destruct (str_eqb (capitalize s) S_Allow) eqn:EA.
    + cbn [orb]. intros H. inv H. apply str_eqb_spec in EA. left. split; [apply capitalize_Allow; exact EA | rewrite EA; reflexivity].
    + destruct (str_eqb (capitalize s) S_Deny) eqn:ED; cbn [orb]; [|discriminate].
      intros H. inv H. apply str_eqb_spec in ED. right. split; [apply capitalize_Deny; exact ED | rewrite ED; reflexivity].
  - intros [[Hl Hw] | [Hl Hw]]; subst w.
    + apply capitalize_Allow in Hl. rewrite Hl. reflexivity.
    + apply capitalize_Deny in Hl. rewrite Hl. reflexivity.
Qed.
(* anything that is not text (a FunctionDict at that position) is left alone *)
Lemma effect_validator_non_text v : (forall s, v <> VStr s) -> effect_validator v = Ok v.
Proof. intros H. destruct v; try reflexivity. exfalso. eapply H. reflexivity. Qed.

Theorem check_type_exact strict modelled v e :
  check_type strict modelled v = Err e <->
  e = EValue /\ ((exists s, v = VStr s /\ mem_str s modelled = true /\ strict = true) \/
                 (v <> VNull /\ forall s, v <> VStr s)).
Proof.
  split.
  - intros H. split; [exact (clean_err _ _ (check_type_clean strict modelled v) H)|].
    destruct v as [| b | z | s | k t | bs | l | d]; simpl in H; try discriminate;
      try (right; split; [discriminate | intros s0; discriminate]).
    destruct (mem_str s modelled && strict) eqn:E; [|discriminate]. apply andb_true_iff in E. destruct E as [E1 E2].
    left. exists s. auto.
  - intros [He [[s [Hv [Hm Hs]]] | [Hn Hs]]]; subst e.
    + subst v. simpl. rewrite Hm, Hs. reflexivity.
    + destruct v; try reflexivity; [exfalso; apply Hn; reflexivity | exfalso; eapply Hs; reflexivity].
Qed.
Theorem check_type_unchanged strict modelled v w : check_type strict modelled v = Ok w -> w = v.
Proof.
  destruct v; simpl; try discriminate; [intros H; inv H; reflexivity|].
  destruct (mem_str s modelled && strict); [discriminate|]. intros H. inv H. reflexivity.
Qed.
Theorem check_type_lax_accepts modelled s : check_type false modelled (VStr s) = Ok (VStr s).
Proof. simpl. rewrite andb_false_r. reflexivity. Qed.

(* every validator accepts, unchanged, what it produced *)
Lemma semi_strict_bool_idem v w : semi_strict_bool v = Ok w -> semi_strict_bool w = Ok w.
Proof. intros H. destruct (semi_strict_bool_result _ _ H) as [b Hb]. subst w. reflexivity. Qed.
Lemma validate_binary_result v w : validate_binary v = Ok w -> exists bs, w = VBytes bs.
Proof.
  destruct v; simpl; try discriminate; [|intros H; inv H; eauto].
  destruct (b64decode s); [|discriminate]. intros H. inv H. eauto.
Qed.
Lemma validate_binary_idem v w : validate_binary v = Ok w -> validate_binary w = Ok w.
Proof. intros H. destruct (validate_binary_result _ _ H) as [bs Hb]. subst w. reflexivity. Qed.
Lemma tag_coerce_idem v w : tag_coerce v = Ok w -> tag_coerce w = Ok w.
Proof. destruct v; simpl; intros H; inv H; reflexivity. Qed.
Lemma effect_validator_idem v w : effect_validator v = Ok w -> effect_validator w = Ok w.
Proof.
  destruct v as [| b | z | s | k t | bs | l | d]; try (intros H; inv H; reflexivity).
  intros H. apply effect_validator_exact in H. destruct H as [[_ Hw] | [_ Hw]]; subst w; reflexivity.
Qed.
(* the JSON pre-pass: unconditionally -- text stays the same text (finding F29, DESIGN.md 7.3), and a decoded non-text value is not decoded again
   (the pre-pass does not look inside: a decoded list containing JSON text keeps that text as text) *)
Lemma json_prepass_idem loads v w : json_prepass loads v = Ok w -> json_prepass loads w = Ok w.
Proof.
  intros H. destruct v as [| b | z | s | k t | bs | l | d].
  4: { unfold json_prepass in H. destruct (loads s) as [j|] eqn:L.
       - destruct j as [| b | z | s' | k t | bs | l | [|kv d]]; try discriminate; inv H; try reflexivity.
         unfold json_prepass. rewrite L. reflexivity.
       - inv H. unfold json_prepass. rewrite L. reflexivity. }
  all: try (inv H; reflexivity).
  destruct d as [|kv d]; [discriminate|]. inv H. reflexivity.
Qed.
Lemma generic_casting_idem cast v w : (forall x, cast (cast x) = cast x) ->
  generic_casting cast v = Ok w -> generic_casting cast w = Ok w.
Proof.
  intros Hc H. destruct v; simpl in H; try discriminate. inv H. simpl. rewrite map_map. f_equal. f_equal.
  apply map_ext. intros [k x]. simpl. rewrite Hc. reflexivity.
Qed.
(* the validators that only judge return their argument: idempotent trivially *)
Lemma judges_return_argument strict modelled float_ok v w :
  (check_type strict modelled v = Ok w -> w = v) /\ (check_fn_dict v = Ok w -> w = v) /\
  (not_from_numbers float_ok v = Ok w -> w = v) /\ (not_from_booleans v = Ok w -> w = v).
Proof.
  split; [apply check_type_unchanged|]. unfold check_fn_dict, not_from_numbers, not_from_booleans.
  split; [destruct (is_resolvable_dict v); [intros H; inv H; reflexivity | discriminate]|].
  split; [destruct (existsb (is_number float_ok) (items_of v)); [discriminate | intros H; inv H; reflexivity]|].
  destruct (existsb _ (items_of v)); [discriminate | intros H; inv H; reflexivity].
Qed.

Definition rc_step (acc : list (str * value)) (kv : str * value) : list (str * value) :=
  dset (strip_colons (fst kv)) (snd kv) acc.
Definition rc_dict (d : list (str * value)) : list (str * value) := fold_left rc_step d [].
Lemma remove_colon_dict d : remove_colon (VDict d) = Ok (VDict (rc_dict d)).
Proof. reflexivity. Qed.
Lemma remove_colon_non_dict v : (forall d, v <> VDict d) -> remove_colon v = Ok v.
Proof. intros H. destruct v; try reflexivity. exfalso. eapply H. reflexivity. Qed.

Definition colon_free (k : str) : bool := forallb (fun c => negb (c =? 58)) k.
Lemma strip_colons_free k : colon_free (strip_colons k) = true.
Proof. apply forallb_forall. intros c H. apply filter_In in H. apply H. Qed.
Lemma strip_colons_id k : colon_free k = true -> strip_colons k = k.
Proof.
  induction k as [|c r IH]; [reflexivity|]. unfold colon_free. cbn [forallb]. intros H.
  apply andb_true_iff in H. destruct H as [H1 H2]. unfold strip_colons. cbn [filter]. rewrite H1. f_equal. apply IH. exact H2.
Qed.

(* [dset] is the fixpoint of Template.set_key (d[k] = x) under another name: the laws of set_key are its laws, by conversion *)
Lemma lookup_dset k' k x d : lookup k' (dset k x d) = if str_eqb k' k then Some x else lookup k' d.
Proof. exact (lookup_set_key k' k x d). Qed.
Lemma dset_keys k x d : keys (dset k x d) = if mem_str k (keys d) then keys d else keys d ++ [k].
Proof. exact (keys_set_key k x d). Qed.
Lemma dset_nodup k x d : NoDup (keys d) -> NoDup (keys (dset k x d)).
Proof. exact (set_key_nodup k x d). Qed.
Definition keys_colon_free (d : list (str * value)) : bool := forallb colon_free (keys d).
Lemma dset_colon_free k x d : colon_free k = true -> keys_colon_free d = true -> keys_colon_free (dset k x d) = true.
Proof.
  intros Hk Hd. unfold keys_colon_free in *. rewrite dset_keys. destruct (mem_str k (keys d)); [exact Hd|].
  rewrite forallb_app, Hd. cbn [forallb]. rewrite Hk. reflexivity.
Qed.
(* the object is built entry by entry: each entry is stored under its stripped key in what the earlier entries gave; so
   (lookup_dset, dset_keys) a later entry replaces the VALUE of an earlier one with the same stripped key,
   keeps its POSITION, and touches no other key *)
Lemma rc_dict_snoc d k x : rc_dict (d ++ [(k, x)]) = dset (strip_colons k) x (rc_dict d).
Proof. unfold rc_dict. rewrite fold_left_app. reflexivity. Qed.
(* the result never has a key containing ':' and never has a key twice -- unconditionally *)
Theorem rc_dict_keys d : NoDup (keys (rc_dict d)) /\ keys_colon_free (rc_dict d) = true.
Proof.
  induction d as [|[k x] d [ND CF]] using rev_ind; [split; [constructor | reflexivity]|]. rewrite rc_dict_snoc.
  split; [apply dset_nodup; exact ND | apply dset_colon_free; [apply strip_colons_free | exact CF]].
Qed.
(* hence the value under a key of the result is that of the LAST entry of the input whose key, colons removed, is that key *)
Definition stripped (d : list (str * value)) : list (str * value) := map (fun kv => (strip_colons (fst kv), snd kv)) d.
Theorem rc_dict_lookup d k : lookup k (rc_dict d) = lookup k (rev (stripped d)).
Proof.
  induction d as [|[k' x] r IH] using rev_ind; [reflexivity|].
  rewrite rc_dict_snoc. unfold stripped. rewrite map_app, rev_app_distr. cbn [map rev app fst snd lookup].
  rewrite lookup_dset. destruct (str_eqb k (strip_colons k')); [reflexivity | exact IH].
Qed.

(* identity on an object whose keys are distinct (every JSON object once loaded) and contain no ':' *)
Lemma dset_fresh k x acc : ~ In k (keys acc) -> dset k x acc = acc ++ [(k, x)].
Proof.
  induction acc as [|[k' y] r IH]; intros H; cbn [dset app]; [reflexivity|].
  destruct (str_eqb k k') eqn:E.
  - apply str_eqb_spec in E. subst k'. exfalso. apply H. left. reflexivity.
  - f_equal. apply IH. intros C. apply H. right. exact C.
Qed.
Lemma rc_dict_id d : NoDup (keys d) -> keys_colon_free d = true -> rc_dict d = d.
Proof.
  induction d as [|[k x] d IH] using rev_ind; [reflexivity|].
  unfold keys_colon_free, keys. rewrite map_app, forallb_app. cbn [map fst forallb]. intros ND CF.
  apply andb_true_iff in CF. destruct CF as [CF Ck]. rewrite andb_true_r in Ck.
  apply NoDup_remove in ND. rewrite app_nil_r in ND. destruct ND as [ND Nk].
  rewrite rc_dict_snoc, (IH ND CF), (strip_colons_id k Ck). apply dset_fresh. exact Nk.
Qed.
Theorem remove_colon_identity d : NoDup (keys d) -> keys_colon_free d = true -> remove_colon (VDict d) = Ok (VDict d).
Proof. intros ND CF. rewrite remove_colon_dict, (rc_dict_id d ND CF). reflexivity. Qed.
(* hence idempotent on its own output, unconditionally *)
Theorem remove_colon_idem v w : remove_colon v = Ok w -> remove_colon w = Ok w.
Proof.
  destruct v as [| b | z | s | k t | bs | l | d]; try (intros H; inv H; reflexivity).
  rewrite remove_colon_dict. intros H. inv H. destruct (rc_dict_keys d) as [ND CF]. apply remove_colon_identity; assumption.
Qed.
Theorem validate_binary_roundtrip bs : Forall (fun b => b < 256) bs ->
  validate_binary (VStr (b64encode bs)) = Ok (VBytes bs).
Proof. intros H. simpl. rewrite (b64_roundtrip bs H). reflexivity. Qed.

(* text made of alphabet characters only (no padding, nothing to discard) decodes exactly when its length is a multiple of 4 *)
Definition b64_plain (s : str) : bool := forallb (fun c => match b64_val c with Some _ => true | None => false end) s.
(* an alphabet character: its value is a sextet; it is ASCII and not the pad *)
Lemma b64_val_range c x : b64_val c = Some x -> x < 64 /\ c < 128 /\ c <> 61.
Proof.
  unfold b64_val.
  destruct ((65 <=? c) && (c <=? 90)) eqn:A1; [apply andb_true_iff in A1; rewrite !N.leb_le in A1; intros H; inv H; lia|].
  destruct ((97 <=? c) && (c <=? 122)) eqn:A2; [apply andb_true_iff in A2; rewrite !N.leb_le in A2; intros H; inv H; lia|].
  destruct ((48 <=? c) && (c <=? 57)) eqn:A3; [apply andb_true_iff in A3; rewrite !N.leb_le in A3; intros H; inv H; lia|].
  destruct (c =? 43) eqn:A4; [apply N.eqb_eq in A4; intros H; inv H; lia|].
  destruct (c =? 47) eqn:A5; [apply N.eqb_eq in A5; intros H; inv H; lia | discriminate].
Qed.
Lemma b64_val_not_pad c x : b64_val c = Some x -> (c =? 61) = false.
Proof. intros H. apply N.eqb_neq, (b64_val_range c x H). Qed.
Lemma b64dec_go_plain s : forall qp pads left out, qp < 4 -> b64_plain s = true ->
  ((exists bs, b64dec_go s qp pads left out = Some bs) <-> exists n, qp + N.of_nat (length s) = 4 * n).
Proof.
  induction s as [|c r IH]; intros qp pads left out Hq Hp.
  - cbn [b64dec_go length]. destruct (qp =? 0) eqn:E.
    + apply N.eqb_eq in E. split; [intros _; exists 0; lia | intros _; eauto].
    + apply N.eqb_neq in E. split; [intros [bs H]; discriminate | intros [n H]; lia].
  - unfold b64_plain in Hp. cbn [forallb] in Hp. apply andb_true_iff in Hp. destruct Hp as [Hc Hr]. fold (b64_plain r) in Hr.
    destruct (b64_val c) as [x|] eqn:Ev; [|discriminate].
    cbn [b64dec_go]. rewrite (b64_val_not_pad c x Ev), Ev.
    replace (N.of_nat (length (c :: r))) with (N.of_nat (length r) + 1) by (cbn [length]; lia).
    (* the four positions of a quantum *)
    assert (Q : qp = 0 \/ qp = 1 \/ qp = 2 \/ qp = 3) by lia.
    destruct Q as [-> | [-> | [-> | ->]]]; cbn [N.eqb Pos.eqb]; rewrite IH by (try lia; exact Hr).
    1-3: split; intros [n H]; exists n; lia.
    split; intros [n H]; [exists (n + 1) | exists (n - 1)]; lia.
Qed.
Theorem validate_binary_plain_iff s : b64_plain s = true ->
  ((exists bs, validate_binary (VStr s) = Ok (VBytes bs)) <-> exists n, N.of_nat (length s) = 4 * n).
Proof.
  intros Hp. assert (Ha : forallb (fun c => c <? 128) s = true).
  { unfold b64_plain in Hp. rewrite forallb_forall in Hp. apply forallb_forall. intros c Hc. specialize (Hp c Hc).
    destruct (b64_val c) as [x|] eqn:Ev; [|discriminate]. apply N.ltb_lt, (b64_val_range c x Ev). }
  pose proof (b64dec_go_plain s 0 0 0 [] ltac:(lia) Hp) as G. cbn [N.add] in G. rewrite <- G.
  cbn [validate_binary]. unfold b64decode. rewrite Ha.
  destruct (b64dec_go s 0 0 0 []) as [bs|]; split; intros [bs' H]; try discriminate; eauto.
Qed.
(* in particular: length = 1 mod 4 is refused *)
Corollary validate_binary_plain_len1_refused s k : b64_plain s = true -> N.of_nat (length s) = 4 * k + 1 ->
  validate_binary (VStr s) = Err EValue.
Proof.
  intros Hp Hl. pose proof (proj1 (validate_binary_plain_iff s Hp)) as X. cbn [validate_binary] in *.
  destruct (b64decode s) as [bs|]; [|reflexivity]. destruct X as [n Hn]; [eauto | lia].
Qed.

(* what the decoder yields are bytes, so re-encoding and decoding again gives the same bytes: Binary accepts its own output
   also in its TEXT form (the dumped form of a Binary is the base64 text of its bytes).
   [left] holds the 6 / 4 / 2 bits of the current quantum that are not yet written out *)
Definition b64_state_ok (qp left : N) : Prop :=
  qp = 0 \/ (qp = 1 /\ left < 64) \/ (qp = 2 /\ left < 16) \/ (qp = 3 /\ left < 4).
Lemma b64dec_go_bytes s : forall qp pads left out bs, b64_state_ok qp left ->
  Forall (fun b => b < 256) out -> b64dec_go s qp pads left out = Some bs -> Forall (fun b => b < 256) bs.
Proof.
  induction s as [|c r IH]; intros qp pads left out bs St Ho H; cbn [b64dec_go] in H.
  - destruct (qp =? 0); [|discriminate]. inv H. apply Forall_rev. exact Ho.
  - destruct (c =? 61).
    + destruct ((2 <=? qp) && (4 <=? qp + (pads + 1))).
      * inv H. apply Forall_rev. exact Ho.
      * eapply IH; [exact St | exact Ho | exact H].
    + destruct (b64_val c) as [x|] eqn:Ev; [|eapply IH; [exact St | exact Ho | exact H]].
      pose proof (proj1 (b64_val_range c x Ev)) as Hx.
      (* the four positions of a quantum *)
      destruct St as [-> | [[-> Hl] | [[-> Hl] | [-> Hl]]]]; cbn [N.eqb Pos.eqb] in H; (eapply IH; [| |exact H]).
      * right. left. split; [reflexivity | exact Hx].
      * exact Ho.
      * right. right. left. split; [reflexivity | apply N.mod_lt; lia].
      * constructor; [|exact Ho]. assert (x / 16 < 4) by (apply N.div_lt_upper_bound; lia). lia.
      * right. right. right. split; [reflexivity | apply N.mod_lt; lia].
      * constructor; [|exact Ho]. assert (x / 4 < 16) by (apply N.div_lt_upper_bound; lia). lia.
      * left. reflexivity.
      * constructor; [lia | exact Ho].
Qed.
Theorem b64decode_bytes s bs : b64decode s = Some bs -> Forall (fun b => b < 256) bs.
Proof.
  unfold b64decode. destruct (forallb (fun c => c <? 128) s); [|discriminate].
  apply b64dec_go_bytes; [left; reflexivity | constructor].
Qed.
Theorem validate_binary_reencode v bs : (forall bs', v <> VBytes bs') ->
  validate_binary v = Ok (VBytes bs) -> validate_binary (VStr (b64encode bs)) = Ok (VBytes bs).
Proof.
  intros Hn H. destruct v; simpl in H; try discriminate; [|exfalso; eapply Hn; reflexivity].
  destruct (b64decode s) as [b|] eqn:E; [|discriminate]. inv H.
  apply validate_binary_roundtrip. eapply b64decode_bytes. exact E.
Qed.
