(* Facts about the custom validators: each answers Ok or Err EValue on EVERY value (so pydantic turns
   every rejection into a ValidationError); field-level compositions answer Ok or Err EValidation;
   the action-expansion walk fails exactly on a non-textual Action / NotAction value; the resolver
   has no "unsupported leaf" branch. *)
From Coq Require Import List Bool.
From PV Require Import Base.Str Base.Value Resolver.Consts Resolver.Resolve Robust.RConsts Robust.Validators.
Import ListNotations.
Local Open Scope N_scope.

(* what a custom validator may do: return, or raise ValueError *)
Definition clean {A} (r : res A) : Prop :=
  match r with Ok _ => True | Err EValue => True | Err _ => False end.
(* what pycfmodel.parse may do: return a model, or raise pydantic's ValidationError *)
Definition parse_clean {A} (r : res A) : Prop :=
  match r with Ok _ => True | Err EValidation => True | Err _ => False end.
Definition never_raises {A} (r : res A) : Prop := exists a, r = Ok a.

(* read as statements about the exception raised *)
Lemma clean_err {A} (r : res A) e : clean r -> r = Err e -> e = EValue.
Proof. intros H E. subst r. destruct e; simpl in H; try contradiction; reflexivity. Qed.
Lemma never_raises_no_err {A} (r : res A) e : never_raises r -> r <> Err e.
Proof. intros [a E] C. congruence. Qed.

Lemma wrap_clean {A} (r : res A) : clean r -> parse_clean (pydantic_wrap r).
Proof. destruct r as [a|[]]; simpl; tauto. Qed.

Lemma check_type_clean strict modelled v : clean (check_type strict modelled v).
Proof. destruct v; simpl; auto. destruct (mem_str s modelled && strict); simpl; auto. Qed.
Lemma validate_binary_clean v : clean (validate_binary v).
Proof. destruct v; simpl; auto. destruct (b64decode s); simpl; auto. Qed.
Lemma semi_strict_bool_clean v : clean (semi_strict_bool v).
Proof. destruct v; simpl; auto. destruct (str_eqb (lower s) S_true); simpl; auto. destruct (str_eqb (lower s) S_false); simpl; auto. Qed.
Lemma check_fn_dict_clean v : clean (check_fn_dict v).
Proof. unfold check_fn_dict. destruct (is_resolvable_dict v); simpl; auto. Qed.
Lemma generic_casting_clean cast v : clean (generic_casting cast v).
Proof. destruct v; simpl; auto. Qed.
Lemma json_prepass_clean loads v : clean (json_prepass loads v).
Proof. unfold json_prepass. match goal with |- clean (match ?x with _ => _ end) => destruct x as [| | | | | | |[|? ?]]; exact I end. Qed.
(* text stays text: the pre-pass never turns a string into another string (finding F29, DESIGN.md 7.3), so applying it to its own output changes nothing *)
Lemma json_prepass_text_to_text loads s t : json_prepass loads (VStr s) = Ok (VStr t) -> t = s.
Proof.
  unfold json_prepass. destruct (loads s) as [j|] eqn:L.
  - destruct j as [| | | | | | |[|? ?]]; intros H; inversion H; reflexivity.
  - intros H; inversion H; reflexivity.
Qed.
Lemma not_from_numbers_clean float_ok v : clean (not_from_numbers float_ok v).
Proof. unfold not_from_numbers. destruct (existsb _ _); exact I. Qed.
Lemma not_from_booleans_clean v : clean (not_from_booleans v).
Proof. unfold not_from_booleans. destruct (existsb _ _); exact I. Qed.
Lemma remove_colon_total v : never_raises (remove_colon v).
Proof. destruct v; simpl; eexists; reflexivity. Qed.
Lemma effect_validator_clean v : clean (effect_validator v).
Proof. destruct v; simpl; auto. destruct (str_eqb (capitalize s) S_Allow || str_eqb (capitalize s) S_Deny); simpl; auto. Qed.
Lemma tag_coerce_total v : never_raises (tag_coerce v).
Proof. destruct v; simpl; eexists; reflexivity. Qed.

Lemma never_raises_clean {A} (r : res A) : never_raises r -> clean r.
Proof. intros [a ->]. exact I. Qed.

Lemma all_items_clean item l : (forall x, parse_clean (item x)) -> parse_clean (all_items item l).
Proof.
  intros H. induction l as [|x xs IH]; simpl; auto.
  specialize (H x). destruct (item x) as [x'|e]; simpl; [|exact H].
  destruct (all_items item xs) as [xs'|e]; simpl; auto.
Qed.
Lemma instance_or_list_clean item v : (forall x, parse_clean (item x)) -> parse_clean (instance_or_list item v).
Proof.
  intros H. unfold instance_or_list. pose proof (H v) as Hv. destruct (item v) as [x|e]; simpl; auto.
  destruct e; try contradiction. destruct v; simpl; auto.
  pose proof (all_items_clean item l H) as Hl. destruct (all_items item l); simpl; auto.
Qed.
Lemma resolvable_clean item v : parse_clean (item v) -> parse_clean (resolvable item v).
Proof.
  intros Hv. unfold resolvable. destruct (item v) as [x|e]; simpl; auto.
  destruct e; try contradiction. apply wrap_clean. apply check_fn_dict_clean.
Qed.
Lemma type_field_clean strict modelled v : parse_clean (type_field strict modelled v).
Proof. apply wrap_clean, check_type_clean. Qed.
Lemma binary_field_clean v : parse_clean (binary_field v).
Proof. apply instance_or_list_clean. intros x. apply wrap_clean, validate_binary_clean. Qed.
Lemma bool_field_clean v : parse_clean (bool_field v).
Proof. apply instance_or_list_clean. intros x. apply resolvable_clean. apply wrap_clean, semi_strict_bool_clean. Qed.
Lemma std_str_clean v : parse_clean (std_str v).
Proof. unfold std_str. destruct (is_vstr v); simpl; auto. Qed.
Lemma effect_field_clean v : parse_clean (effect_field v).
Proof.
  unfold effect_field. pose proof (resolvable_clean std_str v (std_str_clean v)) as H.
  destruct (resolvable std_str v) as [x|e]; simpl; [|exact H]. apply wrap_clean, effect_validator_clean.
Qed.
Lemma std_str_coerce_clean v : parse_clean (std_str_coerce v).
Proof. destruct v; simpl; auto. destruct k; simpl; auto. Qed.
Lemma tag_value_field_clean v : parse_clean (tag_value_field v).
Proof.
  unfold tag_value_field. destruct (tag_coerce_total v) as [x ->]. simpl.
  apply resolvable_clean, std_str_coerce_clean.
Qed.
Lemma fn_dict_field_clean v : parse_clean (fn_dict_field v).
Proof. apply wrap_clean, check_fn_dict_clean. Qed.
Lemma generic_field_clean cast v : parse_clean (generic_field cast v).
Proof. apply wrap_clean, generic_casting_clean. Qed.

(* expand_actions(): without the C10 guard it fails exactly on a non-null Action / NotAction value that is
   neither text nor a list of text; with the guard it never fails *)
Fixpoint actions_textual (v : value) : bool :=
  match v with
  | VDict d =>
      forallb (fun kv => match snd kv with
                         | VNull => true
                         | _ => if str_eqb (fst kv) K_Action || str_eqb (fst kv) K_NotAction then action_value_ok (snd kv)
                                else actions_textual (snd kv)
                         end) d
  | VList l => forallb actions_textual l
  | _ => true
  end.

Lemma all_strs_ok l : match all_strs l with Some _ => true | None => false end = forallb is_vstr l.
Proof.
  induction l as [|x xs IH]; [reflexivity|]. destruct x; try reflexivity.
  simpl. rewrite <- IH. destruct (all_strs xs); reflexivity.
Qed.

(* the outcome of a step that can fail with ValueError only: a value when [b], and exactly ValueError otherwise *)
Definition value_error_unless {A} (b : bool) (r : res A) : Prop := if b then is_ok r = true else r = Err EValue.
Lemma veu_is_ok {A} b (r : res A) : value_error_unless b r -> is_ok r = b.
Proof. destruct b; simpl; [auto | intros ->; reflexivity]. Qed.
Lemma veu_clean {A} b (r : res A) : value_error_unless b r -> clean r.
Proof. destruct b; simpl; [destruct r; [intros _; exact I | discriminate] | intros ->; exact I]. Qed.
Lemma veu_map {A B} b (r : res A) (f : A -> B) : value_error_unless b r -> value_error_unless b (a <- r ;; Ok (f a)).
Proof. destruct b; simpl; [destruct r; auto | intros ->; reflexivity]. Qed.
Lemma veu_pair {A B C} b1 b2 (r1 : res A) (r2 : res B) (f : A -> B -> C) : value_error_unless b1 r1 -> value_error_unless b2 r2 ->
  value_error_unless (b1 && b2) (a <- r1 ;; b <- r2 ;; Ok (f a b)).
Proof.
  destruct b1; simpl; [|intros -> _; reflexivity]. destruct r1; [intros _|discriminate].
  destruct b2; simpl; [destruct r2; auto | intros ->; reflexivity].
Qed.
Lemma expand_acts_spec exp na x : value_error_unless (action_value_ok x) (expand_acts exp na x).
Proof. destruct x; try reflexivity. simpl. rewrite <- all_strs_ok. destruct (all_strs l); reflexivity. Qed.

(* the inner loops of [expand_tree], named *)
Definition et_list (guard : bool) (exp : bool -> list str -> list str) : list value -> res (list value) :=
  fix go (l : list value) : res (list value) :=
    match l with
    | [] => Ok []
    | x :: r => x' <- expand_tree guard exp x ;; r' <- go r ;; Ok (x' :: r')
    end.
Definition et_entry (guard : bool) (exp : bool -> list str -> list str) (k : str) (x : value) : res value :=
  match x with
  | VNull => Ok VNull
  | _ => if (str_eqb k K_Action || str_eqb k K_NotAction) && negb (guard && negb (action_value_ok x))
         then expand_acts exp (str_eqb k K_NotAction) x
         else expand_tree guard exp x
  end.
Definition et_dict (guard : bool) (exp : bool -> list str -> list str) : list (str * value) -> res (list (str * value)) :=
  fix go (d : list (str * value)) : res (list (str * value)) :=
    match d with
    | [] => Ok []
    | (k, x) :: r => x' <- et_entry guard exp k x ;; r' <- go r ;; Ok ((k, x') :: r')
    end.
Definition entry_textual (kv : str * value) : bool :=
  match snd kv with
  | VNull => true
  | _ => if str_eqb (fst kv) K_Action || str_eqb (fst kv) K_NotAction then action_value_ok (snd kv)
         else actions_textual (snd kv)
  end.
Section Walk.
Variables (guard : bool) (exp : bool -> list str -> list str).
Definition OkAt (v : value) : Prop := value_error_unless (guard || actions_textual v) (expand_tree guard exp v).

Lemma et_list_ok l : Forall OkAt l -> value_error_unless (guard || forallb actions_textual l) (et_list guard exp l).
Proof.
  induction 1 as [|x xs Hx _ IH]; [rewrite orb_true_r; reflexivity|].
  cbn [forallb]. rewrite orb_andb_distrib_r. exact (veu_pair _ _ _ _ cons Hx IH).
Qed.
Lemma et_entry_ok k x : OkAt x -> value_error_unless (guard || entry_textual (k, x)) (et_entry guard exp k x).
Proof.
  intros Hx.
  (* a non-null value under Action / NotAction is expanded, unless the guard sends a non-textual one to the plain walk *)
  assert (B : value_error_unless
                (guard || (if str_eqb k K_Action || str_eqb k K_NotAction then action_value_ok x else actions_textual x))
                (if (str_eqb k K_Action || str_eqb k K_NotAction) && negb (guard && negb (action_value_ok x))
                 then expand_acts exp (str_eqb k K_NotAction) x else expand_tree guard exp x)).
  { unfold OkAt in Hx. destruct (str_eqb k K_Action || str_eqb k K_NotAction); [|exact Hx].
    pose proof (expand_acts_spec exp (str_eqb k K_NotAction) x) as Ha.
    destruct guard; [|exact Ha]. destruct (action_value_ok x); [exact Ha | exact Hx]. }
  destruct x; try exact B. unfold entry_textual. cbn [snd]. rewrite orb_true_r. reflexivity.
Qed.
Lemma et_dict_ok d : Forall (fun kv => OkAt (snd kv)) d -> value_error_unless (guard || forallb entry_textual d) (et_dict guard exp d).
Proof.
  induction 1 as [|[k x] xs Hx _ IH]; [rewrite orb_true_r; reflexivity|].
  cbn [forallb]. rewrite orb_andb_distrib_r. exact (veu_pair _ _ _ _ (fun a b => (k, a) :: b) (et_entry_ok k x Hx) IH).
Qed.

(* the walk returns exactly when the guard is on or every Action / NotAction value is textual, and raises ValueError otherwise *)
Theorem expand_tree_spec v : OkAt v.
Proof.
  induction v as [| | | | | | l IH | d IH] using value_ind'; try (unfold OkAt; rewrite orb_true_r; reflexivity).
  - exact (veu_map _ _ VList (et_list_ok l IH)).
  - exact (veu_map _ _ VDict (et_dict_ok d IH)).
Qed.
End Walk.

Corollary expand_tree_total guard exp v : guard || actions_textual v = true -> exists r, expand_tree guard exp v = Ok r.
Proof.
  intros H. pose proof (expand_tree_spec guard exp v) as E. unfold OkAt in E. rewrite H in E.
  destruct (expand_tree guard exp v); [eauto | discriminate].
Qed.

(* the resolver's leaf dispatch: every non-container constructor of [value] is rendered; the branch
   `raise ValueError("Not supported type")` of pycfmodel.resolver.resolve has no counterpart *)
Definition is_leaf (v : value) : bool := match v with VList _ | VDict _ => false | _ => true end.
Theorem render_leaf_total ps v : is_leaf v = true -> exists r, render_leaf ps v = Some r.
Proof. destruct v; simpl; try discriminate; eauto. Qed.
