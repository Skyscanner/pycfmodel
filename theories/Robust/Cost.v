(* C05, cost: the tree walk of expand_actions() instrumented with a step counter.
   One step per node visited (a typed atom -- IP network, date, bytes -- is ONE node whatever its magnitude),
   K steps per action pattern (one sweep of the catalogue; K is the catalogue's cost, a constant of the library,
   not of the template).  The instrumented walk computes the same result as Validators.expand_tree and its step
   count is at most (K + 1) * vsize v: linear in the number of nodes, independent of the values' magnitudes.
   This is a statement about the MODELLED walk; real time and memory are measured by the sandbox (partial). *)
From Coq Require Import List Bool ZArith Lia.
From PV Require Import Base.Str Base.Value Robust.RConsts Robust.Validators Robust.ValidatorsFacts.
Import ListNotations.

Definition acts_cost (K : nat) (x : value) : nat :=
  match x with
  | VStr _ => S K
  | VList l => S (length l * K)
  | _ => 1
  end.

Definition lift_dict (r : res (list (str * value))) : res value := match r with Ok d => Ok (VDict d) | Err e => Err e end.
Definition lift_list (r : res (list value)) : res value := match r with Ok l => Ok (VList l) | Err e => Err e end.

Fixpoint expand_tree_c (guard : bool) (exp : bool -> list str -> list str) (K : nat) (v : value) {struct v} : res value * nat :=
  match v with
  | VDict d =>
      let rc := (fix go (d : list (str * value)) : res (list (str * value)) * nat :=
                   match d with
                   | [] => (Ok [], 0)
                   | (k, x) :: rest =>
                       let rx := match x with
                                 | VNull => (Ok VNull, 1)
                                 | _ => if (str_eqb k K_Action || str_eqb k K_NotAction) && negb (guard && negb (action_value_ok x))
                                        then (expand_acts exp (str_eqb k K_NotAction) x, acts_cost K x)
                                        else expand_tree_c guard exp K x
                                 end in
                       match fst rx with
                       | Err e => (Err e, snd rx)                        (* the exception stops the walk *)
                       | Ok x' => let rr := go rest in
                                  (match fst rr with Ok r' => Ok ((k, x') :: r') | Err e => Err e end, snd rx + snd rr)
                       end
                   end) d in
      (lift_dict (fst rc), S (snd rc))
  | VList l =>
      let rc := (fix go (l : list value) : res (list value) * nat :=
                   match l with
                   | [] => (Ok [], 0)
                   | x :: rest =>
                       let rx := expand_tree_c guard exp K x in
                       match fst rx with
                       | Err e => (Err e, snd rx)
                       | Ok x' => let rr := go rest in
                                  (match fst rr with Ok r' => Ok (x' :: r') | Err e => Err e end, snd rx + snd rr)
                       end
                   end) l in
      (lift_list (fst rc), S (snd rc))
  | _ => (Ok v, 1)
  end.

(* named inner loops *)
Definition etc_entry guard exp K (k : str) (x : value) : res value * nat :=
  match x with
  | VNull => (Ok VNull, 1)
  | _ => if (str_eqb k K_Action || str_eqb k K_NotAction) && negb (guard && negb (action_value_ok x))
         then (expand_acts exp (str_eqb k K_NotAction) x, acts_cost K x)
         else expand_tree_c guard exp K x
  end.
Definition etc_dict guard exp K : list (str * value) -> res (list (str * value)) * nat :=
  fix go (d : list (str * value)) : res (list (str * value)) * nat :=
    match d with
    | [] => (Ok [], 0)
    | (k, x) :: rest =>
        let rx := etc_entry guard exp K k x in
        match fst rx with
        | Err e => (Err e, snd rx)
        | Ok x' => let rr := go rest in
                   (match fst rr with Ok r' => Ok ((k, x') :: r') | Err e => Err e end, snd rx + snd rr)
        end
    end.
Definition etc_list guard exp K : list value -> res (list value) * nat :=
  fix go (l : list value) : res (list value) * nat :=
    match l with
    | [] => (Ok [], 0)
    | x :: rest =>
        let rx := expand_tree_c guard exp K x in
        match fst rx with
        | Err e => (Err e, snd rx)
        | Ok x' => let rr := go rest in
                   (match fst rr with Ok r' => Ok (x' :: r') | Err e => Err e end, snd rx + snd rr)
        end
    end.

Lemma length_le_sizes l : length l <= list_sum (map vsize l).
Proof. induction l as [|x xs IH]; simpl; [lia|]. pose proof (vsize_pos x). lia. Qed.

Lemma acts_cost_bound K x : acts_cost K x <= (K + 1) * vsize x.
Proof.
  destruct x; try (simpl; lia). rewrite vsize_list. pose proof (length_le_sizes l). simpl acts_cost. nia.
Qed.

(* an instrumented step: the result of the plain step, within a bound *)
Definition costs {A} (rc : res A * nat) (r : res A) (n : nat) : Prop := fst rc = r /\ snd rc <= n.
(* two steps in sequence, the second skipped when the first raises *)
Lemma costs_pair {A B C} (f : A -> B -> C) (rx : res A * nat) (rr : res B * nat) r1 n1 r2 n2 :
  costs rx r1 n1 -> costs rr r2 n2 ->
  costs (match fst rx with
         | Err e => (Err e, snd rx)
         | Ok a => (match fst rr with Ok b => Ok (f a b) | Err e => Err e end, snd rx + snd rr)
         end)
        (a <- r1 ;; b <- r2 ;; Ok (f a b)) (n1 + n2).
Proof. intros [<- H1] [<- H2]. destruct (fst rx); [destruct (fst rr)|]; split; simpl; try reflexivity; lia. Qed.
(* one more step around a step: the node that holds a list or an object *)
Lemma costs_map {A B} (f : A -> B) (rc : res A * nat) r n m : costs rc r n -> S n <= m ->
  costs (match fst rc with Ok a => Ok (f a) | Err e => Err e end, S (snd rc)) (a <- r ;; Ok (f a)) m.
Proof. intros [<- H] Hm. split; [destruct (fst rc); reflexivity | simpl; lia]. Qed.

Section Facts.
Variables (guard : bool) (exp : bool -> list str -> list str) (K : nat).
Definition CostAt (v : value) : Prop := costs (expand_tree_c guard exp K v) (expand_tree guard exp v) ((K + 1) * vsize v).

Lemma etc_list_spec l : Forall CostAt l -> costs (etc_list guard exp K l) (et_list guard exp l) ((K + 1) * list_sum (map vsize l)).
Proof.
  induction 1 as [|x xs Hx _ IH]; [split; [reflexivity | simpl; lia]|].
  cbn [map list_sum fold_right]. rewrite Nat.mul_add_distr_l. exact (costs_pair cons _ _ _ _ _ _ Hx IH).
Qed.
Lemma etc_entry_spec k x : CostAt x -> costs (etc_entry guard exp K k x) (et_entry guard exp k x) ((K + 1) * vsize x).
Proof.
  intros Hx. unfold etc_entry, et_entry.
  destruct ((str_eqb k K_Action || str_eqb k K_NotAction) && negb (guard && negb (action_value_ok x))).
  - destruct x; (split; [reflexivity|]); first [apply acts_cost_bound | simpl; lia].
  - destruct x; first [exact Hx | split; [reflexivity | simpl; lia]].
Qed.
Lemma etc_dict_spec d : Forall (fun kv => CostAt (snd kv)) d -> costs (etc_dict guard exp K d) (et_dict guard exp d) ((K + 1) * list_sum (map (fun kv => vsize (snd kv)) d)).
Proof.
  induction 1 as [|[k x] xs Hx _ IH]; [split; [reflexivity | simpl; lia]|].
  cbn [map list_sum fold_right snd]. rewrite Nat.mul_add_distr_l.
  exact (costs_pair (fun a b => (k, a) :: b) _ _ _ _ _ _ (etc_entry_spec k x Hx) IH).
Qed.
(* the instrumented walk computes what the plain walk computes, in at most (K + 1) steps per node *)
Theorem expand_tree_c_spec v : CostAt v.
Proof.
  induction v as [| | | | | | l IH | d IH] using value_ind'; try (split; [reflexivity | simpl; lia]).
  - refine (costs_map VList _ _ _ _ (etc_list_spec l IH) _). rewrite vsize_list. lia.
  - refine (costs_map VDict _ _ _ _ (etc_dict_spec d IH) _). rewrite vsize_dict. lia.
Qed.
End Facts.

(* a typed atom costs one step whatever it denotes: a /4 network and a /32 network are the same to the walk *)
Theorem typed_atom_unit_cost guard exp K k text : snd (expand_tree_c guard exp K (VTyped k text)) = 1.
Proof. reflexivity. Qed.
