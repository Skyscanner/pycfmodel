(* C05, cost of the resolver: [resolve] (Resolver/Resolve.v, the model of pycfmodel/resolver.py) instrumented
   with a step counter, the proof that the instrumentation does not change the result, and bounds on the counter
   that mention SIZES only (nodes and characters of the expression, of the parameter values and of the mappings),
   never the magnitude of a number, the width of a CIDR block or the distance of a date.

   The counter is a [nat] carried next to the result: [cres A = res A * nat].  It is defined on error runs too
   (the steps made until the exception).

   COST RULES (each is repeated next to the Python line it stands for, below).
     R1  every [value] node that [resolve] is called on costs 1: None, str, bool, int / float / date / IP network
         (ONE step: `str(function)` -- the text of a network does not depend on how many addresses it holds),
         bytes, a list, an object.  A dict entry costs 1 more (the `for k, v in function.items()` iteration).
     R2  Ref / Fn::ImportValue: `resolve(params[resolved_ref], ...)` walks the parameter value: [vsize] of it.
     R3  Fn::FindInMap: `deepcopy(resolved_mapping)` walks the leaf: [vsize] of it.  The case-blind fallback of
         `_mapping_get` (a key "true" / "false" that is not in the mapping level as written: `for candidate, value in
         mapping.items(): candidate.lower() == key`) is a SCAN, not a dict lookup: 1 + the candidate's characters for
         every entry visited, until the first spelling found ([lookup_bk_cost]).
     R4  Fn::Sub: `SUB_PLACEHOLDER.sub(replace, text)` scans the text: [length text]; each `${name}` bound to a
         parameter costs [vsize] of the parameter value (`resolve(replacements[name], ...)`).
     R5  (charges that depend on an INTERMEDIATE result, multiplied by the weight [w], see below)
         Fn::Join: the length of the produced text; Fn::Split: the length of the consumed text; Fn::Base64: the
         length of the encoded text; Fn::Sub with a variable map: [vsize] of the (already resolved) custom value
         that a placeholder inserts.
     not charged beyond the node's 1: the f-strings `UNDEFINED_PARAM_...` / `UNDEFINED_MAPPING_...`, `int(...)` of
     Fn::Select, `==` of Fn::Equals, `_extended_bool`, `.lower()` / the SSM regex on a leaf (linear in that leaf's
     own text, which [tsize] counts; charging them changes constants only), the dict lookups.

   THE WEIGHT [w].  [resolve_c 1] is the full cost, [resolve_c 0] is the cost without the R5 charges ("walk
   cost": nodes visited, parameter / mapping nodes copied, template characters scanned).  What is proved:
     * [resolve_c_result]      for all w e v:  fst (resolve_c w e v) = resolve e v.
     * [resolve_c_bound_refs]  for all e v, if  w = 0  or  [light v] (no Fn::Join, Fn::Split, Fn::Base64, no
                               Fn::Sub with a variable map anywhere in v):
                                  snd (resolve_c w e v) <= tsize v + refs v * psize e
                               where [refs v] counts the Ref / Fn::ImportValue / Fn::FindInMap objects and the
                               ${name} placeholders of the Fn::Sub texts of v, and, since refs v <= tsize v,
       [resolve_c_bound]          snd (resolve_c w e v) <= tsize v * (1 + psize e).
       [tsize] counts nodes and characters (an integer: its digits; a network: the characters of its text), [psize]
       is [tsize] summed over the parameter values and the mappings.  No magnitude occurs in either.
       The bound is MULTIPLICATIVE because every Ref and every Fn::Sub placeholder may copy a whole parameter
       value: ten `{"Ref": "L"}` copy L ten times (example [cx_multiplicative]).
     * [resolve_resources_c], [resolve_resources_c_bound]: the same for the resources of a template (the sum).
     * NO polynomial bound of the full cost (w = 1) exists for all expressions, and none is claimed: the R5 charges
       are the sizes of intermediate TEXTS, and those grow geometrically with the nesting depth --
       `{"Fn::Join": [{"Fn::Join": [{"Ref": "S"}, {"Ref": "L"}]}, {"Ref": "L"}]}` more than doubles its text at each
       level: lemmas [cx_jn_tsize], [cx_jn_run] (18 more characters of template per level, cost >= 2^depth);
       `{"Fn::Sub": ["${a}${a}", {"a": ...}]}` doubles it too (example [cx_sub_blowup_12]).  That growth is the
       function's specified OUTPUT size (CloudFormation itself produces that text); it is a function of sizes and
       nesting only -- no rule above looks at a magnitude -- but it is not polynomial.  What is missing for the full
       cost of non-light expressions is therefore an (exponential-in-nesting) bound on the sizes of intermediate
       results; it needs length lemmas for b64encode / utf8 / join / split / render_str and is not proved here. *)
From Coq Require Import List Bool NArith ZArith Lia.
From PV Require Import Base.Str Base.ListFacts Base.Value Resolver.Consts Resolver.Text Resolver.Resolve Resolver.Spec Resolver.Template
  Resolver.SubSpec.
Import ListNotations.
Local Open Scope nat_scope.

(* results with a step counter *)
Definition cres (A : Type) : Type := (res A * nat)%type.
Definition cbind {A B} (r : cres A) (f : A -> cres B) : cres B :=
  match r with
  | (Ok a, n) => (fst (f a), n + snd (f a))
  | (Err e, n) => (Err e, n)                 (* the exception stops the walk; the steps made so far stay *)
  end.
Notation "x <~ r ;; k" := (cbind r (fun x => k)) (at level 61, r at next level, right associativity).
Definition tick {A} (n : nat) (r : cres A) : cres A := (fst r, n + snd r).
Definition pure {A} (r : res A) : cres A := (r, 0).

(* sizes: nodes AND characters *)
Fixpoint tsize (v : value) : nat :=
  match v with
  | VNull | VBool _ => 1
  | VInt z => 1 + length (str_of_Z z)              (* the digits, not the magnitude *)
  | VStr s => 1 + length s
  | VTyped _ t => 1 + length t                     (* "10.0.0.0/8": 10 characters *)
  | VBytes b => 1 + length b
  | VList l => S (fold_right (fun x acc => tsize x + acc) 0 l)
  | VDict d => S (fold_right (fun kv acc => S (length (fst kv)) + tsize (snd kv) + acc) 0 d)
  end.
Definition dtsize (d : list (str * value)) : nat := fold_right (fun kv acc => tsize (snd kv) + acc) 0 d.
(* size of the environment: all parameter values and all mappings *)
Definition psize (e : env) : nat := dtsize (params e) + dtsize (mappings e).

(* R2: resolve_ref *)
Definition do_ref_cost (e : env) (b : value) : nat :=
  match b with
  | VStr s =>
      match lookup s (params e) with
      | Some x => vsize x          (* return resolve(params[resolved_ref], params, mappings, conditions) *)
      | None => 0                  (* return f"UNDEFINED_PARAM_{resolved_ref}" *)
      end
  | _ => 0
  end.
(* R3: resolve_find_in_map *)
(* `for candidate, value in mapping.items(): if isinstance(candidate, str) and candidate.lower() == key: return value` *)
Fixpoint ci_scan_cost {A} (k : str) (d : list (str * A)) : nat :=
  match d with
  | [] => 0
  | (k', _) :: d' => S (length k') + (if str_eqb (lower k') k then 0 else ci_scan_cost k d')
  end.
(* `if key in mapping: return mapping[key]` is a dict lookup (not charged); the scan runs only for "true" / "false" not found *)
Definition lookup_bk_cost {A} (k : str) (d : list (str * A)) : nat :=
  match lookup k d with
  | Some _ => 0
  | None => if is_bool_text k then ci_scan_cost k d else 0
  end.
Definition find_in_map_scan_cost (e : env) (m k1 k2 : value) : nat :=
  match m, k1, k2 with
  | VStr ms, VStr s1, VStr s2 =>
      match lookup ms (mappings e) with
      | Some (VDict top) =>
          lookup_bk_cost s1 top +
          match lookup_bk s1 top with Some (VDict snd_) => lookup_bk_cost s2 snd_ | _ => 0 end
      | _ => 0
      end
  | _, _, _ => 0
  end.
Definition do_find_in_map_cost (e : env) (m k1 k2 : value) : nat :=
  find_in_map_scan_cost e m k1 k2 +
  match do_find_in_map e m k1 k2 with
  | Ok leaf => vsize leaf          (* return deepcopy(resolved_mapping)   (1 for the UNDEFINED_MAPPING text) *)
  | Err _ => 0
  end.
(* R5 *)
Definition do_join_cost (d l : value) : nat :=
  match do_join d l with
  | Ok (VStr t) => length t        (* return resolved_delimiter.join(str(e) for e in resolved_list) *)
  | _ => 0
  end.
Definition do_split_cost (d s : value) : nat :=
  match s with
  | VStr ss => length ss           (* return resolved_source_string.split(resolved_delimiter) *)
  | _ => 0
  end.
Definition do_base64_cost (b : value) : nat :=
  match b with
  | VStr s => length s             (* b64encode(resolved_string.encode("utf-8")) *)
  | _ => 0
  end.

(* R4 / R5: resolve_sub.replace, one placeholder *)
Definition render_var_cost (w : nat) (e : env) (custom : list (str * value)) (name : str) : nat :=
  match lookup name custom with
  | Some x => w * vsize x          (* replacements.update(resolve(custom_replacements, ...)): an intermediate value *)
  | None =>
      match lookup name (params e) with
      | Some x => vsize x          (* return str(resolve(replacements[name], params, mappings, conditions)) *)
      | None => 0                  (* return match.group(0) *)
      end
  end.
Definition render_tok_c (w : nat) (e : env) (custom : list (str * value)) (t : stok) : cres str :=
  (render_tok e custom t, match t with TVar name => render_var_cost w e custom name | _ => 0 end).
Fixpoint render_toks_c (w : nat) (e : env) (custom : list (str * value)) (ts : list stok) : cres str :=
  match ts with
  | [] => pure (Ok [])
  | t :: r => a <~ render_tok_c w e custom t ;; b <~ render_toks_c w e custom r ;; pure (Ok (a ++ b))
  end.
Definition do_sub_c (w : nat) (e : env) (text : str) (custom : list (str * value)) : cres value :=
  (* return SUB_PLACEHOLDER.sub(replace, text): one left-to-right scan of the text *)
  tick (length text) (s <~ render_toks_c w e custom (sub_tokens text) ;; pure (Ok (VStr s))).

(* the instrumented resolver: same shape as [resolve], line by line *)
Fixpoint resolve_c (w : nat) (e : env) (v : value) {struct v} : cres value :=
  match v with
  | VList l =>
      (* for entry in function: resolved_value = resolve(entry, ...)            R1: 1 for the list *)
      tick 1 (
      l' <~ (fix go (l : list value) : cres (list value) :=
               match l with
               | [] => pure (Ok [])
               | x :: xs => x' <~ resolve_c w e x ;; xs' <~ go xs ;;
                            pure (Ok (if is_novalue x' then xs' else x' :: xs'))
               end) l ;;
      pure (Ok (VList l')))
  | VDict d =>
      let generic :=
        (* for k, v in function.items(): resolved_value = resolve(v, ...)       R1: 1 per entry *)
        d' <~ (fix go (d : list (str * value)) : cres (list (str * value)) :=
                 match d with
                 | [] => pure (Ok [])
                 | (k, x) :: xs => x' <~ tick 1 (resolve_c w e x) ;; xs' <~ go xs ;;
                                   pure (Ok (if is_novalue x' then xs' else (k, x') :: xs'))
                 end) d ;;
        pure (Ok (VDict d')) in
      (* R1: 1 for the object (is_resolvable_dict, FUNCTION_MAPPINGS[function_name]) *)
      tick 1 (
      match d with
      | [(k, body)] =>
          if str_eqb k K_Ref || str_eqb k K_ImportValue then
            (* resolve_ref: resolved_ref = resolve(function_body, ...)          R2 *)
            b <~ resolve_c w e body ;; (do_ref e b, do_ref_cost e b)
          else if str_eqb k K_Join then
            match body with
            | VList [dl; l] =>
                (* resolve_join                                                 R5: w * produced text *)
                d' <~ resolve_c w e dl ;; l' <~ resolve_c w e l ;; (do_join d' l', w * do_join_cost d' l')
            | VList _ => pure (Err EValue)
            | _ => pure (Err EUndefined)
            end
          else if str_eqb k K_Split then
            match body with
            | VList [dl; s] =>
                (* resolve_split                                                R5: w * consumed text *)
                d' <~ resolve_c w e dl ;; s' <~ resolve_c w e s ;; (do_split d' s', w * do_split_cost d' s')
            | VList _ => pure (Err EValue)
            | _ => pure (Err EUndefined)
            end
          else if str_eqb k K_Select then
            match body with
            | VList [i; l] =>
                (* resolve_select: int(...), resolved_list[resolved_index]      no charge *)
                i' <~ resolve_c w e i ;; l' <~ resolve_c w e l ;; pure (do_select i' l')
            | VList _ => pure (Err EValue)
            | _ => pure (Err EUndefined)
            end
          else if str_eqb k K_FindInMap then
            match body with
            | VList [m; k1; k2] =>
                (* resolve_find_in_map                                          R3 *)
                m' <~ resolve_c w e m ;; k1' <~ resolve_c w e k1 ;; k2' <~ resolve_c w e k2 ;;
                (do_find_in_map e m' k1' k2', do_find_in_map_cost e m' k1' k2')
            | VList _ => pure (Err EValue)
            | _ => pure (Err EUndefined)
            end
          else if str_eqb k K_Sub then
            match body with
            | VStr text => do_sub_c w e text []                              (* R4 *)
            | VList [VStr text; vars] =>
                (* replacements.update(resolve(custom_replacements, ...))       R4 + R5 *)
                cv <~ resolve_c w e vars ;;
                match cv with VDict custom => do_sub_c w e text custom | _ => pure (Err EUndefined) end
            | VList [_; _] => pure (Err EUndefined)
            | VList _ => pure (Err EValue)
            | _ => pure (Err EUndefined)
            end
          else if str_eqb k K_Base64 then
            (* resolve_base64                                                   R5: w * encoded text *)
            b <~ resolve_c w e body ;; (do_base64 b, w * do_base64_cost b)
          else if str_eqb k K_GetAtt then pure (Ok (VStr S_GETATT))          (* body not visited *)
          else if str_eqb k K_GetAZs then pure (Ok (VStr S_GETAZS))          (* body not visited *)
          else if str_eqb k K_Condition then
            match body with
            | VStr name => pure (b <- conds e name ;; Ok (VBool b))          (* conditions.get(function_body, False) *)
            | _ => pure (Err EUndefined)
            end
          else if str_eqb k K_If then
            match body with
            | VList [VStr c; t; f] =>
                (* resolve_if: only the chosen branch is visited *)
                b <~ pure (conds e c) ;; if b then resolve_c w e t else resolve_c w e f
            | VList [_; _; _] => pure (Err EUndefined)
            | VList _ => pure (Err EValue)
            | _ => pure (Err EUndefined)
            end
          else if str_eqb k K_And then
            match body with
            | VList parts =>
                (* all(_extended_bool(resolve(part, ...)) for part in function_body): stops at the first False *)
                b <~ (fix all_go (l : list value) : cres bool :=
                        match l with
                        | [] => pure (Ok true)
                        | x :: xs => r <~ resolve_c w e x ;; b <~ pure (ext_bool r) ;; if b then all_go xs else pure (Ok false)
                        end) parts ;;
                pure (Ok (VBool b))
            | _ => pure (Err EUndefined)
            end
          else if str_eqb k K_Or then
            match body with
            | VList parts =>
                b <~ (fix any_go (l : list value) : cres bool :=
                        match l with
                        | [] => pure (Ok false)
                        | x :: xs => r <~ resolve_c w e x ;; b <~ pure (ext_bool r) ;; if b then pure (Ok true) else any_go xs
                        end) parts ;;
                pure (Ok (VBool b))
            | _ => pure (Err EUndefined)
            end
          else if str_eqb k K_Not then
            match body with
            | VList (x :: _) => r <~ resolve_c w e x ;; pure (b <- ext_bool r ;; Ok (VBool (negb b)))
            | VList [] => pure (Err EIndex)
            | _ => pure (Err EUndefined)
            end
          else if str_eqb k K_Equals then
            match body with
            | VList [a; b] => a' <~ resolve_c w e a ;; b' <~ resolve_c w e b ;; pure (r <- py_eq a' b' ;; Ok (VBool r))
            | VList _ => pure (Err EValue)
            | _ => pure (Err EUndefined)
            end
          else generic
      | _ => generic
      end)
  (* R1: a leaf is one step, whatever it denotes *)
  | VNull => (Ok VNull, 1)                                   (* if function is None: return function *)
  | VBool b => (Ok (VStr (bool_text b)), 1)                  (* return "true" if function else "false" *)
  | VInt z => (Ok (VStr (str_of_Z z)), 1)                    (* return str(function) *)
  | VStr s => (Ok (VStr (render_str (params e) s)), 1)       (* SSM prefix match / function.lower() in [...] *)
  | VTyped _ t => (Ok (VStr t), 1)                           (* return str(function): date, IPv4Network, ... *)
  | VBytes b => (Ok (VStr (b64encode b)), 1)                 (* return str(b64encode(function), "utf-8") *)
  end.

Definition clist (w : nat) (e : env) : list value -> cres (list value) :=
  fix go (l : list value) : cres (list value) :=
    match l with
    | [] => pure (Ok [])
    | x :: xs => x' <~ resolve_c w e x ;; xs' <~ go xs ;; pure (Ok (if is_novalue x' then xs' else x' :: xs'))
    end.
Definition cdict (w : nat) (e : env) : list (str * value) -> cres (list (str * value)) :=
  fix go (d : list (str * value)) : cres (list (str * value)) :=
    match d with
    | [] => pure (Ok [])
    | (k, x) :: xs => x' <~ tick 1 (resolve_c w e x) ;; xs' <~ go xs ;;
                      pure (Ok (if is_novalue x' then xs' else (k, x') :: xs'))
    end.
Definition c_all (w : nat) (e : env) : list value -> cres bool :=
  fix all_go (l : list value) : cres bool :=
    match l with
    | [] => pure (Ok true)
    | x :: xs => r <~ resolve_c w e x ;; b <~ pure (ext_bool r) ;; if b then all_go xs else pure (Ok false)
    end.
Definition c_any (w : nat) (e : env) : list value -> cres bool :=
  fix any_go (l : list value) : cres bool :=
    match l with
    | [] => pure (Ok false)
    | x :: xs => r <~ resolve_c w e x ;; b <~ pure (ext_bool r) ;; if b then pure (Ok true) else any_go xs
    end.

Lemma rc_list w e l : resolve_c w e (VList l) = tick 1 (l' <~ clist w e l ;; pure (Ok (VList l'))).
Proof. reflexivity. Qed.
Lemma rc_dict_generic w e d : is_fn_dict d = false ->
  resolve_c w e (VDict d) = tick 1 (d' <~ cdict w e d ;; pure (Ok (VDict d'))).
Proof.
  intros H. destruct d as [|[k body] [|kv2 rest]]; try reflexivity.
  cbn [resolve_c]. rewrite !(not_fn_key k _ H) by (apply mem_str_In; reflexivity). reflexivity.
Qed.
Lemma rc_ref_import w e k body : k = K_Ref \/ k = K_ImportValue ->
  resolve_c w e (VDict [(k, body)]) = tick 1 (b <~ resolve_c w e body ;; (do_ref e b, do_ref_cost e b)).
Proof. intros [-> | ->]; reflexivity. Qed.
Lemma rc_join w e dl l : resolve_c w e (VDict [(K_Join, VList [dl; l])]) =
  tick 1 (d' <~ resolve_c w e dl ;; l' <~ resolve_c w e l ;; (do_join d' l', w * do_join_cost d' l')).
Proof. reflexivity. Qed.
Lemma rc_split w e dl s : resolve_c w e (VDict [(K_Split, VList [dl; s])]) =
  tick 1 (d' <~ resolve_c w e dl ;; s' <~ resolve_c w e s ;; (do_split d' s', w * do_split_cost d' s')).
Proof. reflexivity. Qed.
Lemma rc_select w e i l : resolve_c w e (VDict [(K_Select, VList [i; l])]) =
  tick 1 (i' <~ resolve_c w e i ;; l' <~ resolve_c w e l ;; pure (do_select i' l')).
Proof. reflexivity. Qed.
Lemma rc_find_in_map w e m k1 k2 : resolve_c w e (VDict [(K_FindInMap, VList [m; k1; k2])]) =
  tick 1 (m' <~ resolve_c w e m ;; k1' <~ resolve_c w e k1 ;; k2' <~ resolve_c w e k2 ;;
          (do_find_in_map e m' k1' k2', do_find_in_map_cost e m' k1' k2')).
Proof. reflexivity. Qed.
Lemma rc_sub_text w e text : resolve_c w e (VDict [(K_Sub, VStr text)]) = tick 1 (do_sub_c w e text []).
Proof. reflexivity. Qed.
Lemma rc_sub_vars w e text vars : resolve_c w e (VDict [(K_Sub, VList [VStr text; vars])]) =
  tick 1 (cv <~ resolve_c w e vars ;; match cv with VDict custom => do_sub_c w e text custom | _ => pure (Err EUndefined) end).
Proof. reflexivity. Qed.
Lemma rc_base64 w e body : resolve_c w e (VDict [(K_Base64, body)]) = tick 1 (b <~ resolve_c w e body ;; (do_base64 b, w * do_base64_cost b)).
Proof. reflexivity. Qed.
Lemma rc_getatt w e body : resolve_c w e (VDict [(K_GetAtt, body)]) = (Ok (VStr S_GETATT), 1).
Proof. reflexivity. Qed.
Lemma rc_getazs w e body : resolve_c w e (VDict [(K_GetAZs, body)]) = (Ok (VStr S_GETAZS), 1).
Proof. reflexivity. Qed.
Lemma rc_condition w e name : resolve_c w e (VDict [(K_Condition, VStr name)]) = (b <- conds e name ;; Ok (VBool b), 1).
Proof. reflexivity. Qed.
Lemma rc_if w e c t f : resolve_c w e (VDict [(K_If, VList [VStr c; t; f])]) =
  tick 1 (b <~ pure (conds e c) ;; if b then resolve_c w e t else resolve_c w e f).
Proof. reflexivity. Qed.
Lemma rc_and w e parts : resolve_c w e (VDict [(K_And, VList parts)]) = tick 1 (b <~ c_all w e parts ;; pure (Ok (VBool b))).
Proof. reflexivity. Qed.
Lemma rc_or w e parts : resolve_c w e (VDict [(K_Or, VList parts)]) = tick 1 (b <~ c_any w e parts ;; pure (Ok (VBool b))).
Proof. reflexivity. Qed.
Lemma rc_not w e x rest : resolve_c w e (VDict [(K_Not, VList (x :: rest))]) =
  tick 1 (r <~ resolve_c w e x ;; pure (b <- ext_bool r ;; Ok (VBool (negb b)))).
Proof. reflexivity. Qed.
Lemma rc_equals w e a b : resolve_c w e (VDict [(K_Equals, VList [a; b])]) =
  tick 1 (a' <~ resolve_c w e a ;; b' <~ resolve_c w e b ;; pure (r <- py_eq a' b' ;; Ok (VBool r))).
Proof. reflexivity. Qed.
(* an ill-shaped call raises at once: the object's own step only *)
Lemma rc_ill w e k body er : ill_call k body er -> resolve_c w e (VDict [(k, body)]) = (Err er, 1).
Proof. intros H. ill_shapes H; reflexivity. Qed.

Lemma clist_cons w e x xs : clist w e (x :: xs) =
  (x' <~ resolve_c w e x ;; xs' <~ clist w e xs ;; pure (Ok (if is_novalue x' then xs' else x' :: xs'))).
Proof. reflexivity. Qed.
Lemma cdict_cons w e k x xs : cdict w e ((k, x) :: xs) =
  (x' <~ tick 1 (resolve_c w e x) ;; xs' <~ cdict w e xs ;; pure (Ok (if is_novalue x' then xs' else (k, x') :: xs'))).
Proof. reflexivity. Qed.
Lemma c_all_cons w e x xs : c_all w e (x :: xs) =
  (r <~ resolve_c w e x ;; b <~ pure (ext_bool r) ;; if b then c_all w e xs else pure (Ok false)).
Proof. reflexivity. Qed.
Lemma c_any_cons w e x xs : c_any w e (x :: xs) =
  (r <~ resolve_c w e x ;; b <~ pure (ext_bool r) ;; if b then pure (Ok true) else c_any w e xs).
Proof. reflexivity. Qed.

(* the instrumentation does not change the result *)
Lemma fst_cbind {A B} (r : cres A) (f : A -> cres B) r0 g :
  fst r = r0 -> (forall a, fst (f a) = g a) -> fst (cbind r f) = bind r0 g.
Proof. intros <- H. destruct r as [[a|err] n]; [apply H | reflexivity]. Qed.
Lemma fst_tick {A} n (r : cres A) : fst (tick n r) = fst r.
Proof. reflexivity. Qed.

Lemma render_toks_c_fst w e custom ts : fst (render_toks_c w e custom ts) = render_toks e custom ts.
Proof.
  induction ts as [|t r IH]; [reflexivity|].
  cbn [render_toks_c render_toks]. apply fst_cbind; [reflexivity|]. intros a. apply fst_cbind; [exact IH | reflexivity].
Qed.
Lemma do_sub_c_fst w e text custom : fst (do_sub_c w e text custom) = do_sub e text custom.
Proof. unfold do_sub_c, do_sub. rewrite fst_tick. apply fst_cbind; [apply render_toks_c_fst | reflexivity]. Qed.

Section ResultLists.
Variables (w : nat) (e : env).
Definition FstAt (v : value) : Prop := fst (resolve_c w e v) = resolve e v.
Lemma clist_fst l : Forall FstAt l -> fst (clist w e l) = rlist e l.
Proof.
  induction 1 as [|x xs Hx Hxs IH]; [reflexivity|].
  rewrite clist_cons, rlist_cons. apply fst_cbind; [exact Hx|]. intros x'. apply fst_cbind; [exact IH | reflexivity].
Qed.
Lemma cdict_fst d : Forall (fun kv => FstAt (snd kv)) d -> fst (cdict w e d) = rdict e d.
Proof.
  induction 1 as [|[k x] xs Hx Hxs IH]; [reflexivity|].
  rewrite cdict_cons, rdict_cons. apply fst_cbind; [exact Hx|]. intros x'. apply fst_cbind; [exact IH | reflexivity].
Qed.
Lemma c_all_fst l : Forall FstAt l -> fst (c_all w e l) = rall e l.
Proof.
  induction 1 as [|x xs Hx Hxs IH]; [reflexivity|].
  rewrite c_all_cons, rall_cons. apply fst_cbind; [exact Hx|]. intros r. apply fst_cbind; [reflexivity|].
  intros [|]; [exact IH | reflexivity].
Qed.
Lemma c_any_fst l : Forall FstAt l -> fst (c_any w e l) = rany e l.
Proof.
  induction 1 as [|x xs Hx Hxs IH]; [reflexivity|].
  rewrite c_any_cons, rany_cons. apply fst_cbind; [exact Hx|]. intros r. apply fst_cbind; [reflexivity|].
  intros [|]; [reflexivity | exact IH].
Qed.
End ResultLists.

Theorem resolve_c_result w e : forall v, fst (resolve_c w e v) = resolve e v.
Proof.
  apply resolve_ind.
  - intros [] Hv; try contradiction; reflexivity.
  - intros l IH. rewrite rc_list, resolve_list, fst_tick. apply fst_cbind; [apply clist_fst, IH | reflexivity].
  - intros d Hf IH. rewrite rc_dict_generic, resolve_dict_generic, fst_tick by assumption.
    apply fst_cbind; [apply cdict_fst, IH | reflexivity].
  - intros k body Hk IH. rewrite rc_ref_import, resolve_ref_import, fst_tick by assumption. apply fst_cbind; [exact IH | reflexivity].
  - intros dl l IH1 IH2. rewrite rc_join, resolve_join, fst_tick.
    apply fst_cbind; [exact IH1|]. intros d'. apply fst_cbind; [exact IH2 | reflexivity].
  - intros dl s IH1 IH2. rewrite rc_split, resolve_split, fst_tick.
    apply fst_cbind; [exact IH1|]. intros d'. apply fst_cbind; [exact IH2 | reflexivity].
  - intros i l IH1 IH2. rewrite rc_select, resolve_select, fst_tick.
    apply fst_cbind; [exact IH1|]. intros i'. apply fst_cbind; [exact IH2 | reflexivity].
  - intros m k1 k2 IH1 IH2 IH3. rewrite rc_find_in_map, resolve_find_in_map, fst_tick.
    apply fst_cbind; [exact IH1|]. intros m'. apply fst_cbind; [exact IH2|]. intros k1'. apply fst_cbind; [exact IH3 | reflexivity].
  - intros text. apply do_sub_c_fst.
  - intros text vars IH _. rewrite rc_sub_vars, resolve_sub_vars, fst_tick. apply fst_cbind; [exact IH|].
    intros []; try reflexivity. apply do_sub_c_fst.
  - intros body IH. rewrite rc_base64, resolve_base64, fst_tick. apply fst_cbind; [exact IH | reflexivity].
  - reflexivity.
  - reflexivity.
  - reflexivity.
  - intros c t f IH1 IH2. rewrite rc_if, resolve_if, fst_tick. apply fst_cbind; [reflexivity|]. intros [|]; assumption.
  - intros parts IH. rewrite rc_and, resolve_and, fst_tick. apply fst_cbind; [apply c_all_fst, IH | reflexivity].
  - intros parts IH. rewrite rc_or, resolve_or, fst_tick. apply fst_cbind; [apply c_any_fst, IH | reflexivity].
  - intros x rest IH. rewrite rc_not, resolve_not, fst_tick. apply fst_cbind; [exact IH | reflexivity].
  - intros a b IH1 IH2. rewrite rc_equals, resolve_equals, fst_tick.
    apply fst_cbind; [exact IH1|]. intros a'. apply fst_cbind; [exact IH2 | reflexivity].
  - intros k body er H. rewrite (rc_ill w e k body er H), (resolve_ill e k body er H). reflexivity.
Qed.

Definition ltsize (l : list value) : nat := fold_right (fun x acc => tsize x + acc) 0 l.
Definition dksize (d : list (str * value)) : nat := fold_right (fun kv acc => S (length (fst kv)) + tsize (snd kv) + acc) 0 d.
Lemma tsize_list l : tsize (VList l) = S (ltsize l). Proof. reflexivity. Qed.
Lemma tsize_dict d : tsize (VDict d) = S (dksize d). Proof. reflexivity. Qed.
Lemma ltsize_in x l : In x l -> tsize x <= ltsize l.
Proof. induction l as [|y l IH]; simpl; [tauto|]. intros [->|H]; [lia|]. specialize (IH H). lia. Qed.

Lemma vsize_le_tsize v : vsize v <= tsize v.
Proof.
  induction v as [| | | | | | l IH | d IH] using value_ind'; try (simpl; lia).
  - rewrite tsize_list. cbn [vsize]. apply le_n_S. induction IH as [|x xs Hx Hxs IH']; simpl; [lia|]. fold (ltsize xs). lia.
  - rewrite tsize_dict. cbn [vsize]. apply le_n_S. induction IH as [|[k x] xs Hx Hxs IH']; simpl; [lia|]. simpl in Hx. fold (dksize xs). lia.
Qed.
Lemma lookup_dtsize k d x : lookup k d = Some x -> tsize x <= dtsize d.
Proof.
  induction d as [|[k' y] d IH]; simpl; [discriminate|].
  destruct (str_eqb k k'); [intros H; inv H; lia | intros H; specialize (IH H); lia].
Qed.
Lemma lookup_dksize k d x : lookup k d = Some x -> tsize x <= dksize d.
Proof.
  induction d as [|[k' y] d IH]; simpl; [discriminate|].
  destruct (str_eqb k k'); [intros H; inv H; lia | intros H; specialize (IH H); fold (dksize d); lia].
Qed.

Lemma do_ref_cost_le e b : do_ref_cost e b <= psize e.
Proof.
  unfold do_ref_cost, psize. destruct b; try lia. destruct (lookup s (params e)) as [x|] eqn:E; [|lia].
  pose proof (lookup_dtsize _ _ _ E). pose proof (vsize_le_tsize x). lia.
Qed.
(* the scan of a level costs at most its keys; whatever it finds sits in the level next to them *)
Definition kcost (d : list (str * value)) : nat := fold_right (fun kv acc => S (length (fst kv)) + acc) 0 d.
Lemma ci_scan_cost_le k d : ci_scan_cost k d <= kcost d.
Proof.
  induction d as [|[k' y] d IH]; simpl; [lia|]. fold (kcost d).
  destruct (str_eqb (lower k') k); lia.
Qed.
Lemma lookup_bk_cost_le k d : lookup_bk_cost k d <= kcost d.
Proof.
  unfold lookup_bk_cost. destruct (lookup k d); [lia|]. destruct (is_bool_text k); [apply ci_scan_cost_le | lia].
Qed.
Lemma kcost_le_dksize d : kcost d <= dksize d.
Proof. induction d as [|[k' y] d IH]; simpl; [lia|]. fold (kcost d). fold (dksize d). lia. Qed.
Lemma in_kcost_dksize k x d : In (k, x) d -> kcost d + tsize x <= dksize d.
Proof.
  induction d as [|[k' y] d IH]; simpl; [tauto|]. fold (kcost d). fold (dksize d).
  intros [H|H]; [inv H; pose proof (kcost_le_dksize d); lia | specialize (IH H); lia].
Qed.
Lemma lookup_bk_kcost_dksize k d x : lookup_bk k d = Some x -> kcost d + tsize x <= dksize d.
Proof. intros H. destruct (lookup_bk_In k d x H) as (k' & Hin & _). apply (in_kcost_dksize k' x d Hin). Qed.
Lemma do_find_in_map_cost_le e m k1 k2 : do_find_in_map_cost e m k1 k2 <= 1 + psize e.
Proof.
  unfold do_find_in_map_cost, find_in_map_scan_cost, do_find_in_map, psize.
  destruct m; try lia. destruct k1; try lia. destruct k2; try lia.
  destruct (lookup s (mappings e)) as [top|] eqn:E1; [|simpl; lia].
  pose proof (lookup_dtsize _ _ _ E1) as H1. destruct top as [| | | | | | | top]; try lia.
  rewrite tsize_dict in H1. pose proof (lookup_bk_cost_le s0 top) as C1. pose proof (kcost_le_dksize top) as K1.
  destruct (lookup_bk s0 top) as [sec|] eqn:E2; [|simpl; lia].
  pose proof (lookup_bk_kcost_dksize _ _ _ E2) as H2. destruct sec as [| | | | | | | sec]; try lia.
  rewrite tsize_dict in H2. pose proof (lookup_bk_cost_le s1 sec) as C2. pose proof (kcost_le_dksize sec) as K2.
  destruct (lookup_bk s1 sec) as [leaf|] eqn:E3; [|simpl; lia].
  pose proof (lookup_bk_kcost_dksize _ _ _ E3) as H3. pose proof (vsize_le_tsize leaf).
  destruct leaf; simpl in *; lia.
Qed.

(* Fn::Sub: at most one token per character *)
Lemma sub_tokens_length text : length (sub_tokens text) <= length text.
Proof.
  rewrite <- (sub_tokens_partition text) at 2. induction (sub_tokens text) as [|t ts IH]; [apply le_n|].
  simpl. rewrite app_length. pose proof (tok_src_length t). lia.
Qed.

(* the constructs whose charge (R5) is the size of an intermediate result *)
Definition is_text (v : value) : bool := match v with VStr _ => true | _ => false end.
Definition heavy_entry (d : list (str * value)) : bool :=
  match d with
  | [(k, body)] => str_eqb k K_Join || str_eqb k K_Split || str_eqb k K_Base64 || (str_eqb k K_Sub && negb (is_text body))
  | _ => false
  end.
(* [light v]: no Fn::Join, Fn::Split, Fn::Base64, Fn::Sub-with-variables object anywhere in v *)
Fixpoint light (v : value) : bool :=
  match v with
  | VList l => forallb light l
  | VDict d => negb (heavy_entry d) && forallb (fun kv => light (snd kv)) d
  | _ => true
  end.
(* the hypothesis of the bound: the walk cost of anything, or the full cost of a light expression *)
Definition okw (w : nat) (v : value) : Prop := w = 0 \/ light v = true.

Lemma okw_in_list w l x : okw w (VList l) -> In x l -> okw w x.
Proof.
  intros [H|H] Hx; [left; exact H | right]. cbn [light] in H. rewrite forallb_forall in H. apply H. exact Hx.
Qed.
Lemma okw_in_dict w d k x : okw w (VDict d) -> In (k, x) d -> okw w x.
Proof.
  intros [H|H] Hx; [left; exact H | right]. cbn [light] in H. apply andb_true_iff in H. destruct H as [_ H].
  rewrite forallb_forall in H. apply (H (k, x)). exact Hx.
Qed.
Lemma okw_heavy w d : heavy_entry d = true -> okw w (VDict d) -> w = 0.
Proof. intros Hh [H|H]; [exact H|]. cbn [light] in H. rewrite Hh in H. discriminate. Qed.

Lemma snd_tick {A} n (r : cres A) : snd (tick n r) = n + snd r.
Proof. reflexivity. Qed.
Lemma snd_cbind_le {A B} (r : cres A) (f : A -> cres B) a b :
  snd r <= a -> (forall x, snd (f x) <= b) -> snd (cbind r f) <= a + b.
Proof. intros Hr Hf. destruct r as [[x|err] n]; simpl in *; [specialize (Hf x); lia | lia]. Qed.
Lemma snd_cbind_pure {A B} (r : cres A) (g : A -> res B) : snd (x <~ r ;; pure (g x)) = snd r.
Proof. destruct r as [[x|err] n]; simpl; lia. Qed.

(* the places where a parameter value / mapping leaf may be copied: Ref, Fn::ImportValue, Fn::FindInMap
   objects and the ${name} placeholders of Fn::Sub texts *)
Definition is_var (t : stok) : bool := match t with TVar _ => true | _ => false end.
Definition nvars (text : str) : nat := length (filter is_var (sub_tokens text)).
Definition fn_refs (d : list (str * value)) : nat :=
  match d with
  | [(k, body)] =>
      if str_eqb k K_Ref || str_eqb k K_ImportValue || str_eqb k K_FindInMap then 1
      else if str_eqb k K_Sub then
        match body with VStr text => nvars text | VList (VStr text :: _) => nvars text | _ => 0 end
      else 0
  | _ => 0
  end.
Fixpoint refs (v : value) : nat :=
  match v with
  | VList l => fold_right (fun x acc => refs x + acc) 0 l
  | VDict d => fn_refs d + fold_right (fun kv acc => refs (snd kv) + acc) 0 d
  | _ => 0
  end.
Definition lrefs (l : list value) : nat := fold_right (fun x acc => refs x + acc) 0 l.
Definition drefs (d : list (str * value)) : nat := fold_right (fun kv acc => refs (snd kv) + acc) 0 d.
Lemma refs_list l : refs (VList l) = lrefs l. Proof. reflexivity. Qed.
Lemma refs_dict d : refs (VDict d) = fn_refs d + drefs d. Proof. reflexivity. Qed.

Lemma nvars_le text : nvars text <= length text.
Proof. unfold nvars. pose proof (filter_length_le is_var (sub_tokens text)). pose proof (sub_tokens_length text). lia. Qed.

(* refs v <= tsize v (every counted place occupies at least one node or character of its own).  [fn_refs] of a Fn::Sub counts
   the placeholders of a text that sits in the BODY; [slack body] is the number of characters of that text, carried in the
   induction so that the bound for the body pays for the [fn_refs] of the object around it *)
Definition slack (v : value) : nat :=
  match v with VStr s => length s | VList (VStr s :: _) => length s | _ => 0 end.
Lemma fn_refs_le k body : fn_refs [(k, body)] <= 1 + slack body.
Proof.
  unfold fn_refs. destruct (str_eqb k K_Ref || str_eqb k K_ImportValue || str_eqb k K_FindInMap); [lia|].
  destruct (str_eqb k K_Sub); [|lia].
  destruct body as [| | | text | | | l |]; try lia.
  - pose proof (nvars_le text). simpl. lia.
  - destruct l as [|x r]; [lia|]. destruct x; try lia. pose proof (nvars_le s). simpl. lia.
Qed.
Lemma refs_slack_le_tsize v : refs v + slack v <= tsize v.
Proof.
  induction v as [| | | | | | l IH | d IH] using value_ind'; try (simpl; lia).
  - rewrite refs_list, tsize_list. destruct l as [|x xs]; [simpl; lia|].
    inversion IH as [|? ? Hx Hxs]; subst.
    assert (H' : lrefs xs <= ltsize xs).
    { clear -Hxs. induction Hxs as [|y ys Hy Hys IH']; simpl; [lia|]. fold (lrefs ys). fold (ltsize ys). lia. }
    change (lrefs (x :: xs)) with (refs x + lrefs xs). change (ltsize (x :: xs)) with (tsize x + ltsize xs).
    destruct x; simpl in *; lia.
  - rewrite refs_dict, tsize_dict. cbn [slack].
    assert (H : drefs d <= dksize d).
    { induction IH as [|[k x] xs Hx Hxs IH']; simpl; [lia|]. simpl in Hx. fold (drefs xs). fold (dksize xs). lia. }
    destruct d as [|[k body] [|kv2 rest]]; [simpl; lia | | unfold fn_refs; lia].
    pose proof (fn_refs_le k body). inversion IH as [|? ? Hx Hxs]; subst. simpl in Hx.
    unfold drefs, dksize. cbn [fold_right fst snd]. lia.
Qed.
Lemma refs_le_tsize v : refs v <= tsize v.
Proof. pose proof (refs_slack_le_tsize v). lia. Qed.

Lemma render_var_cost_le w e custom name : w = 0 \/ custom = [] -> render_var_cost w e custom name <= psize e.
Proof.
  intros Hw. unfold render_var_cost.
  destruct (lookup name custom) as [x|] eqn:Ec.
  - destruct Hw as [-> | ->]; [lia | discriminate].
  - destruct (lookup name (params e)) as [x|] eqn:E; [|lia].
    pose proof (lookup_dtsize _ _ _ E). pose proof (vsize_le_tsize x). unfold psize. lia.
Qed.
Lemma render_toks_c_snd w e custom ts : w = 0 \/ custom = [] ->
  snd (render_toks_c w e custom ts) <= length (filter is_var ts) * psize e.
Proof.
  intros Hw. induction ts as [|t r IH]; [simpl; lia|]. cbn [render_toks_c].
  eapply Nat.le_trans; [apply snd_cbind_le with (a := if is_var t then psize e else 0); [|intros a; rewrite snd_cbind_pure; exact IH]|].
  - destruct t; cbn [render_tok_c snd is_var]; try lia. apply render_var_cost_le, Hw.
  - cbn [filter]. destruct (is_var t); simpl; lia.
Qed.
Lemma do_sub_c_snd w e text custom : w = 0 \/ custom = [] ->
  snd (do_sub_c w e text custom) <= length text + nvars text * psize e.
Proof.
  intros Hw. unfold do_sub_c. rewrite snd_tick, snd_cbind_pure.
  apply Nat.add_le_mono_l, render_toks_c_snd, Hw.
Qed.

Section Bound.
Variable e : env.
Local Notation P := (psize e).
(* the bound at a value; at the members of a list; at the entries of an object *)
Definition bnd (v : value) : nat := tsize v + refs v * P.
Definition lbnd (l : list value) : nat := fold_right (fun x acc => bnd x + acc) 0 l.
Definition dbnd (d : list (str * value)) : nat := fold_right (fun kv acc => S (length (fst kv)) + bnd (snd kv) + acc) 0 d.
Lemma bnd_list l : bnd (VList l) = S (lbnd l).
Proof.
  unfold bnd. rewrite tsize_list, refs_list. f_equal.
  induction l as [|x xs IH]; [reflexivity|]. cbn [ltsize lrefs lbnd fold_right] in *. fold (ltsize xs) (lrefs xs) (lbnd xs) in *.
  unfold bnd at 1. rewrite Nat.mul_add_distr_r. lia.
Qed.
Lemma bnd_dict d : bnd (VDict d) = S (fn_refs d * P + dbnd d).
Proof.
  unfold bnd. rewrite tsize_dict, refs_dict, Nat.mul_add_distr_r.
  assert (H : dksize d + drefs d * P = dbnd d); [|lia].
  induction d as [|[k x] xs IH]; [reflexivity|]. cbn [dksize drefs dbnd fold_right fst snd] in *. fold (dksize xs) (drefs xs) (dbnd xs) in *.
  unfold bnd at 1. rewrite Nat.mul_add_distr_r. lia.
Qed.
Lemma bnd_call k body : bnd (VDict [(k, body)]) = 2 + length k + fn_refs [(k, body)] * P + bnd body.
Proof. rewrite bnd_dict. cbn [dbnd fold_right fst snd]. lia. Qed.

Definition SndAt (w : nat) (v : value) : Prop := snd (resolve_c w e v) <= bnd v.
Lemma clist_snd w l : Forall (SndAt w) l -> snd (clist w e l) <= lbnd l.
Proof.
  induction 1 as [|x xs Hx Hxs IH]; [simpl; lia|]. rewrite clist_cons. cbn [lbnd fold_right].
  apply snd_cbind_le; [exact Hx|]. intros x'. rewrite snd_cbind_pure. exact IH.
Qed.
Lemma cdict_snd w d : Forall (fun kv => SndAt w (snd kv)) d -> snd (cdict w e d) <= dbnd d.
Proof.
  induction 1 as [|[k x] xs Hx Hxs IH]; [simpl; lia|]. rewrite cdict_cons. cbn [dbnd fold_right fst snd].
  apply snd_cbind_le; [rewrite snd_tick; unfold SndAt in Hx; cbn [snd] in Hx; lia|]. intros x'. rewrite snd_cbind_pure. exact IH.
Qed.
Lemma c_all_snd w l : Forall (SndAt w) l -> snd (c_all w e l) <= lbnd l.
Proof.
  induction 1 as [|x xs Hx Hxs IH]; [simpl; lia|]. rewrite c_all_cons. cbn [lbnd fold_right].
  apply snd_cbind_le; [exact Hx|]. intros r. destruct (ext_bool r) as [[|]|]; [exact IH | simpl; lia | simpl; lia].
Qed.
Lemma c_any_snd w l : Forall (SndAt w) l -> snd (c_any w e l) <= lbnd l.
Proof.
  induction 1 as [|x xs Hx Hxs IH]; [simpl; lia|]. rewrite c_any_cons. cbn [lbnd fold_right].
  apply snd_cbind_le; [exact Hx|]. intros r. destruct (ext_bool r) as [[|]|]; [simpl; lia | exact IH | simpl; lia].
Qed.

Lemma okw_arg w k body : okw w (VDict [(k, body)]) -> okw w body.
Proof. intros H. apply (okw_in_dict w _ k body H). left. reflexivity. Qed.
Lemma okw_list_arg w k l x : okw w (VDict [(k, VList l)]) -> In x l -> okw w x.
Proof. intros H. apply okw_in_list, (okw_arg w k), H. Qed.

Theorem resolve_c_bound_at w : forall v, okw w v -> SndAt w v.
Proof.
  apply (resolve_ind (fun v => okw w v -> SndAt w v)); unfold SndAt.
  - intros [] Hv _; try contradiction; unfold bnd; cbn [resolve_c snd tsize refs]; lia.
  - intros l IH Hok. rewrite rc_list, snd_tick, snd_cbind_pure, bnd_list. apply le_n_S, clist_snd.
    rewrite Forall_forall in *. intros x Hx. apply IH; [exact Hx | exact (okw_in_list w l x Hok Hx)].
  - intros d Hf IH Hok. rewrite rc_dict_generic, snd_tick, snd_cbind_pure, bnd_dict by assumption.
    apply le_n_S, Nat.le_trans with (dbnd d); [|lia]. apply cdict_snd.
    rewrite Forall_forall in *. intros [k x] Hx. apply IH; [exact Hx | exact (okw_in_dict w d k x Hok Hx)].
  - intros k body Hk IH Hok. specialize (IH (okw_arg w k body Hok)). rewrite rc_ref_import, snd_tick, bnd_call by assumption.
    assert (Hr : fn_refs [(k, body)] = 1) by (destruct Hk as [-> | ->]; reflexivity). rewrite Hr.
    pose proof (snd_cbind_le _ (fun b => (do_ref e b, do_ref_cost e b)) _ _ IH (do_ref_cost_le e)). lia.
  - intros dl l IH1 IH2 Hok. assert (w = 0) by (eapply okw_heavy; [|exact Hok]; reflexivity). subst w.
    specialize (IH1 (or_introl eq_refl)). specialize (IH2 (or_introl eq_refl)).
    rewrite rc_join, snd_tick, bnd_call, bnd_list. cbn [lbnd fold_right]. revert IH1 IH2.
    destruct (resolve_c 0 e dl) as [[d'|] c1], (resolve_c 0 e l) as [[l'|] c2]; cbn [cbind fst snd]; lia.
  - intros dl s IH1 IH2 Hok. assert (w = 0) by (eapply okw_heavy; [|exact Hok]; reflexivity). subst w.
    specialize (IH1 (or_introl eq_refl)). specialize (IH2 (or_introl eq_refl)).
    rewrite rc_split, snd_tick, bnd_call, bnd_list. cbn [lbnd fold_right]. revert IH1 IH2.
    destruct (resolve_c 0 e dl) as [[d'|] c1], (resolve_c 0 e s) as [[s'|] c2]; cbn [cbind fst snd]; lia.
  - intros i l IH1 IH2 Hok. specialize (IH1 (okw_list_arg w _ _ i Hok (or_introl eq_refl))).
    specialize (IH2 (okw_list_arg w _ _ l Hok (or_intror (or_introl eq_refl)))).
    rewrite rc_select, snd_tick, bnd_call, bnd_list. cbn [lbnd fold_right]. revert IH1 IH2.
    destruct (resolve_c w e i) as [[i'|] c1], (resolve_c w e l) as [[l'|] c2]; cbn [cbind fst snd pure]; lia.
  - intros m k1 k2 IH1 IH2 IH3 Hok. specialize (IH1 (okw_list_arg w _ _ m Hok (or_introl eq_refl))).
    specialize (IH2 (okw_list_arg w _ _ k1 Hok (or_intror (or_introl eq_refl)))).
    specialize (IH3 (okw_list_arg w _ _ k2 Hok (or_intror (or_intror (or_introl eq_refl))))).
    rewrite rc_find_in_map, snd_tick, bnd_call, bnd_list. cbn [lbnd fold_right]. change (fn_refs [(K_FindInMap, VList [m; k1; k2])]) with 1.
    revert IH1 IH2 IH3.
    destruct (resolve_c w e m) as [[m'|] c1], (resolve_c w e k1) as [[k1'|] c2], (resolve_c w e k2) as [[k2'|] c3];
      cbn [cbind fst snd]; try lia.
    pose proof (do_find_in_map_cost_le e m' k1' k2'). lia.
  - intros text Hok. rewrite rc_sub_text, snd_tick, bnd_call. pose proof (do_sub_c_snd w e text [] (or_intror eq_refl)).
    change (fn_refs [(K_Sub, VStr text)]) with (nvars text). change (bnd (VStr text)) with (S (length text) + 0 * P). lia.
  - intros text vars IH _ Hok. assert (w = 0) by (eapply okw_heavy; [|exact Hok]; reflexivity). subst w.
    specialize (IH (or_introl eq_refl)). rewrite rc_sub_vars, snd_tick, bnd_call, bnd_list. cbn [lbnd fold_right].
    change (fn_refs [(K_Sub, VList [VStr text; vars])]) with (nvars text). change (bnd (VStr text)) with (S (length text) + 0 * P).
    revert IH. destruct (resolve_c 0 e vars) as [[cv|] c1]; cbn [cbind fst snd]; [|lia].
    destruct cv as [| | | | | | | custom]; cbn [pure snd]; try lia.
    pose proof (do_sub_c_snd 0 e text custom (or_introl eq_refl)). lia.
  - intros body IH Hok. assert (w = 0) by (eapply okw_heavy; [|exact Hok]; reflexivity). subst w.
    specialize (IH (or_introl eq_refl)). rewrite rc_base64, snd_tick, bnd_call. revert IH.
    destruct (resolve_c 0 e body) as [[b|] c1]; cbn [cbind fst snd]; lia.
  - intros body _. rewrite rc_getatt, bnd_call. cbn [snd]. lia.
  - intros body _. rewrite rc_getazs, bnd_call. cbn [snd]. lia.
  - intros name _. rewrite rc_condition, bnd_call. cbn [snd]. lia.
  - intros c t f IH1 IH2 Hok. specialize (IH1 (okw_list_arg w _ _ t Hok (or_intror (or_introl eq_refl)))).
    specialize (IH2 (okw_list_arg w _ _ f Hok (or_intror (or_intror (or_introl eq_refl))))).
    rewrite rc_if, snd_tick, bnd_call, bnd_list. cbn [lbnd fold_right].
    destruct (conds e c) as [[|]|]; cbn [cbind pure fst snd]; lia.
  - intros parts IH Hok. rewrite rc_and, snd_tick, snd_cbind_pure, bnd_call, bnd_list.
    assert (HF : Forall (SndAt w) parts).
    { rewrite Forall_forall in *. intros x Hx. apply IH; [exact Hx | exact (okw_list_arg w _ _ x Hok Hx)]. }
    pose proof (c_all_snd w parts HF). lia.
  - intros parts IH Hok. rewrite rc_or, snd_tick, snd_cbind_pure, bnd_call, bnd_list.
    assert (HF : Forall (SndAt w) parts).
    { rewrite Forall_forall in *. intros x Hx. apply IH; [exact Hx | exact (okw_list_arg w _ _ x Hok Hx)]. }
    pose proof (c_any_snd w parts HF). lia.
  - intros x rest IH Hok. specialize (IH (okw_list_arg w _ _ x Hok (or_introl eq_refl))).
    rewrite rc_not, snd_tick, snd_cbind_pure, bnd_call, bnd_list. cbn [lbnd fold_right]. lia.
  - intros a b IH1 IH2 Hok. specialize (IH1 (okw_list_arg w _ _ a Hok (or_introl eq_refl))).
    specialize (IH2 (okw_list_arg w _ _ b Hok (or_intror (or_introl eq_refl)))).
    rewrite rc_equals, snd_tick, bnd_call, bnd_list. cbn [lbnd fold_right]. revert IH1 IH2.
    destruct (resolve_c w e a) as [[a'|] c1], (resolve_c w e b) as [[b'|] c2]; cbn [cbind fst snd pure]; lia.
  - intros k body er H _. rewrite (rc_ill w e k body er H), bnd_call. cbn [snd]. lia.
Qed.
End Bound.

(* THE BOUND.  [w = 0]: the walk cost of every expression.  Any w (in particular the full cost, w = 1): light
   expressions.  Additive in the size of the expression, and [psize e] once per place that can copy a parameter
   value or a mapping leaf ([refs v]: Ref / Fn::ImportValue / Fn::FindInMap objects and Fn::Sub placeholders). *)
Theorem resolve_c_bound_refs w e v : w = 0 \/ light v = true -> snd (resolve_c w e v) <= tsize v + refs v * psize e.
Proof. apply resolve_c_bound_at. Qed.
(* the same, in terms of the two sizes only *)
Theorem resolve_c_bound w e v : w = 0 \/ light v = true -> snd (resolve_c w e v) <= tsize v * (1 + psize e).
Proof. intros H. pose proof (resolve_c_bound_refs w e v H). pose proof (refs_le_tsize v). nia. Qed.
(* a leaf is one step whatever it denotes *)
Lemma resolve_c_typed_unit w e k text : snd (resolve_c w e (VTyped k text)) = 1.
Proof. reflexivity. Qed.
Lemma resolve_c_int_unit w e z : snd (resolve_c w e (VInt z)) = 1.
Proof. reflexivity. Qed.

(* The template driver: CFModel.resolve over the resources.
   [resolve_resources] (Resolver/Template.v): one gate test per resource (1 step: a dict lookup), then [resolve]
   of the resource; putting the literal Type back ([keep_type]) is not charged.
   NOT costed: the condition table ([cond_all]).  Its specification [cond_val] re-evaluates a referenced condition at
   every reference (exponential on diamond-shaped reference graphs); the library memoises (Resolver/Memo.v), and a cost
   model of that memoising evaluator is not given. *)
Definition resolve_resource_c (w : nat) (e : env) (r : value) : cres value :=
  r' <~ resolve_c w e r ;; pure (Ok (keep_type r r')).
Fixpoint resolve_resources_c (w : nat) (e : env) (resolved : list (str * bool)) (rs : list (str * value)) : cres (list (str * value)) :=
  match rs with
  | [] => pure (Ok [])
  | (id, r) :: rest =>
      keep <~ (gate resolved r, 1) ;;
      if keep then r' <~ resolve_resource_c w e r ;; rest' <~ resolve_resources_c w e resolved rest ;; pure (Ok ((id, r') :: rest'))
      else resolve_resources_c w e resolved rest
  end.

Lemma okw_resources w (id : str) r (rest : list (str * value)) : w = 0 \/ forallb (fun kv => light (snd kv)) ((id, r) :: rest) = true ->
  okw w r /\ (w = 0 \/ forallb (fun kv => light (snd kv)) rest = true).
Proof. intros [Hw|Hw]; [split; left; exact Hw|]. cbn [forallb snd] in Hw. apply andb_true_iff in Hw. split; right; tauto. Qed.
Theorem resolve_resources_c_bound w e resolved rs :
  w = 0 \/ forallb (fun kv => light (snd kv)) rs = true ->
  snd (resolve_resources_c w e resolved rs) <= dbnd e rs.
Proof.
  induction rs as [|[id r] rest IH]; [simpl; lia|]. intros Hw. destruct (okw_resources w id r rest Hw) as [Hr Hrest].
  specialize (IH Hrest). pose proof (resolve_c_bound_at e w r Hr) as Hc.
  cbn [resolve_resources_c]. change (dbnd e ((id, r) :: rest)) with (S (length id) + bnd e r + dbnd e rest).
  apply Nat.le_trans with (1 + (bnd e r + dbnd e rest)); [|lia].
  apply (snd_cbind_le (gate resolved r, 1)); [apply Nat.le_refl|]. intros [|]; [|lia]. unfold resolve_resource_c.
  apply snd_cbind_le; [rewrite snd_cbind_pure; exact Hc|]. intros r'. rewrite snd_cbind_pure. exact IH.
Qed.

Local Open Scope N_scope.
Definition cx_s1 (c : N) : value := VStr [c].
(* parameters: L = ["a", ..., "t"] (20 one-letter strings), S = "abcdefghij" *)
Definition cx_env : env :=
  {| params := [([76], VList (map cx_s1 [97;98;99;100;101;102;103;104;105;106;107;108;109;110;111;112;113;114;115;116]));
                ([83], VStr [97;98;99;100;101;102;103;104;105;106])];
     mappings := []; conds := fun _ => Ok false |}.
Definition cx_refL : value := VDict [(K_Ref, VStr [76])].
Definition cx_refS : value := VDict [(K_Ref, VStr [83])].
Definition cx_net8 : value := VTyped KNet4 [49;48;46;48;46;48;46;48;47;56].          (* 10.0.0.0/8  : 16 777 216 addresses *)
Definition cx_net32 : value := VTyped KNet4 [49;48;46;48;46;48;46;48;47;51;50].      (* 10.0.0.0/32 : 1 address *)
(* {"A": {"Ref": "L"}, "B": {"Ref": "L"}, "C": [<network>, 65535], "D": {"Fn::Sub": "${S}-${S}"}} *)
Definition cx_expr (net : value) : value :=
  VDict [([65], cx_refL); ([66], cx_refL); ([67], VList [net; VInt 65535%Z]);
         ([68], VDict [(K_Sub, VStr [36;123;83;125;45;36;123;83;125])])].
(* the bound is not vacuous: 66 steps, bound 60 + 4 * 52 = 268 (and 60 * 53 = 3180 in terms of the two sizes) *)
Example cx_bound_not_vacuous :
  light (cx_expr cx_net8) = true /\ is_ok (fst (resolve_c 1 cx_env (cx_expr cx_net8))) = true /\
  snd (resolve_c 1 cx_env (cx_expr cx_net8)) = 66%nat /\
  tsize (cx_expr cx_net8) = 60%nat /\ refs (cx_expr cx_net8) = 4%nat /\ psize cx_env = 52%nat.
Proof. vm_compute. repeat split; reflexivity. Qed.
(* the width of the network is irrelevant: a /8 costs what a /32 costs *)
Example cx_network_width_irrelevant :
  snd (resolve_c 1 cx_env (cx_expr cx_net8)) = snd (resolve_c 1 cx_env (cx_expr cx_net32)).
Proof. vm_compute. reflexivity. Qed.
(* why the bound is multiplicative: ten Refs to L copy L ten times -- 231 steps, more than tsize + psize = 71 + 52 *)
Definition cx_tenrefs : value := VList (repeat cx_refL 10).
Example cx_multiplicative :
  snd (resolve_c 1 cx_env cx_tenrefs) = 231%nat /\ tsize cx_tenrefs = 71%nat /\ refs cx_tenrefs = 10%nat /\
  light cx_tenrefs = true.
Proof. vm_compute. repeat split; reflexivity. Qed.

(* no polynomial bound for the full cost: nested Fn::Join doubles the text at every level.
   parameters  S = "ab",  L = ["a", "b", "c"];   jn 0 = {"Ref": "S"},  jn (d+1) = {"Fn::Join": [jn d, {"Ref": "L"}]} *)
Definition cx_env2 : env :=
  {| params := [([76], VList (map cx_s1 [97;98;99])); ([83], VStr [97;98])]; mappings := []; conds := fun _ => Ok false |}.
Fixpoint cx_jn (d : nat) : value :=
  match d with O => cx_refS | S d' => VDict [(K_Join, VList [cx_jn d'; cx_refL])] end.
Local Close Scope N_scope.
Lemma cx_jn_tsize d : tsize (cx_jn d) = 7 + 18 * d.
Proof.
  induction d as [|d IH]; [reflexivity|].
  change (cx_jn (S d)) with (VDict [(K_Join, VList [cx_jn d; cx_refL])]).
  rewrite tsize_dict. unfold dksize. cbn [fold_right fst snd]. rewrite tsize_list. unfold ltsize. cbn [fold_right].
  rewrite IH. change (tsize cx_refL) with 7. change (length K_Join) with 8. lia.
Qed.
Lemma cx_jn_run d : exists s c, resolve_c 1 cx_env2 (cx_jn d) = (Ok (VStr s), c) /\ 2 ^ d <= length s /\ 2 ^ d <= c.
Proof.
  induction d as [|d (s & c & E & Hs & Hc)].
  - eexists. eexists. split; [vm_compute; reflexivity|]. simpl. lia.
  - change (cx_jn (S d)) with (VDict [(K_Join, VList [cx_jn d; cx_refL])]). rewrite rc_join, E.
    replace (resolve_c 1 cx_env2 cx_refL) with (Ok (VList [VStr [97%N]; VStr [98%N]; VStr [99%N]]), 6) by (vm_compute; reflexivity).
    cbn [cbind tick fst snd]. unfold do_join_cost, do_join. cbn [as_strs bind].
    assert (HL : length (join s [[97%N]; [98%N]; [99%N]]) = 3 + 2 * length s).
    { cbn [join]. rewrite !app_length. simpl. lia. }
    exists (join s [[97%N]; [98%N]; [99%N]]), (1 + (c + (6 + 1 * length (join s [[97%N]; [98%N]; [99%N]])))).
    split; [reflexivity|]. rewrite HL. change (2 ^ S d) with (2 * 2 ^ d). lia.
Qed.
(* concretely: at depth 8 the full cost (2585) exceeds tsize * (1 + psize) (= 151 * 11); the walk cost is 59 *)
Example cx_join_blowup_8 :
  Nat.ltb (tsize (cx_jn 8) * (1 + psize cx_env2)) (snd (resolve_c 1 cx_env2 (cx_jn 8))) = true /\
  snd (resolve_c 0 cx_env2 (cx_jn 8)) = 59.
Proof. vm_compute. split; reflexivity. Qed.
(* the same with Fn::Sub and a variable map: {"Fn::Sub": ["${a}${a}", {"a": ...}]} doubles its text at each level *)
Fixpoint cx_dbl (d : nat) : value :=
  match d with
  | O => VStr [120%N]
  | S d' => VDict [(K_Sub, VList [VStr [36;123;97;125;36;123;97;125]%N; VDict [([97%N], cx_dbl d')]])]
  end.
Definition cx_jdbl (d : nat) : value := VDict [(K_Join, VList [VStr []; VList [cx_dbl d]])].
Example cx_sub_blowup_12 :
  Nat.ltb (tsize (cx_jdbl 12) * (1 + psize cx_env2)) (snd (resolve_c 1 cx_env2 (cx_jdbl 12))) = true /\
  snd (resolve_c 0 cx_env2 (cx_jdbl 12)) = 136.
Proof. vm_compute. split; reflexivity. Qed.
