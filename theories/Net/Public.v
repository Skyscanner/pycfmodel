(* DBSecurityGroupIngressProp.is_public and the two slash-zero predicates, over an ARBITRARY table of
   private/shared networks (the table of the running Python is generated into gen/PrivateNets.v and instantiated in
   Net/PublicTable.v). *)
From Coq Require Import List Bool NArith ZArith Lia.
From PV Require Import Base.Str Net.Arith Net.IPv4.
Import ListNotations.
Local Open Scope N_scope.

Definition ZERO : net := (0, 0).              (* 0.0.0.0/0 and ::/0 *)

(* ipv4_slash_zero / ipv6_slash_zero on an optional field: absent -> False, else equality with the /0 network *)
Definition slash_zero_field (cidr : option net) : bool :=
  match cidr with None => false | Some n => net_eqb n ZERO end.
Lemma net_eqb_zero n : net_eqb n ZERO = slash_zero n.
Proof. destruct n as [a l]. reflexivity. Qed.

(* true exactly when the stored network is the entire W-bit address space *)
Theorem slash_zero_field_iff W n : wf W n ->
  (slash_zero_field (Some n) = true <-> forall x, x < 2 ^ W -> in_net W x n).
Proof. intros H. cbn [slash_zero_field]. rewrite net_eqb_zero. apply slash_zero_iff. exact H. Qed.
(* on the optional field: absent is false *)
Theorem slash_zero_field_sem W c : (forall n, c = Some n -> wf W n) ->
  (slash_zero_field c = true <-> exists n, c = Some n /\ forall x, x < 2 ^ W -> in_net W x n).
Proof.
  intros H. destruct c as [n|].
  - rewrite (slash_zero_field_iff W n (H n eq_refl)). split; [intros Hx; exists n; split; [reflexivity | exact Hx]|].
    intros (m & E & Hx). inversion E; subst. exact Hx.
  - split; [discriminate | intros (m & E & _); discriminate].
Qed.
(* ... and when it is false some address of the space is outside the network *)
Theorem slash_zero_field_false W n : wf W n -> slash_zero_field (Some n) = false -> exists x, x < 2 ^ W /\ ~ in_net W x n.
Proof. intros H. cbn [slash_zero_field]. rewrite net_eqb_zero. apply slash_zero_false_witness. exact H. Qed.

(* Python truthiness of an optional string: None and "" are falsy *)
Definition truthy (o : option str) : bool := match o with Some (_ :: _) => true | _ => false end.

Section Public.
Variable SHARED : net.            (* 100.64.0.0/10 in Python 3.12.1 *)
Variable PRIV : list net.         (* ipaddress._IPv4Constants._private_networks *)

(* _BaseNetwork.is_private: first and last address inside one and the same table entry *)
Definition is_private (n : net) : bool := existsb (subnet_of W4 n) PRIV.
(* IPv4Network.is_global *)
Definition is_global (n : net) : bool := negb (subnet_of W4 n SHARED) && negb (is_private n).

Definition is_public (cidr : option net) (has_group : bool) : bool :=
  match cidr with
  | None => if has_group then false else true
  | Some n => net_eqb n ZERO || is_global n
  end.
Definition is_public_rule (cidr : option net) (group_name group_id : option str) : bool :=
  is_public cidr (truthy group_name || truthy group_id).

(* "lies inside p": every address of n is an address of p *)
Definition inside (n p : net) : Prop := forall x, in_net W4 x n -> in_net W4 x p.

Hypothesis SHARED_wf : wf W4 SHARED.
Hypothesis PRIV_wf : Forall (wf W4) PRIV.

Lemma inside_iff n p : wf W4 n -> wf W4 p -> (subnet_of W4 n p = true <-> inside n p).
Proof. intros Hn Hp. unfold inside. apply subnet_of_iff; assumption. Qed.

Lemma table_wf p : In p (SHARED :: PRIV) -> wf W4 p.
Proof. intros [<-|H]; [exact SHARED_wf | rewrite Forall_forall in PRIV_wf; apply PRIV_wf; exact H]. Qed.

Lemma is_global_existsb n : is_global n = negb (existsb (subnet_of W4 n) (SHARED :: PRIV)).
Proof. unfold is_global, is_private. cbn [existsb]. rewrite negb_orb. reflexivity. Qed.

Lemma is_global_iff n : wf W4 n ->
  (is_global n = true <-> ~ exists p, In p (SHARED :: PRIV) /\ inside n p).
Proof.
  intros Hn. rewrite is_global_existsb, negb_true_iff, <- not_true_iff_false, existsb_exists.
  split; intros H (p & Hp & Hin); apply H; exists p; (split; [exact Hp|]); apply (inside_iff n p Hn (table_wf p Hp)); exact Hin.
Qed.

(* the property sentence, read off the model *)
Theorem is_public_iff cidr g : (forall n, cidr = Some n -> wf W4 n) ->
  (is_public cidr g = true <->
     (cidr = None /\ g = false) \/
     (exists n, cidr = Some n /\ (n = ZERO \/ ~ exists p, In p (SHARED :: PRIV) /\ inside n p))).
Proof.
  intros Hwf. destruct cidr as [n|]; cbn [is_public].
  - rewrite orb_true_iff, net_eqb_eq, (is_global_iff n (Hwf n eq_refl)). split.
    + intros H. right. exists n. split; [reflexivity | exact H].
    + intros [[H _]|(m & E & H)]; [discriminate | inversion E; subst; exact H].
  - split.
    + destruct g; [discriminate | intros _; left; split; reflexivity].
    + intros [[_ ->]|(m & E & _)]; [reflexivity | discriminate].
Qed.

Theorem private_not_public n p g : wf W4 n -> In p (SHARED :: PRIV) -> inside n p -> n <> ZERO ->
  is_public (Some n) g = false.
Proof.
  intros Hn Hp Hin Hz. destruct (is_public (Some n) g) eqn:E; [|reflexivity]. exfalso.
  apply (is_public_iff (Some n) g) in E; [|intros m Hm; inversion Hm; subst; exact Hn].
  destruct E as [[E _]|(m & E & [->|H])]; [discriminate | inversion E; subst; congruence|].
  inversion E; subst. apply H. exists p. split; assumption.
Qed.

(* when no table entry is the whole space, "inside a private range" alone excludes /0 *)
Theorem private_not_public' n p g : Forall (fun q => 0 < snd q) (SHARED :: PRIV) ->
  wf W4 n -> In p (SHARED :: PRIV) -> inside n p -> is_public (Some n) g = false.
Proof.
  intros Hpos Hn Hp Hin. apply (private_not_public n p g Hn Hp Hin). intros ->.
  rewrite Forall_forall in Hpos. specialize (Hpos p Hp). pose proof (table_wf p Hp) as W.
  destruct p as [b k]. cbn [snd] in Hpos. destruct W as (Hk & Hb & _).
  unfold inside, ZERO, in_net in Hin.
  assert (P : 0 < 2 ^ W4) by (apply N.neq_0_lt_0; apply N.pow_nonzero; discriminate).
  pose proof (blk_lt W4 k Hpos Hk) as Hlt. rewrite (blk_full W4) in Hin.
  pose proof (Hin 0) as H0. pose proof (Hin (2 ^ W4 - 1)) as H1. lia.
Qed.

Theorem public_when_no_cidr g : is_public None g = negb g.
Proof. destruct g; reflexivity. Qed.
End Public.
