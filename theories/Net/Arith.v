(* Networks as (address, prefix length) over a W-bit address space, arithmetic model on N.  IPv4 is the instance W = 32,
   IPv6 the instance W = 128: every theorem below is proved once for every width.  The condition operators have their
   own representation on Z with a version tag, Iam/IpNet.v, under the same names; Iam/OpsAlgebra.v (blk_bridge, wf_bridge)
   relates the two. *)
From Coq Require Import NArith Lia Bool List.
Import ListNotations.
Local Open Scope N_scope.

Definition net := (N * N)%type.          (* (network address, prefix length) *)
Definition net_eqb (n m : net) : bool := (fst n =? fst m) && (snd n =? snd m).
Lemma net_eqb_eq n m : net_eqb n m = true <-> n = m.
Proof.
  destruct n as [a l], m as [b k]. unfold net_eqb. cbn [fst snd]. rewrite andb_true_iff, !N.eqb_eq.
  split; [intros [-> ->]; reflexivity | intros H; inversion H; auto].
Qed.

Section Net.
Variable W : N.

Definition blk (l : N) : N := 2 ^ (W - l).                          (* number of addresses of a /l network *)
Definition mk_net (x l : N) : net := ((x / blk l) * blk l, l).      (* host bits masked off *)
Definition wf (n : net) : Prop := let '(a, l) := n in l <= W /\ a < 2 ^ W /\ a mod blk l = 0.
Definition wfb (n : net) : bool := let '(a, l) := n in (l <=? W) && (a <? 2 ^ W) && (a mod blk l =? 0).
Definition in_net (x : N) (n : net) : Prop := let '(a, l) := n in a <= x < a + blk l.
Definition in_netb (x : N) (n : net) : bool := let '(a, l) := n in (a <=? x) && (x <? a + blk l).
Definition slash_zero (n : net) : bool := let '(a, l) := n in (a =? 0) && (l =? 0).
(* Python's subnet_of: first and last address of n lie within m *)
Definition subnet_of (n m : net) : bool :=
  let '(a, l) := n in let '(b, k) := m in (b <=? a) && (a + blk l <=? b + blk k).
(* two addresses agree on their first l bits (the bits numbered W-1 down to W-l) *)
Definition same_prefix (l x y : N) : Prop := x / blk l = y / blk l.

Lemma wfb_wf n : wfb n = true <-> wf n.
Proof.
  destruct n as [a l]. unfold wfb, wf. rewrite !andb_true_iff, N.leb_le, N.ltb_lt, N.eqb_eq. tauto.
Qed.
Lemma in_netb_in x n : in_netb x n = true <-> in_net x n.
Proof. destruct n as [a l]. unfold in_netb, in_net. rewrite andb_true_iff, N.leb_le, N.ltb_lt. tauto. Qed.

Lemma blk_pos l : 0 < blk l.
Proof. unfold blk. apply N.neq_0_lt_0. apply N.pow_nonzero. discriminate. Qed.
Lemma blk_full : blk 0 = 2 ^ W.
Proof. unfold blk. rewrite N.sub_0_r. reflexivity. Qed.
Lemma blk_lt l : 0 < l -> l <= W -> blk l < 2 ^ W.
Proof. intros H1 H2. unfold blk. apply N.pow_lt_mono_r; lia. Qed.
Lemma blk_le l : blk l <= 2 ^ W.
Proof. unfold blk. apply N.pow_le_mono_r; lia. Qed.
Lemma blk_divides l : l <= W -> 2 ^ W = 2 ^ l * blk l.
Proof. intros H. unfold blk. rewrite <- N.pow_add_r. f_equal. lia. Qed.

Theorem mk_net_wf x l : l <= W -> x < 2 ^ W -> wf (mk_net x l).
Proof.
  intros Hl Hx. unfold wf, mk_net. pose proof (blk_pos l) as Hb.
  assert (Hle : blk l * (x / blk l) <= x) by (apply N.mul_div_le; lia).
  repeat split; [exact Hl | lia | apply N.mod_mul; lia].
Qed.

Theorem mk_net_denotes a l x : in_net x (mk_net a l) <-> same_prefix l x a.
Proof.
  unfold in_net, mk_net, same_prefix. pose proof (blk_pos l) as Hb.
  set (b := blk l) in *. set (q := a / b).
  split.
  - intros [H1 H2]. symmetry. apply (N.div_unique x b q (x - q * b)); lia.
  - intros H. subst q. rewrite <- H.
    assert (b * (x / b) <= x) by (apply N.mul_div_le; lia).
    assert (x < b * N.succ (x / b)) by (apply N.mul_succ_div_gt; lia). lia.
Qed.

Theorem mk_net_contains x l : in_net x (mk_net x l).
Proof. apply mk_net_denotes. reflexivity. Qed.

Lemma wf_multiple a l : wf (a, l) -> a = blk l * (a / blk l).
Proof.
  intros (_ & _ & Hm). pose proof (blk_pos l) as Hb.
  rewrite (N.div_mod a (blk l)) at 1 by lia. rewrite Hm. lia.
Qed.
Theorem mk_net_of_wf a l : wf (a, l) -> mk_net a l = (a, l).
Proof. intros H. unfold mk_net. f_equal. rewrite N.mul_comm. symmetry. apply wf_multiple, H. Qed.

(* any two addresses with the same first l bits give the same network *)
Theorem mk_net_same_prefix x y l : same_prefix l x y -> mk_net x l = mk_net y l.
Proof. unfold same_prefix, mk_net. intros ->. reflexivity. Qed.

(* a network other than (0, 0) misses the first or the last address of the space ... *)
Theorem slash_zero_false_witness n : wf n -> slash_zero n = false -> exists x, x < 2 ^ W /\ ~ in_net x n.
Proof.
  intros Hwf Hz. destruct n as [a l]. unfold wf in Hwf. destruct Hwf as (Hl & Ha & _).
  assert (Hp : 0 < 2 ^ W) by (apply N.neq_0_lt_0; apply N.pow_nonzero; discriminate).
  unfold slash_zero in Hz. apply andb_false_iff in Hz. unfold in_net.
  destruct (N.eq_dec a 0) as [->|Hne].
  - destruct Hz as [Hz|Hz]; [rewrite N.eqb_refl in Hz; discriminate|]. apply N.eqb_neq in Hz.
    exists (2 ^ W - 1). assert (blk l < 2 ^ W) by (apply blk_lt; lia). lia.
  - exists 0. lia.
Qed.
(* ... so "the network is (0, 0)" is "the network is the entire address space" *)
Theorem slash_zero_iff n : wf n ->
  (slash_zero n = true <-> forall x, x < 2 ^ W -> in_net x n).
Proof.
  intros Hn. split.
  - destruct n as [a l]. unfold slash_zero, in_net. rewrite andb_true_iff, !N.eqb_eq. intros [-> ->] x Hx. rewrite blk_full. lia.
  - intros H. destruct (slash_zero n) eqn:E; [reflexivity|].
    destruct (slash_zero_false_witness n Hn E) as (x & Hx & Hout). destruct (Hout (H x Hx)).
Qed.

Lemma subnet_of_le a l b k : subnet_of (a, l) (b, k) = true <-> b <= a /\ a + blk l <= b + blk k.
Proof. unfold subnet_of. rewrite andb_true_iff, !N.leb_le. reflexivity. Qed.
(* Python's subnet_of is inclusion of the address sets (of any two pairs, well-formed or not) *)
Lemma subnet_of_incl n m : subnet_of n m = true <-> forall x, in_net x n -> in_net x m.
Proof.
  destruct n as [a l], m as [b k]. rewrite subnet_of_le. unfold in_net. pose proof (blk_pos l). split.
  - intros [? ?] x ?. lia.
  - intros Hx. pose proof (Hx a). pose proof (Hx (a + blk l - 1)). lia.
Qed.
Lemma subnet_of_in n m x : subnet_of n m = true -> in_net x n -> in_net x m.
Proof. intros H. apply subnet_of_incl, H. Qed.

Theorem subnet_of_iff n m : wf n -> wf m ->
  (subnet_of n m = true <-> forall x, in_net x n -> in_net x m).
Proof. intros _ _. apply subnet_of_incl. Qed.

Lemma subnet_of_refl n : subnet_of n n = true.
Proof. destruct n as [a l]. unfold subnet_of. rewrite !N.leb_refl. reflexivity. Qed.

(* every member of a well-formed network is an address of the space *)
Lemma in_net_bound x n : wf n -> in_net x n -> x < 2 ^ W.
Proof.
  destruct n as [a l]. intros Hn [_ H2]. pose proof (wf_multiple a l Hn) as Hq. destruct Hn as (Hl & Ha & _).
  pose proof (blk_divides l Hl) as Hd. rewrite Hd in *.
  assert (Hlt : a / blk l < 2 ^ l) by (apply (N.mul_lt_mono_pos_l (blk l)); [apply blk_pos | lia]).
  nia.
Qed.

(* how the block sizes of two prefix lengths compare *)
Lemma blk_split l k : l <= k -> k <= W -> blk l = 2 ^ (k - l) * blk k.
Proof. intros H1 H2. unfold blk. rewrite <- N.pow_add_r. f_equal. lia. Qed.
Lemma blk_strict l k : l < k -> k <= W -> 2 * blk k <= blk l.
Proof.
  intros H1 H2. rewrite (blk_split l k) by lia. apply N.mul_le_mono_r.
  change 2 with (2 ^ 1). apply N.pow_le_mono_r; lia.
Qed.
Lemma blk_inj l k : l <= W -> k <= W -> blk l = blk k -> l = k.
Proof. unfold blk. intros H1 H2 H. apply N.pow_inj_r in H; lia. Qed.

(* inclusion is transitive (no side condition) *)
Lemma subnet_of_trans a b c : subnet_of a b = true -> subnet_of b c = true -> subnet_of a c = true.
Proof. destruct a as [a la], b as [b lb], c as [c lc]. rewrite !subnet_of_le. lia. Qed.
Lemma subnet_of_len n m : subnet_of n m = true -> blk (snd n) <= blk (snd m).
Proof. destruct n as [a l], m as [b k]. rewrite subnet_of_le. cbn [snd]. lia. Qed.
Lemma in_net_first n : in_net (fst n) n.
Proof. destruct n as [a l]. unfold in_net. cbn [fst]. pose proof (blk_pos l). lia. Qed.
Lemma in_net_last n : in_net (fst n + blk (snd n) - 1) n.
Proof. destruct n as [a l]. unfold in_net. cbn [fst snd]. pose proof (blk_pos l). lia. Qed.

(* a host network (x, W) is inside p exactly when x is a member of p *)
Lemma blk_host : blk W = 1.
Proof. unfold blk. rewrite N.sub_diag. reflexivity. Qed.
Lemma subnet_of_host x p : subnet_of (x, W) p = in_netb x p.
Proof.
  destruct p as [b k]. unfold subnet_of, in_netb. rewrite blk_host. f_equal.
  destruct (N.leb_spec (x + 1) (b + blk k)), (N.ltb_spec x (b + blk k)); try reflexivity; lia.
Qed.
End Net.

(* Python: int(addr) & int(netmask) with netmask = ALL_ONES ^ (ALL_ONES >> l) = l ones followed by W-l zeros *)
Definition netmask (W l : N) : N := N.shiftl (N.ones l) (W - l).
Lemma mk_net_land W x l : l <= W -> x < 2 ^ W -> fst (mk_net W x l) = N.land x (netmask W l).
Proof.
  intros Hl Hx. unfold mk_net, blk, netmask. cbn [fst].
  rewrite <- N.shiftr_div_pow2, <- N.shiftl_mul_pow2. apply N.bits_inj. intros i.
  rewrite N.land_spec. destruct (N.ltb_spec i (W - l)) as [Hi|Hi].
  - rewrite !N.shiftl_spec_low by exact Hi. rewrite andb_false_r. reflexivity.
  - rewrite !N.shiftl_spec_high' by exact Hi. rewrite N.shiftr_spec'. replace (i - (W - l) + (W - l)) with i by lia.
    destruct (N.ltb_spec (i - (W - l)) l) as [Hj|Hj].
    + rewrite N.ones_spec_low by exact Hj. rewrite andb_true_r. reflexivity.
    + rewrite N.ones_spec_high by exact Hj. rewrite andb_false_r.
      rewrite <- (N.mod_small x (2 ^ W)) by exact Hx. apply N.mod_pow2_bits_high. lia.
Qed.
Lemma netmask_xor W l : l <= W -> netmask W l = N.lxor (N.ones W) (N.shiftr (N.ones W) l).
Proof.
  intros Hl. unfold netmask. apply N.bits_inj. intros i. rewrite N.lxor_spec, N.shiftr_spec'.
  destruct (N.ltb_spec i (W - l)) as [Hi|Hi].
  - rewrite N.shiftl_spec_low by exact Hi. rewrite !N.ones_spec_low by lia. reflexivity.
  - rewrite N.shiftl_spec_high' by exact Hi. destruct (N.ltb_spec i W) as [Hw|Hw].
    + rewrite (N.ones_spec_low W i) by exact Hw. rewrite N.ones_spec_low by lia. rewrite N.ones_spec_high by lia. reflexivity.
    + rewrite !N.ones_spec_high by lia. reflexivity.
Qed.
