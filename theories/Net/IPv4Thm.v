(* The declarative grammar of IPv4 CIDR texts ([dotted_quad], [mask4_text], [cidr4_text]) and the theorems that tie the
   text model of Net/IPv4.v to it: the parser accepts exactly the grammar, and what is printed parses back. *)
From Coq Require Import List Bool NArith ZArith Lia.
From PV Require Import Base.Str Base.ListFacts Base.Value Net.Arith Net.NetText Net.IPv4.
Import ListNotations.
Local Open Scope N_scope.

(* declarative grammar of the accepted spellings (what the parser is proved against) *)

(* "a.b.c.d": four canonical decimal numerals (no leading zeros) below 256 *)
Definition dotted_quad (s : str) (x : N) : Prop :=
  exists a b c d, a < 256 /\ b < 256 /\ c < 256 /\ d < 256 /\
    s = print_small a ++ [DOT] ++ print_small b ++ [DOT] ++ print_small c ++ [DOT] ++ print_small d /\
    x = a * 2 ^ 24 + b * 2 ^ 16 + c * 2 ^ 8 + d.

(* k is the netmask of /l, or (when it is no netmask at all) the hostmask of /l *)
Definition is_mask4 (k l : N) : Prop :=
  l <= 32 /\ (k = netmask4 l \/ (k = hostmask4 l /\ forall j, j <= 32 -> k <> netmask4 j)).

(* the part after '/': a decimal prefix length 0..32, or a dotted netmask / hostmask *)
Definition mask4_text (m : str) (l : N) : Prop :=
  (dec_text m l /\ l <= 32) \/ (exists k, dotted_quad m k /\ is_mask4 k l).

(* a CIDR spelling s writes address x with prefix length l *)
Definition cidr4_text (s : str) (x l : N) : Prop :=
  (dotted_quad s x /\ l = 32) \/
  (exists a m, s = a ++ SLASH :: m /\ dotted_quad a x /\ ~ In SLASH m /\ mask4_text m l).

Lemma parse_octet_sound s v : parse_octet s = Some v -> v < 256 /\ s = print_small v.
Proof.
  destruct s as [|a [|b [|c [|e s']]]]; cbv beta iota delta [parse_octet]; try discriminate.
  - intros H. apply dig_some in H. destruct H as [Hd ->]. rewrite print_small_1 by exact Hd. split; [lia | reflexivity].
  - destruct (dig a) as [x|] eqn:Ea; [|discriminate]. destruct (dig b) as [y|] eqn:Eb; [|discriminate].
    destruct (N.eqb_spec x 0) as [|Hx0]; [discriminate|]. intros H; apply some_inj in H; subst v.
    apply dig_some in Ea. apply dig_some in Eb. destruct Ea as [Hx ->]. destruct Eb as [Hy ->].
    rewrite print_small_2 by lia. split; [lia | reflexivity].
  - destruct (dig a) as [x|] eqn:Ea; [|discriminate]. destruct (dig b) as [y|] eqn:Eb; [|discriminate].
    destruct (dig c) as [z|] eqn:Ec; [|discriminate].
    destruct (N.eqb_spec x 0) as [|Hx0]; [discriminate|]. cbv zeta.
    destruct (N.leb_spec (100 * x + 10 * y + z) 255) as [Hle|]; [|discriminate].
    intros H; apply some_inj in H; subst v.
    apply dig_some in Ea. apply dig_some in Eb. apply dig_some in Ec.
    destruct Ea as [Hx ->]. destruct Eb as [Hy ->]. destruct Ec as [Hz ->].
    replace (100 * x + 10 * y + z) with (10 * (10 * x + y) + z) in * by lia.
    rewrite print_small_3 by lia. split; [lia | reflexivity].
Qed.

Lemma parse_octet_print v : v < 256 -> parse_octet (print_small v) = Some v.
Proof.
  intros H. destruct (small_cases v) as [L|[(x & y & Hx & Hy & ->)|(x & y & z & Hx & Hy & Hz & ->)]]; [lia | | |].
  - rewrite print_small_1 by exact L. apply dig_of, L.
  - rewrite print_small_2 by assumption. cbv beta iota delta [parse_octet]. rewrite !dig_of by lia.
    destruct (N.eqb_spec x 0); [lia | reflexivity].
  - rewrite print_small_3 by assumption. cbv beta iota delta [parse_octet]. rewrite !dig_of by lia. cbv zeta.
    destruct (N.eqb_spec x 0); [lia|]. destruct (N.leb_spec (100 * x + 10 * y + z) 255); [f_equal; lia | lia].
Qed.

Lemma print_small_no_dot v : ~ In DOT (print_small v).
Proof. apply print_small_low. reflexivity. Qed.
Lemma print_small_no_slash v : ~ In SLASH (print_small v).
Proof. apply print_small_low. reflexivity. Qed.

Lemma quad_value a b c d : ((a * 256 + b) * 256 + c) * 256 + d = a * 2 ^ 24 + b * 2 ^ 16 + c * 2 ^ 8 + d.
Proof. change (2 ^ 24) with 16777216. change (2 ^ 16) with 65536. change (2 ^ 8) with 256. lia. Qed.

Theorem parse_addr4_spec s x : parse_addr4 s = Some x <-> dotted_quad s x.
Proof.
  unfold parse_addr4, dotted_quad. split.
  - pose proof (split_ch_inv DOT s) as Hinv.
    destruct (split_ch DOT s) as [|p1 [|p2 [|p3 [|p4 [|p5 ps]]]]]; try discriminate.
    destruct (parse_octet p1) as [a|] eqn:E1; [|discriminate].
    destruct (parse_octet p2) as [b|] eqn:E2; [|discriminate].
    destruct (parse_octet p3) as [c|] eqn:E3; [|discriminate].
    destruct (parse_octet p4) as [d|] eqn:E4; [|discriminate].
    intros H; apply some_inj in H; subst x.
    apply parse_octet_sound in E1. apply parse_octet_sound in E2. apply parse_octet_sound in E3. apply parse_octet_sound in E4.
    destruct E1 as [Ha ->]. destruct E2 as [Hb ->]. destruct E3 as [Hc ->]. destruct E4 as [Hd ->].
    exists a, b, c, d. repeat split; try assumption.
    + rewrite <- Hinv. reflexivity.
    + apply quad_value.
  - intros (a & b & c & d & Ha & Hb & Hc & Hd & -> & ->).
    change (print_small a ++ [DOT] ++ print_small b ++ [DOT] ++ print_small c ++ [DOT] ++ print_small d)
      with (join [DOT] [print_small a; print_small b; print_small c; print_small d]).
    rewrite split_ch_join; [| discriminate | repeat constructor; apply print_small_no_dot].
    rewrite !parse_octet_print by assumption. f_equal. apply quad_value.
Qed.

Lemma dotted_quad_bound s x : dotted_quad s x -> x < 2 ^ 32.
Proof.
  intros (a & b & c & d & Ha & Hb & Hc & Hd & _ & ->).
  change (2 ^ 24) with 16777216. change (2 ^ 16) with 65536. change (2 ^ 8) with 256. change (2 ^ 32) with 4294967296. lia.
Qed.
Lemma dotted_quad_chars s x : dotted_quad s x -> Forall (fun c => 48 <= c <= 57 \/ c = DOT) s.
Proof.
  intros (a & b & c & d & Ha & Hb & Hc & Hd & -> & _).
  assert (P : forall v, v < 256 -> Forall (fun c => 48 <= c <= 57 \/ c = DOT) (print_small v)).
  { intros v Hv. eapply Forall_impl; [|apply print_small_digits; lia]. intros; left; assumption. }
  repeat (apply Forall_app; split); try (apply P; assumption); repeat constructor; right; reflexivity.
Qed.
Lemma dotted_quad_no_slash s x : dotted_quad s x -> ~ In SLASH s.
Proof. intros H. apply (Forall_notin _ _ _ (dotted_quad_chars s x H)). unfold SLASH, DOT. lia. Qed.
Lemma dotted_quad_has_dot s x : dotted_quad s x -> In DOT s.
Proof. intros (a & b & c & d & _ & _ & _ & _ & -> & _). apply in_or_app. right. left. reflexivity. Qed.
Lemma dotted_quad_fun s x y : dotted_quad s x -> dotted_quad s y -> x = y.
Proof. intros H1 H2. apply parse_addr4_spec in H1. apply parse_addr4_spec in H2. congruence. Qed.

Theorem print_addr4_quad a : a < 2 ^ 32 -> dotted_quad (print_addr4 a) a.
Proof.
  intros Ha. exists (a / 16777216), ((a / 65536) mod 256), ((a / 256) mod 256), (a mod 256).
  repeat split; try (apply N.mod_lt; discriminate); [apply N.div_lt_upper_bound; [discriminate | exact Ha]|].
  rewrite <- quad_value, (horner_step a 65536 16777216), (horner_step a 256 65536), horner_last by (reflexivity || discriminate).
  reflexivity.
Qed.

Theorem parse_addr4_print a : a < 2 ^ 32 -> parse_addr4 (print_addr4 a) = Some a.
Proof. intros H. apply parse_addr4_spec. apply print_addr4_quad. exact H. Qed.

Lemma find_range_bound f k l : find f (range k) = Some l -> l < N.of_nat k /\ f l = true.
Proof. intros H. apply find_some in H. destruct H as [H1 H2]. split; [apply range_In; exact H1 | exact H2]. Qed.
(* looking up a value of an injective function finds its argument *)
Lemma find_range_inj (g : N -> N) k l : l < N.of_nat k -> (forall j, j < N.of_nat k -> g j = g l -> j = l) ->
  find (fun j => g j =? g l) (range k) = Some l.
Proof.
  intros Hl Hinj. destruct (find _ (range k)) as [j|] eqn:E.
  - apply find_range_bound in E. destruct E as [Hj E]. apply N.eqb_eq in E. f_equal. apply Hinj; assumption.
  - pose proof (find_none _ _ E l (proj1 (range_In k l) Hl)) as F. cbv beta in F. rewrite N.eqb_refl in F. discriminate.
Qed.

(* the 33 netmasks 2^32 - b are distinct, and so are the 33 hostmasks b - 1, where b = 2^(32-l); a hostmask other than 0.0.0.0
   and 255.255.255.255 lies strictly between the netmask of /0 and all the others.  (The powers are made variables before
   [lia] sees them: it is slow on terms with [^].) *)
Lemma blk4_bounds l : 0 < 2 ^ (32 - l) <= 2 ^ 32.
Proof. exact (conj (blk_pos 32 l) (blk_le 32 l)). Qed.
Lemma blk4_inj j l : j <= 32 -> l <= 32 -> 2 ^ (32 - j) = 2 ^ (32 - l) -> j = l.
Proof. exact (blk_inj 32 j l). Qed.
(* both masks are injective functions of the block size b on 0 < b <= 2^32 *)
Lemma mask4_inj (f : N -> N) j l : (forall a b, 0 < a <= 2 ^ 32 -> 0 < b <= 2 ^ 32 -> f a = f b -> a = b) ->
  j <= 32 -> l <= 32 -> f (2 ^ (32 - j)) = f (2 ^ (32 - l)) -> j = l.
Proof. intros Hf Hj Hl E. apply blk4_inj; [exact Hj | exact Hl|]. apply Hf; [apply blk4_bounds | apply blk4_bounds | exact E]. Qed.
Lemma netmask4_inj j l : j <= 32 -> l <= 32 -> netmask4 j = netmask4 l -> j = l.
Proof. apply (mask4_inj (fun b => 2 ^ 32 - b)). intros a b. generalize (2 ^ 32). lia. Qed.
Lemma hostmask4_inj j l : j <= 32 -> l <= 32 -> hostmask4 j = hostmask4 l -> j = l.
Proof. apply (mask4_inj (fun b => b - 1)). intros a b. lia. Qed.
Lemma netmask4_bound l : netmask4 l < 2 ^ 32.
Proof. unfold netmask4. apply N.sub_lt; apply blk4_bounds. Qed.
Lemma hostmask4_bound l : hostmask4 l < 2 ^ 32.
Proof. unfold hostmask4. pose proof (blk4_bounds l) as B. revert B. generalize (2 ^ (32 - l)) (2 ^ 32). lia. Qed.
Lemma hostmask4_not_netmask l j : 0 < l -> l < 32 -> hostmask4 l <> netmask4 j.
Proof.
  intros H0 H. unfold hostmask4, netmask4.
  assert (A : 2 <= 2 ^ (32 - l) <= 2 ^ 31) by (split; [change 2 with (2 ^ 1) at 1|]; apply N.pow_le_mono_r; lia).
  destruct (N.eq_dec j 0) as [->|Hj]; [rewrite N.sub_diag; revert A; generalize (2 ^ (32 - l)); lia|].
  assert (B : 2 ^ (32 - j) <= 2 ^ 31) by (apply N.pow_le_mono_r; lia). change (2 ^ 32) with (2 * 2 ^ 31).
  revert A B. generalize (2 ^ (32 - l)) (2 ^ (32 - j)) (2 ^ 31). lia.
Qed.

Theorem mask_len_spec m l : mask_len m = Some l <-> is_mask4 m l.
Proof.
  unfold mask_len, is_mask4. split.
  - destruct (find (fun l0 => netmask4 l0 =? m) (range 33)) as [k|] eqn:E1.
    + intros H; inversion H; subst k. apply find_range_bound in E1. destruct E1 as [Hb He]. apply N.eqb_eq in He.
      split; [lia | left; congruence].
    + intros E2. apply find_range_bound in E2. destruct E2 as [Hb He]. apply N.eqb_eq in He.
      split; [lia | right]. split; [congruence|]. intros j Hj Hm.
      assert (Hin : In j (range 33)) by (apply range_In; lia).
      pose proof (find_none _ _ E1 j Hin) as Hn. cbv beta in Hn. rewrite Hm, N.eqb_refl in Hn. discriminate.
  - intros [Hl [->|[-> Hno]]].
    + rewrite (find_range_inj netmask4 33 l); [reflexivity | lia | intros j Hj; apply netmask4_inj; lia].
    + destruct (find (fun l0 => netmask4 l0 =? hostmask4 l) (range 33)) as [k|] eqn:E1.
      * exfalso. apply find_range_bound in E1. destruct E1 as [Hb He]. apply N.eqb_eq in He.
        apply (Hno k); [lia | congruence].
      * apply (find_range_inj hostmask4); [lia|]. intros j Hj. apply hostmask4_inj; lia.
Qed.

Lemma mask_len_netmask l : l <= 32 -> mask_len (netmask4 l) = Some l.
Proof. intros H. apply mask_len_spec. split; [exact H | left; reflexivity]. Qed.
Lemma mask_len_hostmask l : 0 < l -> l < 32 -> mask_len (hostmask4 l) = Some l.
Proof.
  intros H0 H. apply mask_len_spec. split; [lia | right]. split; [reflexivity|]. intros j _. apply hostmask4_not_netmask; assumption.
Qed.
Lemma mask_len_bound m l : mask_len m = Some l -> l <= 32.
Proof. intros H. apply mask_len_spec in H. destruct H as [H _]. exact H. Qed.

Lemma parse_plen_spec maxl s l : parse_plen maxl s = Some l <-> dec_text s l /\ l <= maxl.
Proof.
  unfold parse_plen. split.
  - destruct (parse_dec s) as [v|] eqn:E; [|discriminate]. destruct (N.leb_spec v maxl) as [Hle|Hgt]; [|discriminate].
    intros Hs; apply some_inj in Hs; subst v. split; [apply parse_dec_spec; exact E | assumption].
  - intros [H1 H2]. apply parse_dec_spec in H1. rewrite H1. rewrite (proj2 (N.leb_le l maxl) H2). reflexivity.
Qed.

Lemma parse_plen_print maxl l : l <= maxl -> l < 1000 -> parse_plen maxl (print_small l) = Some l.
Proof. intros H1 H2. apply parse_plen_spec. split; [apply print_small_dec; exact H2 | exact H1]. Qed.

Theorem parse_mask4_spec m l : parse_mask4 m = Some l <-> mask4_text m l.
Proof.
  unfold parse_mask4, mask4_text. split.
  - destruct (parse_plen 32 m) as [k|] eqn:E.
    + intros H; inversion H; subst k. left. apply parse_plen_spec. exact E.
    + destruct (parse_addr4 m) as [k|] eqn:Ea; [|discriminate]. intros H. right. exists k.
      split; [apply parse_addr4_spec; exact Ea | apply mask_len_spec; exact H].
  - intros [H|(k & Hq & Hm)].
    + apply parse_plen_spec in H. rewrite H. reflexivity.
    + assert (E : parse_plen 32 m = None).
      { unfold parse_plen. rewrite (parse_dec_no DOT m); [reflexivity | eapply dotted_quad_has_dot; exact Hq | unfold DOT; lia]. }
      rewrite E. apply parse_addr4_spec in Hq. rewrite Hq. apply mask_len_spec. exact Hm.
Qed.
Lemma mask4_text_bound m l : mask4_text m l -> l <= 32.
Proof. intros [[_ H]|(k & _ & H & _)]; exact H. Qed.

(* the three spellings of a prefix length *)
Lemma parse_mask4_len l : l <= 32 -> parse_mask4 (print_small l) = Some l.
Proof. intros H. unfold parse_mask4. rewrite parse_plen_print by lia. reflexivity. Qed.
Lemma parse_mask4_quad k l : k < 2 ^ 32 -> is_mask4 k l -> parse_mask4 (print_addr4 k) = Some l.
Proof. intros Hk Hm. apply parse_mask4_spec. right. exists k. split; [apply print_addr4_quad; exact Hk | exact Hm]. Qed.
Lemma parse_mask4_netmask l : l <= 32 -> parse_mask4 (print_mask4 l) = Some l.
Proof. intros H. apply parse_mask4_quad; [apply netmask4_bound | apply mask_len_spec, mask_len_netmask, H]. Qed.
Lemma parse_mask4_hostmask l : 0 < l -> l < 32 -> parse_mask4 (print_hostmask4 l) = Some l.
Proof. intros H0 H. apply parse_mask4_quad; [apply hostmask4_bound | apply mask_len_spec, mask_len_hostmask; assumption]. Qed.

Lemma print_addr4_no_slash a : a < 2 ^ 32 -> ~ In SLASH (print_addr4 a).
Proof. intros H. eapply dotted_quad_no_slash, print_addr4_quad, H. Qed.

(* address "/" mask, neither holding a '/': the two are read independently *)
Lemma parse4_slash a m : ~ In SLASH a -> ~ In SLASH m ->
  parse4 (a ++ SLASH :: m) =
  match parse_addr4 a, parse_mask4 m with Some x, Some l => Ok (mk_net W4 x l) | _, _ => Err EValue end.
Proof.
  intros Ha Hm. unfold parse4, written4. rewrite split_ch_two by assumption.
  destruct (parse_addr4 a), (parse_mask4 m); reflexivity.
Qed.

Theorem written4_spec s x l : written4 s = Some (x, l) <-> cidr4_text s x l.
Proof.
  unfold written4, cidr4_text. split.
  - pose proof (split_ch_inv SLASH s) as Hinv. pose proof (split_ch_pieces SLASH s) as Hp.
    destruct (split_ch SLASH s) as [|a [|m [|p3 ps]]]; try discriminate.
    + destruct (parse_addr4 a) as [y|] eqn:Ea; [|discriminate]. intros Hs. apply some_inj in Hs.
      apply pair_equal_spec in Hs. destruct Hs as [-> <-].
      left. split; [|reflexivity]. cbn [join] in Hinv. rewrite <- Hinv. apply parse_addr4_spec. exact Ea.
    + destruct (parse_addr4 a) as [y|] eqn:Ea; [|discriminate]. destruct (parse_mask4 m) as [k|] eqn:Em; [|discriminate].
      intros Hs. apply some_inj in Hs. apply pair_equal_spec in Hs. destruct Hs as [-> ->]. right. exists a, m.
      apply Forall_inv_tail in Hp. apply Forall_inv in Hp.
      repeat split; [rewrite <- Hinv; reflexivity | apply parse_addr4_spec; exact Ea | exact Hp | apply parse_mask4_spec; exact Em].
  - intros [[Hq ->]|(a & m & -> & Hq & Hm & Ht)].
    + rewrite split_ch_none by (eapply dotted_quad_no_slash; exact Hq).
      apply parse_addr4_spec in Hq. rewrite Hq. reflexivity.
    + rewrite split_ch_two by (try exact Hm; eapply dotted_quad_no_slash; exact Hq).
      apply parse_addr4_spec in Hq. apply parse_mask4_spec in Ht. rewrite Hq, Ht. reflexivity.
Qed.

Lemma cidr4_text_bounds s x l : cidr4_text s x l -> x < 2 ^ 32 /\ l <= 32.
Proof.
  intros [[Hq ->]|(a & m & _ & Hq & _ & Ht)].
  - split; [eapply dotted_quad_bound; exact Hq | lia].
  - split; [eapply dotted_quad_bound; exact Hq | eapply mask4_text_bound; exact Ht].
Qed.

Lemma parse4_ok s n : parse4 s = Ok n <-> exists x l, cidr4_text s x l /\ n = mk_net W4 x l.
Proof.
  unfold parse4. split.
  - destruct (written4 s) as [[x l]|] eqn:E; [|discriminate]. intros H; inversion H; subst n.
    exists x, l. split; [apply written4_spec; exact E | reflexivity].
  - intros (x & l & Ht & ->). apply written4_spec in Ht. rewrite Ht. reflexivity.
Qed.
Lemma parse4_err s : parse4 s = Err EValue \/ exists n, parse4 s = Ok n.
Proof. unfold parse4. destruct (written4 s) as [[x l]|]; [right; eexists; reflexivity | left; reflexivity]. Qed.

Theorem parse4_wf s n : parse4 s = Ok n -> wf W4 n.
Proof.
  intros H. apply parse4_ok in H. destruct H as (x & l & Ht & ->). apply cidr4_text_bounds in Ht.
  apply mk_net_wf; apply Ht.
Qed.

(* prefix-length spelling = netmask spelling, for any address text *)
Theorem parse4_spellings a l : ~ In SLASH a -> l <= 32 ->
  parse4 (a ++ SLASH :: print_small l) = parse4 (a ++ SLASH :: print_mask4 l).
Proof.
  intros Ha Hl. rewrite !parse4_slash by (try exact Ha; try apply print_small_no_slash; apply print_addr4_no_slash, netmask4_bound).
  rewrite parse_mask4_len, parse_mask4_netmask by exact Hl. reflexivity.
Qed.

(* whatever host bits are written: the network of the written address is stored *)
Theorem parse4_written x l : x < 2 ^ 32 -> l <= 32 ->
  parse4 (print_addr4 x ++ SLASH :: print_small l) = Ok (mk_net W4 x l).
Proof.
  intros Hx Hl. rewrite parse4_slash by (try apply print_small_no_slash; apply print_addr4_no_slash, Hx).
  rewrite parse_addr4_print, parse_mask4_len by assumption. reflexivity.
Qed.

(* str() of a network is one of its spellings and parses back to the same network: what resolve() + re-validation does *)
Theorem print4_text n : wf W4 n -> cidr4_text (print4 n) (fst n) (snd n).
Proof.
  destruct n as [a l]. intros (Hl & Ha & _). unfold print4. cbn [fst snd]. right.
  exists (print_addr4 a), (print_small l). unfold W4 in *.
  repeat split; [apply print_addr4_quad; exact Ha | apply print_small_no_slash|].
  left. split; [apply print_small_dec; lia | exact Hl].
Qed.

Theorem parse4_print4 n : wf W4 n -> parse4 (print4 n) = Ok n.
Proof.
  intros H. apply parse4_ok. exists (fst n), (snd n). split; [apply print4_text; exact H|].
  destruct n as [a l]. symmetry. apply mk_net_of_wf. exact H.
Qed.
