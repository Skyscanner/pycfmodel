(* Text helpers shared by the IPv4 and IPv6 parsers: str.split on one character, join, ASCII decimal, positional digits. *)
From Coq Require Import List Bool NArith ZArith Lia.
From PV Require Import Base.Str Base.ListFacts.
Import ListNotations.
Local Open Scope N_scope.

Definition DOT : N := 46.
Definition SLASH : N := 47.
Definition COLON : N := 58.
Definition PERCENT : N := 37.

(* [Str.join_cons2] with the element type written [list N], as it is in the goals here: [rewrite] compares it by syntax *)
Lemma join_cons2 (d p q : list N) (ps : list (list N)) : join d (p :: q :: ps) = p ++ d ++ join d (q :: ps).
Proof. reflexivity. Qed.
Lemma join_app (d : str) A B : A <> [] -> B <> [] -> join d (A ++ B) = join d A ++ d ++ join d B.
Proof.
  induction A as [|a A IH]; [congruence|]. intros _ HB. destruct A as [|a' A'].
  - destruct B as [|b B']; [congruence|]. reflexivity.
  - change ((a :: a' :: A') ++ B) with (a :: a' :: (A' ++ B)). rewrite !join_cons2.
    change (a' :: A' ++ B) with ((a' :: A') ++ B). rewrite IH by (try discriminate; exact HB). rewrite <- !app_assoc. reflexivity.
Qed.
Lemma in_join c d parts : In c (join [d] parts) -> c = d \/ exists p, In p parts /\ In c p.
Proof.
  induction parts as [|p ps IH]; [intros []|]. destruct ps as [|q ps'].
  - cbn [join]. intros H. right. exists p. split; [left; reflexivity | exact H].
  - rewrite join_cons2. intros H.
    apply in_app_or in H. destruct H as [H|H]; [right; exists p; split; [left; reflexivity | exact H]|].
    cbn [app] in H. destruct H as [H|H]; [left; symmetry; exact H|].
    destruct (IH H) as [E|(p' & Hp & Hc)]; [left; exact E | right; exists p'; split; [right; exact Hp | exact Hc]].
Qed.
(* the characters of a joined text are the separator's and the pieces' *)
Lemma Forall_join (P : N -> Prop) d parts : P d -> Forall (Forall P) parts -> Forall P (join [d] parts).
Proof.
  intros Hd HF. apply Forall_forall. intros c Hc. apply in_join in Hc. destruct Hc as [->|(p & Hp & Hc)]; [exact Hd|].
  rewrite Forall_forall in HF. specialize (HF p Hp). rewrite Forall_forall in HF. exact (HF c Hc).
Qed.

(* Python's s.split(c) for a one-character separator: always at least one piece *)
Fixpoint split_ch (c : N) (s : str) : list str :=
  match s with
  | [] => [[]]
  | x :: s' =>
      if x =? c then [] :: split_ch c s'
      else match split_ch c s' with h :: t => (x :: h) :: t | [] => [[x]] end
  end.

Definition has_ch (c : N) (s : str) : bool := existsb (N.eqb c) s.
Lemma has_ch_In c s : has_ch c s = true <-> In c s.
Proof.
  unfold has_ch. rewrite existsb_exists. split.
  - intros (x & Hx & E). apply N.eqb_eq in E. subst. exact Hx.
  - intros H. exists c. split; [exact H | apply N.eqb_refl].
Qed.
Lemma has_ch_false c s : has_ch c s = false <-> ~ In c s.
Proof. rewrite <- has_ch_In. destruct (has_ch c s); split; congruence. Qed.

Lemma split_ch_nonnil c s : split_ch c s <> [].
Proof. destruct s as [|x s]; simpl; [discriminate|]. destruct (x =? c); [discriminate|]. destruct (split_ch c s); discriminate. Qed.

Lemma split_ch_none c s : ~ In c s -> split_ch c s = [s].
Proof.
  induction s as [|x s IH]; simpl; intros H; [reflexivity|].
  destruct (N.eqb_spec x c) as [E|E]; [exfalso; apply H; left; exact E|].
  rewrite IH by tauto. reflexivity.
Qed.

Lemma split_ch_app c s1 s2 : ~ In c s1 -> split_ch c (s1 ++ c :: s2) = s1 :: split_ch c s2.
Proof.
  induction s1 as [|x s1 IH]; simpl; intros H.
  - rewrite N.eqb_refl. reflexivity.
  - destruct (N.eqb_spec x c) as [E|E]; [exfalso; apply H; left; exact E|].
    rewrite IH by tauto. reflexivity.
Qed.

Lemma split_ch_join c parts : parts <> [] -> Forall (fun p => ~ In c p) parts -> split_ch c (join [c] parts) = parts.
Proof.
  induction parts as [|p ps IH]; [congruence|]. intros _ HF. inversion HF as [|? ? Hp Hps]; subst.
  destruct ps as [|q ps'].
  - simpl. apply split_ch_none. exact Hp.
  - rewrite join_cons2. simpl app. rewrite split_ch_app by exact Hp. f_equal. apply IH; [discriminate | exact Hps].
Qed.
(* one separator: two pieces *)
Lemma split_ch_two c a m : ~ In c a -> ~ In c m -> split_ch c (a ++ c :: m) = [a; m].
Proof. intros Ha Hm. rewrite split_ch_app, split_ch_none by assumption. reflexivity. Qed.

(* splitting loses nothing: the pieces joined by the separator are the text, and no piece holds the separator *)
Lemma split_ch_inv c s : join [c] (split_ch c s) = s.
Proof.
  induction s as [|x s IH]; [reflexivity|]. simpl.
  destruct (N.eqb_spec x c) as [E|E].
  - subst x. pose proof (split_ch_nonnil c s) as Hn. destruct (split_ch c s) as [|h t] eqn:Es; [congruence|].
    change (join [c] ([] :: h :: t)) with ([] ++ [c] ++ join [c] (h :: t)). rewrite IH. reflexivity.
  - pose proof (split_ch_nonnil c s) as Hn. destruct (split_ch c s) as [|h t] eqn:Es; [congruence|].
    destruct t as [|h' t'].
    + simpl in *. subst. reflexivity.
    + change (join [c] ((x :: h) :: h' :: t')) with ((x :: h) ++ [c] ++ join [c] (h' :: t')).
      change (join [c] (h :: h' :: t')) with (h ++ [c] ++ join [c] (h' :: t')) in IH.
      rewrite <- IH. reflexivity.
Qed.
Lemma split_ch_pieces c s : Forall (fun p => ~ In c p) (split_ch c s).
Proof.
  induction s as [|x s IH]; simpl; [constructor; [tauto | constructor]|].
  destruct (N.eqb_spec x c) as [E|E]; [constructor; [tauto | exact IH]|].
  destruct (split_ch c s) as [|h t]; [constructor; [simpl; intros [F|[]]; congruence | constructor]|].
  inversion IH; subst. constructor; [simpl; intros [F|F]; [congruence | tauto] | assumption].
Qed.

Definition dig (c : N) : option N := if (48 <=? c) && (c <=? 57) then Some (c - 48) else None.
Lemma dig_some c d : dig c = Some d <-> d < 10 /\ c = 48 + d.
Proof.
  unfold dig. destruct ((48 <=? c) && (c <=? 57)) eqn:E.
  - apply andb_true_iff in E. destruct E as [E1 E2]. apply N.leb_le in E1. apply N.leb_le in E2.
    split; [intros H; inversion H; subst; lia | intros [H1 H2]; f_equal; lia].
  - apply andb_false_iff in E. split; [discriminate|]. intros [H1 H2]. exfalso.
    destruct E as [E|E]; [apply N.leb_gt in E | apply N.leb_gt in E]; lia.
Qed.
Lemma dig_of d : d < 10 -> dig (48 + d) = Some d.
Proof. intros H. apply dig_some. split; [exact H | reflexivity]. Qed.

Fixpoint dec_go (acc : N) (s : str) : option N :=
  match s with
  | [] => Some acc
  | c :: s' => match dig c with Some d => dec_go (10 * acc + d) s' | None => None end
  end.
(* str.isascii() and str.isdigit() and then int(s): non-empty, ASCII digits only, leading zeros allowed *)
Definition parse_dec (s : str) : option N := match s with [] => None | _ => dec_go 0 s end.

(* declarative reading of a decimal numeral (leading zeros allowed) *)
Inductive dec_text : str -> N -> Prop :=
| dec_one d : d < 10 -> dec_text [48 + d] d
| dec_snoc s v d : dec_text s v -> d < 10 -> dec_text (s ++ [48 + d]) (10 * v + d).

Lemma dec_go_app acc s c : dec_go acc (s ++ [c]) =
  match dec_go acc s with Some v => match dig c with Some d => Some (10 * v + d) | None => None end | None => None end.
Proof.
  revert acc; induction s as [|x s IH]; intros acc; simpl.
  - destruct (dig c); reflexivity.
  - destruct (dig x); [apply IH | reflexivity].
Qed.

Lemma parse_dec_snoc s c : parse_dec (s ++ [c]) = dec_go 0 (s ++ [c]).
Proof. destruct s; reflexivity. Qed.

Lemma parse_dec_spec s v : parse_dec s = Some v <-> dec_text s v.
Proof.
  split.
  - revert v. induction s as [|c s IH] using rev_ind; intros v H; [discriminate|].
    rewrite parse_dec_snoc, dec_go_app in H. destruct (dec_go 0 s) as [w|] eqn:Eg; [|discriminate].
    destruct (dig c) as [d|] eqn:Ed; [|discriminate]. inversion H; subst. apply dig_some in Ed. destruct Ed as [Hd ->].
    destruct s as [|y s'].
    + simpl in Eg. inversion Eg; subst. simpl. replace (10 * 0 + d) with d by lia. constructor. exact Hd.
    + constructor; [apply IH; unfold parse_dec; exact Eg | exact Hd].
  - induction 1 as [d Hd | s v d Hs IH Hd].
    + unfold parse_dec. cbn [dec_go]. rewrite dig_of by exact Hd. f_equal.
    + rewrite parse_dec_snoc, dec_go_app. assert (Eg : dec_go 0 s = Some v) by (destruct s; [discriminate IH | exact IH]).
      rewrite Eg, dig_of by exact Hd. reflexivity.
Qed.

Lemma dec_go_digits acc s v : dec_go acc s = Some v -> Forall (fun c => 48 <= c <= 57) s.
Proof.
  revert acc; induction s as [|c s IH]; intros acc H; [constructor|]. simpl in H.
  destruct (dig c) as [d|] eqn:Ed; [|discriminate]. apply dig_some in Ed. constructor; [lia | eapply IH; exact H].
Qed.
Lemma parse_dec_digits s v : parse_dec s = Some v -> Forall (fun c => 48 <= c <= 57) s.
Proof. unfold parse_dec. destruct s; [discriminate|]. apply dec_go_digits. Qed.
Lemma parse_dec_no c s : In c s -> ~ (48 <= c <= 57) -> parse_dec s = None.
Proof.
  intros Hin Hc. destruct (parse_dec s) eqn:E; [|reflexivity]. exfalso.
  exact (Forall_notin _ _ _ (parse_dec_digits _ _ E) Hc Hin).
Qed.

(* canonical decimal (no leading zeros) of a number below 1000 -- Python's str(int) on that range *)
Definition print_small (n : N) : str :=
  if n <? 10 then [48 + n]
  else if n <? 100 then [48 + n / 10; 48 + n mod 10]
  else [48 + n / 100; 48 + (n / 10) mod 10; 48 + n mod 10].

(* the numbers 0 .. k-1 *)
Definition range (k : nat) : list N := map N.of_nat (seq 0 k).
Lemma range_In k n : n < N.of_nat k <-> In n (range k).
Proof.
  unfold range. rewrite in_map_iff. split.
  - intros H. exists (N.to_nat n). split; [apply N2Nat.id | apply in_seq; lia].
  - intros (m & <- & Hm). apply in_seq in Hm. lia.
Qed.
Lemma div_mod_digit b q d : d < b -> (b * q + d) / b = q /\ (b * q + d) mod b = d.
Proof.
  intros H. assert (Hb : b <> 0) by lia.
  apply (N.div_mod_unique b); [apply N.mod_lt; exact Hb | exact H | symmetry; apply N.div_mod; exact Hb].
Qed.
(* one step of Horner's rule on the digits of a: (a / (p*c)) is the part above the digit (a / p) mod c *)
Lemma horner_step a p q c : q = p * c -> p <> 0 -> c <> 0 -> a / q * c + (a / p) mod c = a / p.
Proof. intros -> Hp Hc. rewrite <- N.div_div by assumption. rewrite N.mul_comm. symmetry. apply N.div_mod. exact Hc. Qed.
Lemma horner_last a c : c <> 0 -> a / c * c + a mod c = a.
Proof. intros Hc. rewrite N.mul_comm. symmetry. apply N.div_mod. exact Hc. Qed.

(* [print_small] writes one, two or three digits, the first of several not zero ... *)
Lemma print_small_1 d : d < 10 -> print_small d = [48 + d].
Proof. intros H. unfold print_small. apply N.ltb_lt in H. rewrite H. reflexivity. Qed.
Lemma print_small_2 x y : 0 < x < 10 -> y < 10 -> print_small (10 * x + y) = [48 + x; 48 + y].
Proof.
  intros Hx Hy. unfold print_small. destruct (div_mod_digit 10 x y Hy) as [-> ->].
  destruct (N.ltb_spec (10 * x + y) 10); [lia|]. destruct (N.ltb_spec (10 * x + y) 100); [reflexivity | lia].
Qed.
Lemma print_small_3 x y z : 0 < x < 10 -> y < 10 -> z < 10 ->
  print_small (10 * (10 * x + y) + z) = [48 + x; 48 + y; 48 + z].
Proof.
  intros Hx Hy Hz. unfold print_small. change 100 with (10 * 10) at 2. rewrite <- N.div_div by discriminate.
  destruct (div_mod_digit 10 (10 * x + y) z Hz) as [-> ->]. destruct (div_mod_digit 10 x y Hy) as [-> ->].
  destruct (N.ltb_spec (10 * (10 * x + y) + z) 10); [lia|]. destruct (N.ltb_spec (10 * (10 * x + y) + z) 100); [lia | reflexivity].
Qed.
(* ... and every number below 1000 is of one of these three forms *)
Lemma small_cases n : n < 1000 ->
  n < 10 \/ (exists x y, 0 < x < 10 /\ y < 10 /\ n = 10 * x + y) \/
  (exists x y z, 0 < x < 10 /\ y < 10 /\ z < 10 /\ n = 10 * (10 * x + y) + z).
Proof.
  intros H. set (q := n / 10). set (r := n mod 10). set (x := q / 10). set (y := q mod 10).
  assert (E : n = 10 * q + r) by (apply N.div_mod; discriminate). assert (L : r < 10) by (apply N.mod_lt; discriminate).
  assert (E' : q = 10 * x + y) by (apply N.div_mod; discriminate). assert (L' : y < 10) by (apply N.mod_lt; discriminate).
  clearbody q r x y. destruct (N.lt_ge_cases n 10) as [H1|H1]; [left; exact H1 | right].
  destruct (N.lt_ge_cases n 100) as [H2|H2]; [left; exists q, r; lia | right; exists x, y, r; lia].
Qed.

Lemma parse_dec_print_small n : n < 1000 -> parse_dec (print_small n) = Some n.
Proof.
  intros H. destruct (small_cases n H) as [L|[(x & y & Hx & Hy & ->)|(x & y & z & Hx & Hy & Hz & ->)]].
  - rewrite print_small_1 by exact L. unfold parse_dec. cbn [dec_go]. rewrite dig_of by exact L. reflexivity.
  - rewrite print_small_2 by assumption. unfold parse_dec. cbn [dec_go]. rewrite !dig_of by lia. reflexivity.
  - rewrite print_small_3 by assumption. unfold parse_dec. cbn [dec_go]. rewrite !dig_of by lia. reflexivity.
Qed.
Lemma print_small_dec n : n < 1000 -> dec_text (print_small n) n.
Proof. intros H. apply parse_dec_spec, parse_dec_print_small, H. Qed.
Lemma print_small_digits n : n < 1000 -> Forall (fun c => 48 <= c <= 57) (print_small n).
Proof. intros H. eapply parse_dec_digits, parse_dec_print_small, H. Qed.
(* every character is '0' or above, whatever the number *)
Lemma print_small_low c n : c < 48 -> ~ In c (print_small n).
Proof.
  intros Hc. apply (Forall_notin (fun c => 48 <= c)); [|lia].
  unfold print_small. destruct (n <? 10); [|destruct (n <? 100)]; repeat constructor; apply N.le_add_r.
Qed.
Lemma print_small_no c n : n < 1000 -> ~ (48 <= c <= 57) -> ~ In c (print_small n).
Proof. intros H. exact (Forall_notin _ _ c (print_small_digits n H)). Qed.

(* print_small is Python's str(int) as modelled in Base/Str.v *)
(* the fuel of [digits_N], one more than the binary length, covers the decimal digits *)
Lemma print_small_str_of_Z n : n < 1000 -> print_small n = str_of_Z (Z.of_N n).
Proof.
  intros H. destruct n as [|p]; [reflexivity|]. cbn [Z.of_N str_of_Z]. unfold digits_N. set (n := N.pos p) in *.
  assert (F : n < 10 \/ exists f, N.to_nat (N.log2 n) = S (S f)).
  { destruct (N.lt_ge_cases n 10) as [L|L]; [left; exact L | right].
    pose proof (N.log2_le_mono 8 n ltac:(lia)) as M. change (N.log2 8) with 3 in M.
    exists (N.to_nat (N.log2 n) - 2)%nat. lia. }
  clearbody n. destruct (small_cases n H) as [L|[(x & y & Hx & Hy & ->)|(x & y & z & Hx & Hy & Hz & ->)]].
  - rewrite print_small_1, digits_pos_go_step by exact L. apply N.ltb_lt in L. rewrite L. reflexivity.
  - destruct F as [F|[f ->]]; [lia|]. rewrite print_small_2, !digits_pos_go_step by assumption.
    destruct (div_mod_digit 10 x y Hy) as [-> ->].
    destruct (N.ltb_spec (10 * x + y) 10); [lia|]. destruct (N.ltb_spec x 10); [reflexivity | lia].
  - destruct F as [F|[f ->]]; [lia|]. rewrite print_small_3, !digits_pos_go_step by assumption.
    destruct (div_mod_digit 10 (10 * x + y) z Hz) as [-> ->]. destruct (div_mod_digit 10 x y Hy) as [-> ->].
    destruct (N.ltb_spec (10 * (10 * x + y) + z) 10); [lia|]. destruct (N.ltb_spec (10 * x + y) 10); [lia|].
    destruct (N.ltb_spec x 10); [reflexivity | lia].
Qed.
