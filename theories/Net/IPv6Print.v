(* str(ipaddress.IPv6Network) -- the RFC 5952 compressed text, as CPython 3.12 prints it
   (ipaddress._BaseV6._string_from_ip_int + _compress_hextets), and the proof that the model's parser reads it back.

     hex_str = '%032x' % ip_int
     hextets = ['%x' % int(hex_str[x:x+4], 16) for x in range(0, 32, 4)]      -- groups6, hexnz
     hextets = cls._compress_hextets(hextets)                                 -- best_run, compress_hextets
     return ':'.join(hextets)
   and, for a network, '%s/%d' % (network_address, prefixlen).

   The scan for the run of zero hextets is CPython's loop, variable for variable (cstep); the list surgery that puts the
   empty strings in is CPython's too (compress_hextets). *)
From Coq Require Import List Bool NArith ZArith Lia.
From PV Require Import Base.Str Base.ListFacts Net.Arith Net.NetText Net.IPv6 Net.IPv6Thm.
Import ListNotations.
Local Open Scope N_scope.

(* '%x' % v for v < 65536: the four digits of '%04x' without their leading zeros (the last digit always stays) *)
Fixpoint strip0 (s : str) : str :=
  match s with
  | c :: (_ :: _) as t => if c =? 48 then strip0 t else s
  | _ => s
  end.
Definition hexnz (v : N) : str := strip0 (hex4 v).

(* the loop of _compress_hextets.  State = (best_doublecolon_start, best_doublecolon_len, doublecolon_start,
   doublecolon_len); Python's start -1 is None. *)
Definition cstate := (option nat * nat * option nat * nat)%type.
Definition cinit : cstate := (None, 0%nat, None, 0%nat).
Definition cstep (st : cstate) (index : nat) (hextet : N) : cstate :=
  let '(bs, bl, cs, cl) := st in
  if hextet =? 0 then
    let cl' := S cl in                                                    (* doublecolon_len += 1 *)
    let cs' := match cs with None => Some index | Some _ => cs end in     (* if doublecolon_start == -1: ... = index *)
    if Nat.ltb bl cl' then (cs', cl', cs', cl')                           (* if doublecolon_len > best_doublecolon_len *)
    else (bs, bl, cs', cl')
  else (bs, bl, None, 0%nat).
Fixpoint cscan (hextets : list N) (index : nat) (st : cstate) : cstate :=
  match hextets with
  | [] => st
  | h :: rest => cscan rest (S index) (cstep st index h)
  end.
(* (start, length) of the run that will be replaced; used only when the length exceeds 1 *)
Definition best_run (hextets : list N) : option nat * nat :=
  let '(bs, bl, _, _) := cscan hextets 0 cinit in (bs, bl).

(* the tail of _compress_hextets on the list of texts *)
Definition compress_hextets (hs : list str) (bs : option nat) (bl : nat) : list str :=
  match bs with
  | Some b =>
      if Nat.ltb 1 bl then                                                (* if best_doublecolon_len > 1 *)
        let e := (b + bl)%nat in
        let hs1 := if Nat.eqb e (length hs) then hs ++ [[]] else hs in    (* zeros at the end: hextets += [''] *)
        let hs2 := firstn b hs1 ++ [] :: skipn e hs1 in                   (* hextets[start:end] = [''] *)
        if Nat.eqb b 0 then [] :: hs2 else hs2                            (* zeros at the beginning: [''] + hextets *)
      else hs
  | None => hs
  end.

Definition print_groups6 (gs : list N) : str :=
  let '(bs, bl) := best_run gs in join [COLON] (compress_hextets (map hexnz gs) bs bl).
Definition print_addr6 (a : N) : str := print_groups6 (groups6 a).
(* '%s/%d' % (self.network_address, self.prefixlen) *)
Definition print6 (n : net) : str := print_addr6 (fst n) ++ SLASH :: print_small (snd n).

(* '%x': [strip0] drops leading '0's only, and [hex_go 0] does not see them *)
(* every fact about [hexnz] below is this one read off *)
Lemma strip0_spec s : s <> [] ->
  exists k, s = repeat 48 k ++ strip0 s /\ strip0 s <> [] /\ forall t, strip0 s = 48 :: t -> t = [].
Proof.
  induction s as [|c t IH]; [congruence|]. intros _. destruct t as [|d t'].
  - exists 0%nat. cbn. repeat split; [discriminate | congruence].
  - change (strip0 (c :: d :: t')) with (if c =? 48 then strip0 (d :: t') else c :: d :: t').
    destruct (N.eqb_spec c 48) as [->|Hc].
    + destruct IH as (k & E & Hn & Hz); [discriminate|]. exists (S k). cbn [repeat app]. rewrite <- E. auto.
    + exists 0%nat. repeat split; [discriminate | congruence].
Qed.

Lemma hex_go_zeros k s : hex_go 0 (repeat 48 k ++ s) = hex_go 0 s.
Proof. induction k; [reflexivity | exact IHk]. Qed.

Lemma hexnz_spec v : exists k, hex4 v = repeat 48 k ++ hexnz v /\ hexnz v <> [] /\ forall t, hexnz v = 48 :: t -> t = [].
Proof. apply strip0_spec. discriminate. Qed.

Lemma hexnz_nonnil v : hexnz v <> [].
Proof. destruct (hexnz_spec v) as (_ & _ & H & _). exact H. Qed.
(* no hextet is printed with a leading zero: a text that starts with '0' is the single digit "0" *)
Lemma hexnz_no_leading_zero v t : hexnz v = 48 :: t -> t = [].
Proof. destruct (hexnz_spec v) as (_ & _ & _ & H). apply H. Qed.
Lemma hexnz_length v : (1 <= length (hexnz v) <= 4)%nat.
Proof.
  pose proof (hexnz_nonnil v) as Hn. destruct (hexnz_spec v) as (k & E & _). apply (f_equal (@length N)) in E.
  rewrite app_length in E. cbn [hex4 length] in E. destruct (hexnz v); [congruence | cbn [length] in *; lia].
Qed.
Lemma hexnz_incl v : incl (hexnz v) (hex4 v).
Proof. destruct (hexnz_spec v) as (k & E & _). rewrite E. apply incl_appr, incl_refl. Qed.

Lemma parse_hextet_eq s : s <> [] -> (length s <= 4)%nat -> parse_hextet s = hex_go 0 s.
Proof. intros Hn Hl. unfold parse_hextet. destruct s; [congruence|]. apply Nat.leb_le in Hl. rewrite Hl. reflexivity. Qed.
Lemma parse_hextet_hexnz v : v < B16 -> parse_hextet (hexnz v) = Some v.
Proof.
  intros H. rewrite (parse_hextet_eq _ (hexnz_nonnil v) (proj2 (hexnz_length v))).
  rewrite <- (parse_hextet_hex4 v H), (parse_hextet_eq (hex4 v)) by (discriminate || apply Nat.le_refl).
  destruct (hexnz_spec v) as (k & E & _). rewrite E. symmetry. apply hex_go_zeros.
Qed.
Lemma hexnz_lhex v : v < B16 -> Forall (fun c => 48 <= c <= 57 \/ 97 <= c <= 102) (hexnz v).
Proof. intros H. exact (incl_Forall (hexnz_incl v) (hex4_lhex v H)). Qed.
Lemma hexnz_zero v : v < B16 -> (hexnz v = [48] <-> v = 0).
Proof.
  intros H. split; [|intros ->; reflexivity]. intros E. pose proof (parse_hextet_hexnz v H) as P. rewrite E in P.
  vm_compute in P. apply some_inj in P. symmetry. exact P.
Qed.

Lemma hexnz_ok v : v < B16 ->
  parse_hextet (hexnz v) = Some v /\ Forall (fun c => 48 <= c <= 57 \/ 97 <= c <= 102) (hexnz v).
Proof. intros H. split; [apply parse_hextet_hexnz | apply hexnz_lhex]; exact H. Qed.

(* cutting at the "::" that the printer wrote *)
Lemma cut_dcolon_present t r : cut_dcolon (t ++ COLON :: COLON :: r) <> None.
Proof.
  induction t as [|c t IH]; [discriminate|]. cbn [app].
  destruct (t ++ COLON :: COLON :: r) as [|d u] eqn:Et; [destruct t; discriminate Et|].
  rewrite cut_dcolon_cons2. destruct ((c =? COLON) && (d =? COLON)); [discriminate|].
  destruct (cut_dcolon (d :: u)) as [[l r']|]; [discriminate | congruence].
Qed.
(* the cut is at the first "::": after a text that holds none and does not end in ':' *)
Lemma cut_dcolon_first l r : cut_dcolon l = None -> (forall t, l <> t ++ [COLON]) ->
  cut_dcolon (l ++ COLON :: COLON :: r) = Some (l, r).
Proof.
  induction l as [|c l IH]; intros Hn He; [reflexivity|]. destruct l as [|d l'].
  - assert (Hc : c =? COLON = false) by (apply N.eqb_neq; intros ->; exact (He [] eq_refl)).
    cbn [app]. rewrite cut_dcolon_cons2, Hc, cut_dcolon_cons2, N.eqb_refl. reflexivity.
  - cbn [app] in *. rewrite cut_dcolon_cons2 in Hn |- *. destruct ((c =? COLON) && (d =? COLON)); [discriminate|].
    rewrite IH; [reflexivity | destruct (cut_dcolon (d :: l')) as [[? ?]|]; [discriminate | reflexivity] |].
    intros t E. apply (He (c :: t)). cbn [app]. rewrite E. reflexivity.
Qed.
(* pieces joined by single colons: no "::" inside, no ':' at either end *)
Lemma join_edges parts : Forall (fun p => p <> [] /\ ~ In COLON p) parts ->
  cut_dcolon (join [COLON] parts) = None /\ (forall t, join [COLON] parts <> COLON :: t) /\
  (forall t, join [COLON] parts <> t ++ [COLON]).
Proof.
  intros HF. destruct parts as [|p ps]; [split; [reflexivity | split; [discriminate | intros [|? ?]; discriminate]]|].
  destruct (cut_dcolon_join (p :: ps) ltac:(discriminate) HF) as (Hc & d & u & Ej & Hd).
  split; [exact Hc|]. split; [intros t E; rewrite Ej in E; inversion E; congruence|]. intros t E.
  (* a text ending in ':' followed by ":0" would hold "::" -- but pieces joined by single colons do not *)
  assert (HF2 : Forall (fun p => p <> [] /\ ~ In COLON p) ((p :: ps) ++ [[48]])).
  { apply Forall_app. split; [exact HF|]. repeat constructor; [discriminate | intros [F|[]]; discriminate F]. }
  destruct (cut_dcolon_join ((p :: ps) ++ [[48]]) ltac:(discriminate) HF2) as (Hc2 & _).
  rewrite join_app, E, <- app_assoc in Hc2 by discriminate. exact (cut_dcolon_present _ _ Hc2).
Qed.
Lemma cut_dcolon_found parts r : Forall (fun p => p <> [] /\ ~ In COLON p) parts ->
  cut_dcolon (join [COLON] parts ++ COLON :: COLON :: r) = Some (join [COLON] parts, r).
Proof. intros HF. destruct (join_edges parts HF) as (H1 & _ & H3). apply cut_dcolon_first; assumption. Qed.

(* the compressed shape parses back *)
Lemma parse_addr6_compressed hi k lo : Forall (fun v => v < B16) hi -> Forall (fun v => v < B16) lo ->
  (length hi + k + length lo = 8)%nat -> (1 <= k)%nat ->
  parse_addr6 (join [COLON] (map hexnz hi) ++ COLON :: COLON :: join [COLON] (map hexnz lo))
  = Some (addr_of_groups (hi ++ repeat 0 k ++ lo)).
Proof.
  intros Hh Hl HL Hk. unfold parse_addr6. rewrite cut_dcolon_found by (apply (pr_pieces hexnz hexnz_ok); exact Hh).
  rewrite !(side_groups_pr hexnz hexnz_ok) by assumption.
  assert (E : Nat.leb (length hi + length lo) 7 = true) by (apply Nat.leb_le; lia). rewrite E.
  replace (8 - length hi - length lo)%nat with k by lia. reflexivity.
Qed.

(* the scan: specification of best_run, for lists of any length *)

(* positions s .. s+k-1 of the list exist and hold zero hextets *)
Definition zero_run (gs : list N) (s k : nat) : Prop :=
  (s + k <= length gs)%nat /\ forall j, (s <= j < s + k)%nat -> nth j gs 1 = 0.

Lemma cscan_app l1 l2 : forall i st, cscan (l1 ++ l2) i st = cscan l2 (i + length l1)%nat (cscan l1 i st).
Proof.
  induction l1 as [|g l1 IH]; intros i st.
  - cbn [app cscan length]. rewrite Nat.add_0_r. reflexivity.
  - cbn [app cscan length]. rewrite IH. f_equal. lia.
Qed.

(* the runs of a list with one more hextet: the old ones, and those that end with the new hextet when it is zero *)
Lemma zero_run_snoc gs g s k : (0 < k)%nat ->
  (zero_run (gs ++ [g]) s k <->
   zero_run gs s k \/ ((s + k = S (length gs))%nat /\ g = 0 /\ zero_run gs s (k - 1))).
Proof.
  intros Hk. unfold zero_run. rewrite app_length. cbn [length]. set (n := length gs). split.
  - intros [HL H]. assert (Hold : forall j, (s <= j < s + k)%nat -> (j < n)%nat -> nth j gs 1 = 0).
    { intros j Hj Hn. rewrite <- (app_nth1 gs [g] 1 Hn). apply H, Hj. }
    destruct (Nat.le_gt_cases (s + k) n) as [Hle|Hgt]; [left; split; [exact Hle | intros j Hj; apply Hold; lia] | right].
    split; [lia|]. split; [rewrite <- (nth_middle gs [] g 1); apply H; fold n; lia|].
    split; [lia | intros j Hj; apply Hold; lia].
  - intros [[HL H]|(E & -> & [HL H])]; (split; [lia|]); intros j Hj.
    + rewrite app_nth1 by (fold n; lia). apply H, Hj.
    + destruct (Nat.eq_dec j n) as [->|Hne]; [apply nth_middle | rewrite app_nth1 by (fold n; lia); apply H; lia].
Qed.

(* cl hextets at the end are zero, and no more *)
Definition Trail (gs : list N) (cl : nat) : Prop :=
  (cl <= length gs)%nat /\ forall k, (k <= length gs)%nat -> (zero_run gs (length gs - k) k <-> (k <= cl)%nat).
(* (bs, bl) is a run, no run is longer, and none of that length starts further left *)
Definition Best (gs : list N) (bs : option nat) (bl : nat) : Prop :=
  match bs with None => bl = 0%nat | Some b => (0 < bl)%nat /\ zero_run gs b bl end /\
  forall s k, (0 < k)%nat -> zero_run gs s k -> (k <= bl)%nat /\ (k = bl -> forall b, bs = Some b -> (b <= s)%nat).
Definition Inv (gs : list N) (st : cstate) : Prop :=
  let '(bs, bl, cs, cl) := st in
  Trail gs cl /\ cs = (if Nat.eqb cl 0 then None else Some (length gs - cl)%nat) /\ Best gs bs bl.

Lemma Trail_snoc gs g cl : Trail gs cl -> Trail (gs ++ [g]) (if g =? 0 then S cl else 0%nat).
Proof.
  intros [Hcl HT]. unfold Trail. rewrite app_length. cbn [length]. set (n := length gs) in *.
  split; [destruct (g =? 0); lia|]. intros [|k] Hk.
  - split; [lia|]. intros _. split; [rewrite app_length; cbn [length]; fold n; lia | intros j Hj; lia].
  - rewrite zero_run_snoc by lia. fold n. replace (n + 1 - S k)%nat with (n - k)%nat by lia.
    replace (S k - 1)%nat with k by lia. specialize (HT k ltac:(lia)). destruct (N.eqb_spec g 0) as [->|Hg]; split.
    + intros [[HL _]|(_ & _ & Hz)]; [lia | apply HT in Hz; lia].
    + intros Hle. right. split; [lia|]. split; [reflexivity | apply HT; lia].
    + intros [[HL _]|(_ & E & _)]; [lia | contradiction].
    + lia.
Qed.

Lemma Inv_init : Inv [] cinit.
Proof.
  unfold Inv, cinit, Trail, Best. cbn [length Nat.eqb]. split; [|split; [reflexivity|]].
  - split; [lia|]. intros k Hk. replace k with 0%nat by lia. split; [lia|]. intros _. split; [cbn [length]; lia | intros j Hj; lia].
  - split; [reflexivity|]. intros s k Hk [H _]. cbn [length] in H. lia.
Qed.

Lemma Inv_step gs st g : Inv gs st -> Inv (gs ++ [g]) (cstep st (length gs) g).
Proof.
  destruct st as [[[bs bl] cs] cl]. intros (HT & Hcs & Hb & Hbest).
  pose proof (Trail_snoc gs g cl HT) as HT'. destruct HT as [Hcl HT].
  assert (Hkeep : forall s k, zero_run gs s k -> zero_run (gs ++ [g]) s k).
  { intros s [|k] Hz; [destruct Hz as [HL _]; split; [rewrite app_length; lia | intros j Hj; lia] | apply zero_run_snoc; [lia | left; exact Hz]]. }
  (* a run of the longer list is an old one, or ends with the new hextet g = 0 and is no longer than the trailing zeros *)
  assert (Hruns : forall s k, (0 < k)%nat -> zero_run (gs ++ [g]) s k ->
            zero_run gs s k \/ (g = 0 /\ (s + k = S (length gs))%nat /\ (k <= S cl)%nat)).
  { intros s k Hk Hz. apply zero_run_snoc in Hz; [|exact Hk]. destruct Hz as [Hz|(E & Eg & Hz)]; [left; exact Hz | right].
    split; [exact Eg|]. split; [exact E|]. replace s with (length gs - (k - 1))%nat in Hz by lia. apply HT in Hz; lia. }
  unfold Inv, cstep. rewrite app_length. cbn [length]. set (n := length gs) in *.
  destruct (N.eqb_spec g 0) as [Eg|Eg].
  - assert (Ecs : match cs with Some _ => cs | None => Some n end = Some (n - cl)%nat).
    { rewrite Hcs. destruct (Nat.eqb_spec cl 0) as [->|Hne]; [rewrite Nat.sub_0_r; reflexivity | reflexivity]. }
    rewrite Ecs. assert (En : (n + 1 - S cl = n - cl)%nat) by lia.
    destruct (Nat.ltb_spec bl (S cl)) as [Hlt|Hge]; (split; [exact HT'|]); (split; [cbn [Nat.eqb]; rewrite En; reflexivity|]); split.
    + (* a new best run: the trailing zeros *)
      split; [lia|]. destruct HT' as [_ HT']. specialize (HT' (S cl)). rewrite app_length in HT'. cbn [length] in HT'. fold n in HT'.
      rewrite En in HT'. apply HT'; lia.
    + intros s k Hk Hz. destruct (Hruns s k Hk Hz) as [Hold|(_ & E & Hle)].
      * destruct (Hbest s k Hk Hold) as [Hle _]. split; [lia | intros; lia].
      * split; [exact Hle|]. intros -> b Eb. inversion Eb. lia.
    + destruct bs as [b|]; [destruct Hb as [Hp Hz]; split; [exact Hp | apply Hkeep, Hz] | lia].
    + intros s k Hk Hz. destruct (Hruns s k Hk Hz) as [Hold|(_ & E & Hle)]; [exact (Hbest s k Hk Hold)|].
      split; [lia|]. intros -> b ->. destruct Hb as [_ [HL _]]. lia.
  - split; [exact HT'|]. split; [reflexivity|]. split.
    + destruct bs as [b|]; [destruct Hb as [Hp Hz]; split; [exact Hp | apply Hkeep, Hz] | exact Hb].
    + intros s k Hk Hz. destruct (Hruns s k Hk Hz) as [Hold|(E & _)]; [exact (Hbest s k Hk Hold) | contradiction].
Qed.

Lemma cscan_inv gs : Inv gs (cscan gs 0 cinit).
Proof.
  induction gs as [|g gs IH] using rev_ind; [exact Inv_init|].
  rewrite cscan_app. cbn [cscan Nat.add]. apply Inv_step. exact IH.
Qed.

(* what _compress_hextets finds: nothing when there is no zero hextet; otherwise a run of zeros that is the longest,
   and the leftmost of that length *)
Theorem best_run_spec gs :
  (best_run gs = (None, 0%nat) /\ forall s k, zero_run gs s k -> k = 0%nat) \/
  (exists b l, best_run gs = (Some b, l) /\ (0 < l)%nat /\ zero_run gs b l /\
     forall s k, zero_run gs s k -> (k <= l)%nat /\ (k = l -> (b <= s)%nat)).
Proof.
  pose proof (cscan_inv gs) as H. unfold best_run. destruct (cscan gs 0 cinit) as [[[bs bl] cs] cl].
  destruct H as (_ & _ & Hb & Hbest). destruct bs as [b|].
  - right. destruct Hb as [Hp Hz]. exists b, bl. split; [reflexivity|]. split; [exact Hp|]. split; [exact Hz|].
    intros s [|k] Hz'; [split; [lia | intros; lia]|]. destruct (Hbest s (S k) ltac:(lia) Hz') as [Hle Hl].
    split; [exact Hle | intros E; exact (Hl E b eq_refl)].
  - left. subst bl. split; [reflexivity|]. intros s [|k] Hz'; [reflexivity|]. destruct (Hbest s (S k) ltac:(lia) Hz'); lia.
Qed.

(* a zero run cuts the list in three *)

Lemma zero_run_tail g gs s k : zero_run (g :: gs) (S s) k -> zero_run gs s k.
Proof.
  intros [HL H]. cbn [length] in HL. split; [lia|]. intros j Hj. specialize (H (S j) ltac:(lia)). exact H.
Qed.
Lemma zero_run_head g gs k : zero_run (g :: gs) 0 (S k) -> g = 0 /\ zero_run gs 0 k.
Proof.
  intros [HL H]. cbn [length] in HL. split; [exact (H 0%nat ltac:(lia))|]. split; [lia|].
  intros j Hj. exact (H (S j) ltac:(lia)).
Qed.
Lemma zero_run_split gs : forall s k, zero_run gs s k -> exists hi lo, gs = hi ++ repeat 0 k ++ lo /\ length hi = s.
Proof.
  induction gs as [|g gs IH]; intros s k Hz.
  - destruct Hz as [HL _]. cbn [length] in HL. assert (s = 0%nat) by lia. assert (k = 0%nat) by lia. subst.
    exists [], []. split; reflexivity.
  - destruct s as [|s'].
    + destruct k as [|k'].
      * exists [], (g :: gs). split; reflexivity.
      * apply zero_run_head in Hz. destruct Hz as [-> Hz]. destruct (IH 0%nat k' Hz) as (hi & lo & E & HL).
        destruct hi; [|discriminate HL]. exists [], lo. cbn [app] in *. split; [cbn [repeat app]; rewrite <- E; reflexivity | reflexivity].
    + apply zero_run_tail in Hz. destruct (IH s' k Hz) as (hi & lo & E & HL). exists (g :: hi), lo.
      split; [cbn [app]; rewrite <- E; reflexivity | cbn [length]; rewrite HL; reflexivity].
Qed.
Lemma zero_run_of_split (hi lo : list N) k : zero_run (hi ++ repeat 0 k ++ lo) (length hi) k.
Proof.
  split; [rewrite !app_length, repeat_length; lia|]. intros j Hj. rewrite app_nth2 by lia. rewrite app_nth1 by (rewrite repeat_length; lia).
  apply (repeat_spec k 0). apply nth_In. rewrite repeat_length. lia.
Qed.

(* the list surgery of _compress_hextets, then ':'.join, is   hi "::" lo *)

Lemma compress_join (H Z L : list str) : (1 < length Z)%nat ->
  join [COLON] (compress_hextets (H ++ Z ++ L) (Some (length H)) (length Z)) =
  join [COLON] H ++ COLON :: COLON :: join [COLON] L.
Proof.
  intros HZ. unfold compress_hextets. apply Nat.ltb_lt in HZ. rewrite HZ.
  set (X := match L with [] => [[]] | _ => L end : list str).
  assert (HX : X <> []) by (unfold X; destruct L; discriminate).
  assert (JX : join [COLON] X = join [COLON] L) by (unfold X; destruct L; reflexivity).
  assert (E1 : (if Nat.eqb (length H + length Z) (length (H ++ Z ++ L))
                then (H ++ Z ++ L) ++ [[]] else H ++ Z ++ L) = H ++ Z ++ X).
  { rewrite !app_length. unfold X. destruct L as [|l0 L'].
    - cbn [length]. rewrite Nat.add_0_r, Nat.eqb_refl. rewrite app_nil_r, <- app_assoc. reflexivity.
    - assert (E : Nat.eqb (length H + length Z) (length H + (length Z + length (l0 :: L'))) = false)
        by (apply Nat.eqb_neq; cbn [length]; lia).
      rewrite E. reflexivity. }
  rewrite E1. rewrite firstn_length_app.
  assert (E2 : skipn (length H + length Z) (H ++ Z ++ X) = X).
  { rewrite app_assoc, <- app_length. apply skipn_length_app. }
  rewrite E2. destruct H as [|h H'].
  - cbn [length Nat.eqb app]. destruct X as [|x X']; [congruence|]. rewrite !join_cons2. cbn [app join]. rewrite <- JX. reflexivity.
  - cbn [length Nat.eqb]. rewrite join_app by discriminate. destruct X as [|x X']; [congruence|]. rewrite join_cons2, <- JX. reflexivity.
Qed.

(* the text of an address: no "::" when no two neighbouring hextets are zero; otherwise  hi "::" lo  where the run
   dropped is at least two hextets long, is the longest run of zero hextets, and the leftmost of that length *)
Theorem print_groups6_shape gs :
  ((forall s k, zero_run gs s k -> (k <= 1)%nat) /\ print_groups6 gs = join [COLON] (map hexnz gs)) \/
  (exists hi k lo, gs = hi ++ repeat 0 k ++ lo /\ (2 <= k)%nat /\
     print_groups6 gs = join [COLON] (map hexnz hi) ++ COLON :: COLON :: join [COLON] (map hexnz lo) /\
     forall s k', zero_run gs s k' -> (k' <= k)%nat /\ (k' = k -> (length hi <= s)%nat)).
Proof.
  unfold print_groups6. destruct (best_run_spec gs) as [[E Hnone] | (b & l & E & Hl & Hz & Hbest)]; rewrite E.
  - left. split; [intros s k H; rewrite (Hnone s k H); lia | reflexivity].
  - destruct (Nat.le_gt_cases l 1) as [Hle|Hgt].
    + left. split; [intros s k H; destruct (Hbest s k H); lia|].
      unfold compress_hextets. assert (F : Nat.ltb 1 l = false) by (apply Nat.ltb_ge; exact Hle). rewrite F. reflexivity.
    + right. destruct (zero_run_split gs b l Hz) as (hi & lo & Egs & Hb). exists hi, l, lo.
      split; [exact Egs|]. split; [lia|]. split.
      * rewrite Egs at 1. rewrite !map_app. subst b.
        rewrite <- (map_length hexnz hi). rewrite <- (repeat_length 0 l) at 2. rewrite <- (map_length hexnz (repeat 0 l)).
        apply compress_join. rewrite map_length, repeat_length. lia.
      * subst b. exact Hbest.
Qed.

(* the printed address parses back *)

Theorem parse_addr6_print_groups6 gs : Forall (fun v => v < B16) gs -> length gs = 8%nat ->
  parse_addr6 (print_groups6 gs) = Some (addr_of_groups gs).
Proof.
  intros HF HL. destruct (print_groups6_shape gs) as [[_ E] | (hi & k & lo & Egs & Hk & E & _)]; rewrite E.
  - apply (parse_addr6_plain hexnz hexnz_ok); assumption.
  - rewrite Egs in HF, HL. destruct (Forall_ends _ _ _ _ HF) as [Hh Hlo].
    rewrite !app_length, repeat_length in HL. rewrite Egs. apply parse_addr6_compressed; [exact Hh | exact Hlo | lia | lia].
Qed.

Theorem parse_addr6_print_addr6 a : a < 2 ^ 128 -> parse_addr6 (print_addr6 a) = Some a.
Proof.
  intros Ha. destruct (groups6_value a Ha) as [HF Hval]. unfold print_addr6.
  rewrite parse_addr6_print_groups6; [f_equal; exact Hval | exact HF | reflexivity].
Qed.

Lemma print_groups6_chars gs : Forall (fun v => v < B16) gs -> Forall addr_char (print_groups6 gs).
Proof.
  intros HF. pose proof (join_pr_chars hexnz hexnz_ok) as J.
  destruct (print_groups6_shape gs) as [[_ E] | (hi & k & lo & Egs & _ & E & _)]; rewrite E; [exact (J gs HF)|].
  rewrite Egs in HF. destruct (Forall_ends _ _ _ _ HF) as [Hh Hlo].
  apply Forall_app. split; [exact (J hi Hh)|]. repeat (constructor; [left; reflexivity|]). exact (J lo Hlo).
Qed.

(* the compressed list is never empty, and each of its pieces is empty (next to the "::") or one of the hextets *)
Lemma in_firstn {A} n (l : list A) x : In x (firstn n l) -> In x l.
Proof. intros H. rewrite <- (firstn_skipn n l). apply in_or_app. left. exact H. Qed.
Lemma in_skipn {A} n (l : list A) x : In x (skipn n l) -> In x l.
Proof. intros H. rewrite <- (firstn_skipn n l). apply in_or_app. right. exact H. Qed.
Lemma compress_hextets_pieces hs bs bl p : In p (compress_hextets hs bs bl) -> p = [] \/ In p hs.
Proof.
  unfold compress_hextets. destruct bs as [b|]; [|intros H; right; exact H].
  destruct (Nat.ltb 1 bl); [|intros H; right; exact H].
  set (hs1 := if Nat.eqb (b + bl) (length hs) then hs ++ [[]] else hs).
  assert (H1 : forall q, In q hs1 -> q = [] \/ In q hs).
  { unfold hs1. destruct (Nat.eqb (b + bl) (length hs)); [|intros q H; right; exact H].
    intros q H. apply in_app_or in H. destruct H as [H|[H|[]]]; [right; exact H | left; symmetry; exact H]. }
  assert (H2 : In p (firstn b hs1 ++ [] :: skipn (b + bl) hs1) -> p = [] \/ In p hs).
  { intros H. apply in_app_or in H. destruct H as [H|[H|H]]; [apply H1; eapply in_firstn; exact H | left; symmetry; exact H | apply H1; eapply in_skipn; exact H]. }
  destruct (Nat.eqb b 0); [intros [H|H]; [left; symmetry; exact H | exact (H2 H)] | exact H2].
Qed.
Lemma compress_hextets_nonnil hs bs bl : hs <> [] -> compress_hextets hs bs bl <> [].
Proof.
  intros Hn. unfold compress_hextets. destruct bs as [b|]; [|exact Hn]. destruct (Nat.ltb 1 bl); [|exact Hn].
  destruct (Nat.eqb b 0); [discriminate|]. intros E. apply app_eq_nil in E. destruct E as [_ E]. discriminate E.
Qed.
