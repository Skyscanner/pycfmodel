(* The vocabulary IPv6 texts are described in ([B16], [addr_char], and Section Hextets: addresses written as groups
   joined by ':' with one "::") and the theorems that tie the text model of Net/IPv6.v to it: bounds of what the parser
   accepts, and which texts it reads as which address. *)
From Coq Require Import List Bool NArith ZArith Lia.
From PV Require Import Base.Str Base.ListFacts Base.Value Net.Arith Net.NetText Net.IPv4 Net.IPv4Thm Net.IPv6.
Import ListNotations.
Local Open Scope N_scope.

Definition B16 : N := 65536.

(* bounds: every accepted address is below 2^128 *)

Lemma hexdig_bound c d : hexdig c = Some d -> d < 16.
Proof.
  unfold hexdig.
  destruct ((48 <=? c) && (c <=? 57)) eqn:E1.
  { apply andb_true_iff in E1. rewrite !N.leb_le in E1. intros H. apply some_inj in H. lia. }
  destruct ((97 <=? c) && (c <=? 102)) eqn:E2.
  { apply andb_true_iff in E2. rewrite !N.leb_le in E2. intros H. apply some_inj in H. lia. }
  destruct ((65 <=? c) && (c <=? 70)) eqn:E3; [|discriminate].
  apply andb_true_iff in E3. rewrite !N.leb_le in E3. intros H. apply some_inj in H. lia.
Qed.

Lemma hex_go_bound s : forall acc v, hex_go acc s = Some v -> v < (acc + 1) * 16 ^ N.of_nat (length s).
Proof.
  induction s as [|c s IH]; intros acc v H.
  - cbn [hex_go] in H. apply some_inj in H. subst. cbn [length]. change (16 ^ N.of_nat 0) with 1. lia.
  - cbn [hex_go] in H. destruct (hexdig c) as [d|] eqn:Ed; [|discriminate]. apply hexdig_bound in Ed.
    apply IH in H. cbn [length]. rewrite Nat2N.inj_succ, N.pow_succ_r'.
    set (P := 16 ^ N.of_nat (length s)) in *.
    assert (L : (16 * acc + d + 1) * P <= (16 * acc + 16) * P) by (apply N.mul_le_mono_r; lia).
    lia.
Qed.

Lemma parse_hextet_bound s v : parse_hextet s = Some v -> v < B16.
Proof.
  unfold parse_hextet. destruct s as [|c s']; [discriminate|]. set (s := c :: s').
  destruct (Nat.leb (length s) 4) eqn:E; [|discriminate]. apply Nat.leb_le in E. intros H. apply hex_go_bound in H.
  assert (L : 16 ^ N.of_nat (length s) <= 16 ^ 4) by (apply N.pow_le_mono_r; lia).
  change (16 ^ 4) with 65536 in L. unfold B16. lia.
Qed.

Lemma groups_of_one v4 p : groups_of v4 [p] =
  if has_ch DOT p then
    if v4 then match parse_addr4 p with Some a => Some [a / 65536; a mod 65536] | None => None end else None
  else match parse_hextet p with Some v => Some [v] | None => None end.
Proof. reflexivity. Qed.
Lemma groups_of_cons v4 p q qs : groups_of v4 (p :: q :: qs) =
  match parse_hextet p, groups_of v4 (q :: qs) with Some v, Some vs => Some (v :: vs) | _, _ => None end.
Proof. reflexivity. Qed.

Lemma groups_of_bound v4 parts : forall gs, groups_of v4 parts = Some gs -> Forall (fun v => v < B16) gs.
Proof.
  induction parts as [|p ps IH]; intros gs H.
  - cbn [groups_of] in H. apply some_inj in H. subst. constructor.
  - destruct ps as [|q qs].
    + rewrite groups_of_one in H. destruct (has_ch DOT p).
      * destruct v4; [|discriminate]. destruct (parse_addr4 p) as [a|] eqn:Ea; [|discriminate].
        apply some_inj in H. subst gs. apply parse_addr4_spec in Ea. apply dotted_quad_bound in Ea.
        change (2 ^ 32) with 4294967296 in Ea. unfold B16.
        repeat constructor; [apply N.div_lt_upper_bound; lia | apply N.mod_lt; lia].
      * destruct (parse_hextet p) as [v|] eqn:Eh; [|discriminate]. apply some_inj in H. subst gs.
        repeat constructor. eapply parse_hextet_bound. exact Eh.
    + rewrite groups_of_cons in H. destruct (parse_hextet p) as [v|] eqn:Eh; [|discriminate].
      destruct (groups_of v4 (q :: qs)) as [vs|] eqn:Eg; [|discriminate]. apply some_inj in H. subst gs.
      constructor; [eapply parse_hextet_bound; exact Eh | apply IH; reflexivity].
Qed.
Lemma side_groups_nonempty v4 t : t <> [] -> side_groups v4 t = groups_of v4 (split_ch COLON t).
Proof. destruct t; [congruence | reflexivity]. Qed.
Lemma side_groups_bound v4 t gs : side_groups v4 t = Some gs -> Forall (fun v => v < B16) gs.
Proof.
  unfold side_groups. destruct t; [intros H; apply some_inj in H; subst; constructor | apply groups_of_bound].
Qed.

Lemma fold_groups_bound gs : forall acc, Forall (fun v => v < B16) gs ->
  fold_left (fun a v => a * 65536 + v) gs acc < (acc + 1) * B16 ^ N.of_nat (length gs).
Proof.
  induction gs as [|v gs IH]; intros acc HF.
  - cbn [fold_left length]. change (B16 ^ N.of_nat 0) with 1. lia.
  - inversion HF as [|? ? Hv HF']; subst. cbn [fold_left length]. specialize (IH (acc * 65536 + v) HF').
    rewrite Nat2N.inj_succ, N.pow_succ_r'. set (P := B16 ^ N.of_nat (length gs)) in *. unfold B16 in *.
    assert (L : (acc * 65536 + v + 1) * P <= (acc * 65536 + 65536) * P) by (apply N.mul_le_mono_r; lia).
    lia.
Qed.
Lemma addr_of_groups_bound gs : length gs = 8%nat -> Forall (fun v => v < B16) gs -> addr_of_groups gs < 2 ^ 128.
Proof.
  intros HL HF. unfold addr_of_groups. pose proof (fold_groups_bound gs 0 HF) as H. rewrite HL in H.
  change ((0 + 1) * B16 ^ N.of_nat 8) with (2 ^ 128) in H. exact H.
Qed.

Lemma parse_addr6_bound s x : parse_addr6 s = Some x -> x < 2 ^ 128.
Proof.
  unfold parse_addr6. destruct (cut_dcolon s) as [[l r]|].
  - destruct (side_groups false l) as [hi|] eqn:Eh; [|discriminate].
    destruct (side_groups true r) as [lo|] eqn:El; [|discriminate].
    destruct (Nat.leb (length hi + length lo) 7) eqn:E; [|discriminate]. apply Nat.leb_le in E.
    intros H. apply some_inj in H. subst x. apply addr_of_groups_bound.
    + rewrite !app_length, repeat_length. lia.
    + apply side_groups_bound in Eh. apply side_groups_bound in El.
      apply Forall_app. split; [exact Eh|]. apply Forall_app. split; [|exact El].
      apply Forall_forall. intros v Hv. apply repeat_spec in Hv. subst. unfold B16. lia.
  - destruct (side_groups true s) as [gs|] eqn:Eg; [|discriminate].
    destruct (Nat.eqb (length gs) 8) eqn:E; [|discriminate]. apply Nat.eqb_eq in E.
    intros H. apply some_inj in H. subst x. apply addr_of_groups_bound; [exact E | eapply side_groups_bound; exact Eg].
Qed.

Lemma written6_bounds s x l : written6 s = Some (x, l) -> x < 2 ^ 128 /\ l <= 128.
Proof.
  unfold written6. destruct (split_ch SLASH s) as [|a [|m [|p ps]]]; try discriminate.
  - destruct (parse_addr6 a) as [y|] eqn:Ea; [|discriminate]. intros H. apply some_inj in H.
    apply pair_equal_spec in H. destruct H as [-> <-]. split; [eapply parse_addr6_bound; exact Ea | lia].
  - destruct (parse_addr6 a) as [y|] eqn:Ea; [|discriminate]. destruct (parse_plen 128 m) as [k|] eqn:Em; [|discriminate].
    intros H. apply some_inj in H. apply pair_equal_spec in H. destruct H as [-> ->].
    split; [eapply parse_addr6_bound; exact Ea | apply parse_plen_spec in Em; apply Em].
Qed.

Lemma parse6_ok s n : parse6 s = Ok n <-> ~ In PERCENT s /\ exists x l, written6 s = Some (x, l) /\ n = mk_net W6 x l.
Proof.
  unfold parse6. destruct (has_ch PERCENT s) eqn:Ep.
  - split; [discriminate|]. intros [H _]. apply has_ch_In in Ep. contradiction.
  - apply has_ch_false in Ep. destruct (written6 s) as [[x l]|].
    + split.
      * intros H. inversion H; subst. split; [exact Ep | exists x, l; split; reflexivity].
      * intros (_ & y & k & E & ->). apply some_inj in E. apply pair_equal_spec in E. destruct E as [-> ->]. reflexivity.
    + split; [discriminate | intros (_ & y & k & E & _); discriminate].
Qed.

Theorem parse6_wf s n : parse6 s = Ok n -> wf W6 n.
Proof.
  intros H. apply parse6_ok in H. destruct H as (_ & x & l & E & ->). apply written6_bounds in E.
  apply mk_net_wf; apply E.
Qed.

(* address "/" length: the two parts are read independently *)

Lemma parse6_slash t m : ~ In SLASH t -> ~ In SLASH m -> ~ In PERCENT t -> ~ In PERCENT m ->
  parse6 (t ++ SLASH :: m) =
  match parse_addr6 t, parse_plen 128 m with Some x, Some l => Ok (mk_net W6 x l) | _, _ => Err EValue end.
Proof.
  intros St Sm Pt Pm. unfold parse6, written6. rewrite split_ch_two by assumption.
  assert (P : has_ch PERCENT (t ++ SLASH :: m) = false).
  { apply has_ch_false. intros Hin. apply in_app_or in Hin. destruct Hin as [Hin|[Hin|Hin]]; [tauto | discriminate Hin | tauto]. }
  rewrite P. destruct (parse_addr6 t), (parse_plen 128 m); reflexivity.
Qed.

(* the characters of a PRINTED address: lower-case digits only (the parser also reads 'A'..'F') *)
Definition addr_char (c : N) : Prop := c = COLON \/ c = DOT \/ 48 <= c <= 57 \/ 97 <= c <= 102.

(* a text of address characters that reads as a, then "/" and the decimal length *)
Lemma parse6_addr_len t a l : Forall addr_char t -> parse_addr6 t = Some a -> l <= 128 ->
  parse6 (t ++ SLASH :: print_small l) = Ok (mk_net W6 a l).
Proof.
  intros Hc Ha Hl.
  assert (N : forall c, c = SLASH \/ c = PERCENT -> ~ In c t /\ ~ In c (print_small l)).
  { intros c Ec. split; [apply (Forall_notin _ _ _ Hc); unfold addr_char | apply print_small_no; [lia|]];
      unfold COLON, DOT; destruct Ec as [-> | ->]; unfold SLASH, PERCENT; lia. }
  rewrite parse6_slash by (apply N; auto). rewrite Ha, parse_plen_print by lia. reflexivity.
Qed.
(* ... for a network: its own text *)
Lemma parse6_net_text t n : Forall addr_char t -> parse_addr6 t = Some (fst n) -> wf W6 n ->
  parse6 (t ++ SLASH :: print_small (snd n)) = Ok n.
Proof.
  destruct n as [a l]. cbn [fst snd]. intros Hc Ha Hw. rewrite (parse6_addr_len t a l Hc Ha); [|apply Hw].
  f_equal. apply mk_net_of_wf, Hw.
Qed.

(* the uncompressed printer parses back *)

Lemma hexdig_hexchar d : d < 16 -> hexdig (hexchar d) = Some d.
Proof.
  intros H. unfold hexchar, hexdig. destruct (N.ltb_spec d 10) as [L|L].
  - replace ((48 <=? 48 + d) && (48 + d <=? 57)) with true by (symmetry; apply andb_true_iff; rewrite !N.leb_le; lia).
    f_equal. lia.
  - replace (87 + d <=? 57) with false by (symmetry; apply N.leb_gt; lia). rewrite andb_false_r.
    replace ((97 <=? 87 + d) && (87 + d <=? 102)) with true by (symmetry; apply andb_true_iff; rewrite !N.leb_le; lia).
    f_equal. lia.
Qed.
Lemma hexchar_range d : d < 16 -> 48 <= hexchar d <= 57 \/ 97 <= hexchar d <= 102.
Proof. intros H. unfold hexchar. destruct (N.ltb_spec d 10); lia. Qed.

Lemma hex4_digits v : v < B16 ->
  v / 4096 < 16 /\ v = ((v / 4096 * 16 + (v / 256) mod 16) * 16 + (v / 16) mod 16) * 16 + v mod 16.
Proof.
  unfold B16. intros Hv. split; [apply N.div_lt_upper_bound; [discriminate | exact Hv]|].
  rewrite (horner_step v 256 4096), (horner_step v 16 256), horner_last by (reflexivity || discriminate). reflexivity.
Qed.

Lemma parse_hextet_hex4 v : v < B16 -> parse_hextet (hex4 v) = Some v.
Proof.
  intros Hv. destruct (hex4_digits v Hv) as [H1 H2]. unfold parse_hextet, hex4. cbn [length Nat.leb hex_go].
  rewrite !hexdig_hexchar by (try exact H1; apply N.mod_lt; lia). f_equal. lia.
Qed.
Lemma hex4_lhex v : v < B16 -> Forall (fun c => 48 <= c <= 57 \/ 97 <= c <= 102) (hex4 v).
Proof.
  intros Hv. destruct (hex4_digits v Hv) as [H1 _]. unfold hex4.
  repeat (apply Forall_cons; [apply hexchar_range; try exact H1; apply N.mod_lt; lia|]). apply Forall_nil.
Qed.

Lemma cut_dcolon_cons2 c d r : cut_dcolon (c :: d :: r) =
  if (c =? COLON) && (d =? COLON) then Some ([], r)
  else match cut_dcolon (d :: r) with Some (l, r') => Some (c :: l, r') | None => None end.
Proof. reflexivity. Qed.
Lemma cut_dcolon_skip c t : c <> COLON -> cut_dcolon t = None -> cut_dcolon (c :: t) = None.
Proof.
  intros Hc Ht. destruct t as [|d r]; [reflexivity|]. rewrite cut_dcolon_cons2.
  apply N.eqb_neq in Hc. rewrite Hc, Ht. reflexivity.
Qed.
Lemma cut_dcolon_colon d r : d <> COLON -> cut_dcolon (d :: r) = None -> cut_dcolon (COLON :: d :: r) = None.
Proof.
  intros Hd Ht. rewrite cut_dcolon_cons2. apply N.eqb_neq in Hd. rewrite Hd, Ht, andb_false_r. reflexivity.
Qed.
Lemma cut_dcolon_app p t : ~ In COLON p -> cut_dcolon t = None -> cut_dcolon (p ++ t) = None.
Proof.
  induction p as [|c p IH]; intros Hp Ht; [exact Ht|]. cbn [app]. apply cut_dcolon_skip.
  - intros E. apply Hp. left. exact E.
  - apply IH; [intros F; apply Hp; right; exact F | exact Ht].
Qed.

(* groups that are non-empty and colon-free, joined by single colons, contain no "::" *)
Lemma cut_dcolon_join parts : parts <> [] -> Forall (fun p => p <> [] /\ ~ In COLON p) parts ->
  cut_dcolon (join [COLON] parts) = None /\ exists d r, join [COLON] parts = d :: r /\ d <> COLON.
Proof.
  induction parts as [|p ps IH]; [congruence|]. intros _ HF. inversion HF as [|? ? [Hne Hnc] HF']; subst.
  assert (Hhead : forall t, exists d r, p ++ t = d :: r /\ d <> COLON).
  { intros t. destruct p as [|d p']; [congruence|]. exists d, (p' ++ t). split; [reflexivity|].
    intros E. apply Hnc. left. exact E. }
  destruct ps as [|q ps'].
  - cbn [join]. split.
    + rewrite <- (app_nil_r p). apply cut_dcolon_app; [exact Hnc | reflexivity].
    + destruct (Hhead []) as (d & r & E & Hd). rewrite app_nil_r in E. exists d, r. split; assumption.
  - rewrite join_cons2. destruct (IH ltac:(discriminate) HF') as (Hcut & d & r & Ej & Hd).
    split; [|apply Hhead]. apply cut_dcolon_app; [exact Hnc|]. cbn [app]. rewrite Ej.
    apply cut_dcolon_colon; [exact Hd | rewrite <- Ej; exact Hcut].
Qed.

(* any way [pr] of writing a hextet that reads back and uses hex digits only -- '%04x' here, '%x' in Net/IPv6Print.v *)
Section Hextets.
Variable pr : N -> str.
Hypothesis pr_ok : forall v, v < B16 ->
  parse_hextet (pr v) = Some v /\ Forall (fun c => 48 <= c <= 57 \/ 97 <= c <= 102) (pr v).

Lemma pr_no c v : v < B16 -> ~ (48 <= c <= 57 \/ 97 <= c <= 102) -> ~ In c (pr v).
Proof. intros Hv. exact (Forall_notin _ _ c (proj2 (pr_ok v Hv))). Qed.
Lemma pr_pieces gs : Forall (fun v => v < B16) gs -> Forall (fun p => p <> [] /\ ~ In COLON p) (map pr gs).
Proof.
  intros HF. apply Forall_map. eapply Forall_impl; [|exact HF]. cbv beta. intros v Hv. split.
  - intros E. destruct (pr_ok v Hv) as [P _]. rewrite E in P. discriminate P.
  - apply pr_no; [exact Hv | unfold COLON; lia].
Qed.

Lemma groups_of_pr v4 gs : gs <> [] -> Forall (fun v => v < B16) gs -> groups_of v4 (map pr gs) = Some gs.
Proof.
  induction gs as [|v gs IH]; [congruence|]. intros _ HF. inversion HF as [|? ? Hv HF']; subst.
  destruct (pr_ok v Hv) as [P _]. destruct gs as [|w gs'].
  - cbn [map]. rewrite groups_of_one.
    assert (E : has_ch DOT (pr v) = false) by (apply has_ch_false, pr_no; [exact Hv | unfold DOT; lia]).
    rewrite E, P. reflexivity.
  - cbn [map]. rewrite groups_of_cons, P.
    change (pr w :: map pr gs') with (map pr (w :: gs')). rewrite IH; [reflexivity | discriminate | exact HF'].
Qed.

Lemma side_groups_pr v4 gs : Forall (fun v => v < B16) gs -> side_groups v4 (join [COLON] (map pr gs)) = Some gs.
Proof.
  intros HF. destruct gs as [|v gs']; [reflexivity|]. set (gs := v :: gs') in *.
  assert (Hne : map pr gs <> []) by discriminate.
  pose proof (pr_pieces gs HF) as HP.
  destruct (cut_dcolon_join _ Hne HP) as (_ & d & r & Ej & _).
  rewrite side_groups_nonempty by (rewrite Ej; discriminate).
  rewrite split_ch_join; [| exact Hne | eapply Forall_impl; [|exact HP]; intros p [_ H]; exact H].
  apply groups_of_pr; [discriminate | exact HF].
Qed.

(* eight hextets joined by ':' *)
Lemma parse_addr6_plain gs : Forall (fun v => v < B16) gs -> length gs = 8%nat ->
  parse_addr6 (join [COLON] (map pr gs)) = Some (addr_of_groups gs).
Proof.
  intros HF HL. assert (Hne : map pr gs <> []) by (destruct gs; [discriminate HL | discriminate]).
  destruct (cut_dcolon_join _ Hne (pr_pieces gs HF)) as (Hcut & _).
  unfold parse_addr6. rewrite Hcut, side_groups_pr by exact HF. rewrite HL. reflexivity.
Qed.

Lemma join_pr_chars gs : Forall (fun v => v < B16) gs -> Forall addr_char (join [COLON] (map pr gs)).
Proof.
  intros HF. apply Forall_join; [left; reflexivity|]. apply Forall_map. eapply Forall_impl; [|exact HF]. cbv beta.
  intros v Hv. destruct (pr_ok v Hv) as [_ F]. eapply Forall_impl; [|exact F]. unfold addr_char. tauto.
Qed.
End Hextets.

Lemma hex4_ok v : v < B16 ->
  parse_hextet (hex4 v) = Some v /\ Forall (fun c => 48 <= c <= 57 \/ 97 <= c <= 102) (hex4 v).
Proof. intros H. split; [apply parse_hextet_hex4 | apply hex4_lhex]; exact H. Qed.

Lemma groups6_value a : a < 2 ^ 128 -> Forall (fun v => v < B16) (groups6 a) /\ addr_of_groups (groups6 a) = a.
Proof.
  intros Ha. unfold groups6, addr_of_groups, B16. split.
  - repeat constructor; try (apply N.mod_lt; discriminate). apply N.div_lt_upper_bound; [discriminate | exact Ha].
  - cbn [fold_left]. change (0 * 65536 + a / 65536 ^ 7) with (a / 65536 ^ 7).
    rewrite (horner_step a (65536 ^ 6) (65536 ^ 7)), (horner_step a (65536 ^ 5) (65536 ^ 6)),
      (horner_step a (65536 ^ 4) (65536 ^ 5)), (horner_step a (65536 ^ 3) (65536 ^ 4)), (horner_step a (65536 ^ 2) (65536 ^ 3)),
      (horner_step a 65536 (65536 ^ 2)) by (reflexivity || discriminate).
    apply horner_last. discriminate.
Qed.

Theorem parse_addr6_print a : a < 2 ^ 128 -> parse_addr6 (print_addr6_full a) = Some a.
Proof.
  intros Ha. destruct (groups6_value a Ha) as [HF Hval]. unfold print_addr6_full.
  rewrite (parse_addr6_plain hex4 hex4_ok) by (exact HF || reflexivity). f_equal. exact Hval.
Qed.

Theorem parse6_print6_full n : wf W6 n -> parse6 (print6_full n) = Ok n.
Proof.
  intros H. pose proof H as Ha. destruct n as [a l]. destruct Ha as (_ & Ha & _).
  apply parse6_net_text; [apply (join_pr_chars hex4 hex4_ok), groups6_value, Ha | apply parse_addr6_print, Ha | exact H].
Qed.

Theorem parse6_reparse s n : parse6 s = Ok n -> parse6 (print6_full n) = Ok n.
Proof. intros H. apply parse6_print6_full. eapply parse6_wf. exact H. Qed.
