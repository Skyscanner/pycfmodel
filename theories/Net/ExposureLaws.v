(* Algebraic laws of the network exposure predicates (C17): monotonicity in the range, independence of the spelling,
   boundaries of the private / reserved table, the inside / disjoint / straddling partition, IPv4-mapped IPv6 and the
   rule-level decision tables. *)
From Coq Require Import List Bool NArith ZArith Lia.
From PV Require Import Base.Str Base.ListFacts Base.Value Net.Arith Net.NetText Net.IPv4 Net.IPv4Thm Net.IPv6 Net.IPv6Thm Net.Public Net.PublicTable.
From PVGen Require Import PrivateNets.
Import ListNotations.
Local Open Scope N_scope.

(* nesting of CIDR blocks, every width at once (the arithmetic of block sizes and of inclusion is in Net/Arith.v) *)
Section Laws.
Variable W : N.

Lemma blk_mono l k : l <= k -> blk W k <= blk W l.
Proof. intros H. unfold blk. apply N.pow_le_mono_r; lia. Qed.

(* CIDR blocks are LAMINAR: two blocks that share an address are nested, the one with the longer prefix inside *)
Theorem laminar n p x : wf W n -> wf W p -> in_net W x n -> in_net W x p -> snd p <= snd n -> subnet_of W n p = true.
Proof.
  destruct n as [a l], p as [b k]. cbn [snd]. intros Hn Hp Hxn Hxp Hkl.
  pose proof (wf_multiple W a l Hn) as Ea. pose proof (wf_multiple W b k Hp) as Eb.
  destruct Hn as (Hl & _ & _). pose proof (blk_split W k l Hkl Hl) as Ek. pose proof (blk_pos W l) as HB.
  apply subnet_of_le. unfold in_net in Hxn, Hxp. rewrite Ek in *.
  set (B := blk W l) in *. set (m := 2 ^ (l - k)) in *. set (qa := a / B) in *. set (qb := b / (m * B)) in *. clearbody B m qa qb.
  (* in units of B: the block [qa, qa+1) meets [m*qb, m*qb+m), so it lies inside *)
  assert (H1 : m * qb < qa + 1) by (apply (N.mul_lt_mono_pos_l B); [exact HB | nia]).
  assert (H2 : qa < m * qb + m) by (apply (N.mul_lt_mono_pos_l B); [exact HB | nia]).
  nia.
Qed.
Corollary nested_or_disjoint n p : wf W n -> wf W p ->
  subnet_of W n p = true \/ subnet_of W p n = true \/ (forall x, in_net W x n -> ~ in_net W x p).
Proof.
  intros Hn Hp. destruct (subnet_of W n p) eqn:E1; [left; reflexivity|]. destruct (subnet_of W p n) eqn:E2; [right; left; reflexivity|].
  right. right. intros x Hxn Hxp. destruct (N.le_ge_cases (snd p) (snd n)) as [H|H].
  - rewrite (laminar n p x Hn Hp Hxn Hxp H) in E1. discriminate.
  - rewrite (laminar p n x Hp Hn Hxp Hxn H) in E2. discriminate.
Qed.

(* MONOTONICITY of "is the entire address space": upward closed *)
Theorem slash_zero_up n m : wf W m -> subnet_of W n m = true -> slash_zero n = true -> slash_zero m = true.
Proof.
  destruct n as [a l]. intros Hm Hs Hz. unfold slash_zero in Hz. rewrite andb_true_iff, !N.eqb_eq in Hz. destruct Hz as [-> ->].
  apply (slash_zero_iff W m Hm). intros x Hx. apply (subnet_of_in W _ _ x Hs). unfold in_net. rewrite blk_full. lia.
Qed.

(* the /l network of an address x of p lies inside p exactly when l is at least p's prefix length: the predicate
   "inside p" flips exactly at l = snd p, for EVERY address of p (first and last included) *)
Theorem mk_net_inside_iff x l p : wf W p -> in_net W x p -> l <= W ->
  (subnet_of W (mk_net W x l) p = true <-> snd p <= l).
Proof.
  intros Hp Hx Hl. pose proof (in_net_bound W x p Hp Hx) as Hb. split.
  - intros Hs. apply (subnet_of_len W) in Hs. cbn [snd mk_net] in Hs.
    destruct (N.le_gt_cases (snd p) l) as [H|H]; [exact H | exfalso].
    destruct p as [b k]. cbn [snd] in *. destruct Hp as (Hk & _ & _).
    pose proof (blk_strict W l k H Hk). pose proof (blk_pos W k). lia.
  - intros H. apply (laminar (mk_net W x l) p x); [apply mk_net_wf; assumption | exact Hp | apply mk_net_contains | exact Hx | exact H].
Qed.

Lemma host_wf x : x < 2 ^ W -> wf W (x, W).
Proof. intros H. unfold wf. rewrite blk_host. repeat split; [lia | exact H | apply N.mod_1_r]. Qed.
End Laws.

(* From here on: the predicates over an ARBITRARY table of reserved networks.
   [cls]: how a network lies against such a table ([classify], below). *)
Inductive cls := CInside | CStraddle | CDisjoint.

(* "inside one entry of a table" is DOWNWARD closed; private is the case of the private table *)
Theorem is_private_down PRIV a b : subnet_of W4 a b = true -> is_private PRIV b = true -> is_private PRIV a = true.
Proof.
  intros Hab Hb. unfold is_private in *. apply existsb_exists in Hb. destruct Hb as (p & Hp & Hb).
  apply existsb_exists. exists p. split; [exact Hp | eapply subnet_of_trans; eassumption].
Qed.

Section Table.
Variable SHARED : net.
Variable PRIV : list net.
Let TABLE : list net := SHARED :: PRIV.
Hypothesis TABLE_wf : Forall (wf W4) TABLE.

Lemma entry_wf p : In p (SHARED :: PRIV) -> wf W4 p.
Proof. apply Forall_forall, TABLE_wf. Qed.

(* "not globally routable" = inside ONE entry of the table (shared network included) *)
Definition reserved (n : net) : bool := existsb (subnet_of W4 n) (SHARED :: PRIV).
Lemma is_global_reserved n : is_global SHARED PRIV n = negb (reserved n).
Proof. apply is_global_existsb. Qed.
Lemma reserved_iff n : reserved n = true <-> exists p, In p (SHARED :: PRIV) /\ subnet_of W4 n p = true.
Proof. unfold reserved. apply existsb_exists. Qed.
Lemma is_global_true_iff n : is_global SHARED PRIV n = true <-> forall p, In p (SHARED :: PRIV) -> subnet_of W4 n p = false.
Proof. rewrite is_global_reserved, negb_true_iff. apply existsb_false_iff. Qed.

(* MONOTONICITY in the range (a inside b) *)
Theorem reserved_down a b : subnet_of W4 a b = true -> reserved b = true -> reserved a = true.
Proof. exact (is_private_down (SHARED :: PRIV) a b). Qed.
(* globally routable is UPWARD closed *)
Theorem is_global_up a b : subnet_of W4 a b = true -> is_global SHARED PRIV a = true -> is_global SHARED PRIV b = true.
Proof.
  rewrite !is_global_reserved, !negb_true_iff. intros Hab Ha. destruct (reserved b) eqn:E; [|reflexivity].
  rewrite (reserved_down a b Hab E) in Ha. discriminate.
Qed.
(* ... and so is the verdict of is_public() on a rule with a CIDR, whatever the source groups of the two rules *)
Theorem is_public_up a b g g' : wf W4 b -> subnet_of W4 a b = true ->
  is_public SHARED PRIV (Some a) g = true -> is_public SHARED PRIV (Some b) g' = true.
Proof.
  intros Hb Hab. cbn [is_public]. rewrite !orb_true_iff, !net_eqb_zero. intros [Hz|Hg].
  - left. eapply slash_zero_up; eassumption.
  - right. eapply is_global_up; eassumption.
Qed.
(* contrapositive reading: every range inside a non-public range is non-public *)
Corollary not_public_down a b g g' : wf W4 b -> subnet_of W4 a b = true ->
  is_public SHARED PRIV (Some b) g' = false -> is_public SHARED PRIV (Some a) g = false.
Proof.
  intros Hb Hab Hf. destruct (is_public SHARED PRIV (Some a) g) eqn:E; [|reflexivity].
  rewrite (is_public_up a b g g' Hb Hab E) in Hf. discriminate.
Qed.

(* single addresses *)
Definition addr_global (x : N) : bool := is_global SHARED PRIV (x, W4).
Lemma addr_global_iff x : addr_global x = true <-> forall p, In p (SHARED :: PRIV) -> in_netb W4 x p = false.
Proof.
  unfold addr_global. rewrite is_global_true_iff. split; intros H p Hp; specialize (H p Hp); rewrite subnet_of_host in *; exact H.
Qed.
Lemma addr_reserved_iff x : addr_global x = false <-> exists p, In p (SHARED :: PRIV) /\ in_net W4 x p.
Proof.
  unfold addr_global. rewrite is_global_reserved, negb_false_iff, reserved_iff.
  split; intros (p & Hp & H); exists p; (split; [exact Hp|]); [rewrite subnet_of_host in H | rewrite subnet_of_host]; apply in_netb_in; exact H.
Qed.

(* a range that contains ONE globally routable address is globally routable (no side condition) ... *)
Theorem contains_global_is_global n x : in_net W4 x n -> addr_global x = true -> is_global SHARED PRIV n = true.
Proof.
  intros Hx Hg. apply is_global_true_iff. intros p Hp. destruct (subnet_of W4 n p) eqn:E; [|reflexivity].
  pose proof (subnet_of_in W4 n p x E Hx) as Hin. apply in_netb_in in Hin.
  rewrite (proj1 (addr_global_iff x) Hg p Hp) in Hin. discriminate.
Qed.
(* ... and a reserved range contains none *)
Corollary reserved_all_reserved n x : reserved n = true -> in_net W4 x n -> addr_global x = false.
Proof.
  intros Hr Hx. destruct (addr_global x) eqn:E; [|reflexivity].
  pose proof (contains_global_is_global n x Hx E) as Hg. rewrite is_global_reserved, Hr in Hg. discriminate.
Qed.

(* the address just after the last address of p *)
Definition next_after (p : net) : N := fst p + blk W4 (snd p).
(* TABLE CONDITION (checked by computation on the generated table): the address after each entry, when there is one,
   lies in no entry -- no two entries are adjacent *)
Definition after_clean : bool :=
  forallb (fun p => (2 ^ W4 <=? next_after p) || forallb (fun q => negb (in_netb W4 (next_after p) q)) (SHARED :: PRIV)) (SHARED :: PRIV).

(* under it the converse holds: a range not inside one entry contains a globally routable address (it cannot be
   pieced together from several entries): its first address, or else the address after the entry that holds the first *)
Theorem is_global_has_global n : after_clean = true -> wf W4 n -> is_global SHARED PRIV n = true ->
  exists x, in_net W4 x n /\ addr_global x = true.
Proof.
  intros Hac Hn Hg. destruct (addr_global (fst n)) eqn:Ea; [exists (fst n); split; [apply in_net_first | exact Ea]|].
  apply addr_reserved_iff in Ea. destruct Ea as (p & Hp & Hin). pose proof (entry_wf p Hp) as Hpw.
  pose proof (proj1 (is_global_true_iff n) Hg p Hp) as Hnp.
  destruct (N.le_gt_cases (snd p) (snd n)) as [Hle|Hgt].
  { rewrite (laminar W4 n p (fst n) Hn Hpw (in_net_first W4 n) Hin Hle) in Hnp. discriminate. }
  assert (Hpn : subnet_of W4 p n = true) by (apply (laminar W4 p n (fst n) Hpw Hn Hin (in_net_first W4 n)); lia).
  exists (next_after p).
  assert (Hy : in_net W4 (next_after p) n).
  { destruct n as [a l], p as [b k]. cbn [fst snd] in *. unfold next_after. cbn [fst snd]. apply subnet_of_le in Hpn. unfold in_net in *.
    destruct Hpw as (Hk & _ & _). pose proof (blk_strict W4 l k Hgt Hk). pose proof (blk_pos W4 k). lia. }
  split; [exact Hy|]. apply addr_global_iff. intros q Hq.
  unfold after_clean in Hac. rewrite forallb_forall in Hac. specialize (Hac p Hp). apply orb_true_iff in Hac.
  destruct Hac as [Hbig|Hcl].
  - apply N.leb_le in Hbig. pose proof (in_net_bound W4 _ n Hn Hy). lia.
  - rewrite forallb_forall in Hcl. specialize (Hcl q Hq). apply negb_true_iff in Hcl. exact Hcl.
Qed.

(* PARTITION: inside one entry / straddling (an entry strictly inside it) / disjoint from every entry *)
Definition classify (n : net) : cls :=
  if reserved n then CInside
  else if existsb (fun p => subnet_of W4 p n) (SHARED :: PRIV) then CStraddle else CDisjoint.

Definition Inside (n : net) : Prop := exists p, In p (SHARED :: PRIV) /\ forall x, in_net W4 x n -> in_net W4 x p.
Definition Disjoint (n : net) : Prop := forall p x, In p (SHARED :: PRIV) -> in_net W4 x n -> ~ in_net W4 x p.
(* some entry lies wholly inside n, and n has an address outside that entry *)
Definition Straddles (n : net) : Prop :=
  ~ Inside n /\ exists p, In p (SHARED :: PRIV) /\ (forall x, in_net W4 x p -> in_net W4 x n).

(* the three classes read off the two tests of [classify] *)
Lemma Inside_iff n : Inside n <-> reserved n = true.
Proof.
  rewrite reserved_iff. unfold Inside. split; intros (p & Hp & H); exists p; (split; [exact Hp|]); apply subnet_of_incl; exact H.
Qed.
Lemma covers_iff n :
  (exists p, In p (SHARED :: PRIV) /\ (forall x, in_net W4 x p -> in_net W4 x n)) <->
  existsb (fun p => subnet_of W4 p n) (SHARED :: PRIV) = true.
Proof.
  rewrite existsb_exists. split; intros (p & Hp & H); exists p; (split; [exact Hp|]); apply subnet_of_incl; exact H.
Qed.
Lemma Disjoint_iff n : wf W4 n ->
  (Disjoint n <-> reserved n = false /\ existsb (fun p => subnet_of W4 p n) (SHARED :: PRIV) = false).
Proof.
  intros Hn. unfold Disjoint, reserved. rewrite !existsb_false_iff. split.
  - intros H. split; intros p Hp; apply not_true_iff_false; intros E.
    + exact (H p (fst n) Hp (in_net_first W4 n) (subnet_of_in W4 n p _ E (in_net_first W4 n))).
    + exact (H p (fst p) Hp (subnet_of_in W4 p n _ E (in_net_first W4 p)) (in_net_first W4 p)).
  - intros [H1 H2] p x Hp Hxn Hxp.
    destruct (nested_or_disjoint W4 n p Hn (entry_wf p Hp)) as [E|[E|E]];
      [rewrite (H1 p Hp) in E; discriminate | rewrite (H2 p Hp) in E; discriminate | exact (E x Hxn Hxp)].
Qed.

Theorem classify_inside n : classify n = CInside <-> Inside n.
Proof. rewrite Inside_iff. unfold classify. destruct (reserved n); [tauto|]. destruct (existsb _ _); split; discriminate. Qed.
Theorem classify_straddle n : classify n = CStraddle <-> Straddles n.
Proof.
  unfold Straddles. rewrite Inside_iff, covers_iff. unfold classify. destruct (reserved n), (existsb _ _); intuition congruence.
Qed.
Theorem classify_disjoint n : wf W4 n -> (classify n = CDisjoint <-> Disjoint n).
Proof.
  intros Hn. rewrite (Disjoint_iff n Hn). unfold classify. destruct (reserved n), (existsb _ _); intuition congruence.
Qed.
(* the three classes are exhaustive and exclusive (classify is a function), and the predicate reads the class:
   ONLY a range inside one entry is not globally routable; a STRADDLING range is reported globally routable *)
Theorem partition n : wf W4 n ->
  (Inside n /\ ~ Straddles n /\ ~ Disjoint n /\ is_global SHARED PRIV n = false) \/
  (~ Inside n /\ Straddles n /\ ~ Disjoint n /\ is_global SHARED PRIV n = true) \/
  (~ Inside n /\ ~ Straddles n /\ Disjoint n /\ is_global SHARED PRIV n = true).
Proof.
  intros Hn. unfold Straddles. rewrite Inside_iff, covers_iff, (Disjoint_iff n Hn), is_global_reserved.
  destruct (reserved n), (existsb _ _); cbn [negb]; intuition congruence.
Qed.

(* p is not inside another entry of the table *)
Definition outermost (p : net) : bool := forallb (fun q => net_eqb q p || negb (subnet_of W4 p q)) (SHARED :: PRIV).
(* TABLE CONDITION: the neighbours of an outermost entry (the address before its first, the address after its last, when
   they exist) lie in no entry *)
Definition edges_clean : bool :=
  forallb (fun p => negb (outermost p) ||
                    (((fst p =? 0) || addr_global (fst p - 1)) && ((2 ^ W4 <=? next_after p) || addr_global (next_after p))))
          (SHARED :: PRIV).

(* every address of an entry is reserved; for an OUTERMOST entry the verdict flips exactly at its first and last address *)
Theorem boundaries p : edges_clean = true -> In p (SHARED :: PRIV) ->
  (forall x, fst p <= x < next_after p -> addr_global x = false) /\
  (outermost p = true -> 0 < fst p -> addr_global (fst p - 1) = true) /\
  (outermost p = true -> next_after p < 2 ^ W4 -> addr_global (next_after p) = true).
Proof.
  intros Hc Hp. unfold edges_clean in Hc. rewrite forallb_forall in Hc. specialize (Hc p Hp). split; [|split].
  - intros x Hx. apply addr_reserved_iff. exists p. split; [exact Hp|]. destruct p as [b k]. exact Hx.
  - intros Ho H0. rewrite Ho in Hc. cbn [negb orb] in Hc. apply andb_true_iff in Hc. destruct Hc as [Hc _].
    apply orb_true_iff in Hc. destruct Hc as [Hc|Hc]; [apply N.eqb_eq in Hc; lia | exact Hc].
  - intros Ho H1. rewrite Ho in Hc. cbn [negb orb] in Hc. apply andb_true_iff in Hc. destruct Hc as [_ Hc].
    apply orb_true_iff in Hc. destruct Hc as [Hc|Hc]; [apply N.leb_le in Hc; lia | exact Hc].
Qed.

(* ... and in the prefix-length direction: around ANY address x of an outermost entry p, the /l network is reserved exactly
   when l >= snd p.  A wider one holds p; were it inside an entry q, so would p be, and q = p is too small *)
Theorem boundary_length p x l : In p (SHARED :: PRIV) -> outermost p = true -> in_net W4 x p -> l <= W4 ->
  is_global SHARED PRIV (mk_net W4 x l) = (l <? snd p).
Proof.
  intros Hp Ho Hx Hl. pose proof (entry_wf p Hp) as Hpw.
  pose proof (mk_net_inside_iff W4 x l p Hpw Hx Hl) as Hin.
  destruct (N.ltb_spec l (snd p)) as [Hlt|Hge].
  - apply is_global_true_iff. intros q Hq. apply not_true_iff_false. intros E.
    assert (Hpq : subnet_of W4 p q = true).
    { apply (subnet_of_trans W4 p (mk_net W4 x l) q); [|exact E].
      apply (laminar W4 p _ x Hpw); [apply mk_net_wf; [exact Hl | exact (in_net_bound W4 x p Hpw Hx)] | exact Hx | apply mk_net_contains | unfold mk_net; cbn [snd]; lia]. }
    unfold outermost in Ho. rewrite forallb_forall in Ho. specialize (Ho q Hq). rewrite Hpq in Ho. rewrite orb_false_r in Ho.
    apply net_eqb_eq in Ho. subst q. apply Hin in E. lia.
  - rewrite is_global_reserved. apply negb_false_iff, reserved_iff. exists p. split; [exact Hp | apply Hin, Hge].
Qed.
End Table.

(* the table of the running Python *)
Definition TABLE4 : list net := SHARED4 :: PRIVATE4.
Lemma TABLE4_wf : Forall (wf W4) TABLE4.
Proof. constructor; [exact SHARED4_wf | exact PRIVATE4_wf]. Qed.
Definition is_private4 : net -> bool := is_private PRIVATE4.
Definition reserved4 : net -> bool := reserved SHARED4 PRIVATE4.
Definition addr_global4 : N -> bool := addr_global SHARED4 PRIVATE4.
Definition classify4 : net -> cls := classify SHARED4 PRIVATE4.
Definition outermost4 : net -> bool := outermost SHARED4 PRIVATE4.

Lemma after_clean4 : after_clean SHARED4 PRIVATE4 = true.
Proof. vm_compute. reflexivity. Qed.
Lemma edges_clean4 : edges_clean SHARED4 PRIVATE4 = true.
Proof. vm_compute. reflexivity. Qed.

(* what "public" means for a CIDR: the range contains AT LEAST ONE address outside every reserved entry *)
Theorem is_global4_iff_contains n : wf W4 n ->
  (is_global4 n = true <-> exists x, in_net W4 x n /\ forall p, In p TABLE4 -> ~ in_net W4 x p).
Proof.
  intros Hn. split.
  - intros H. destruct (is_global_has_global SHARED4 PRIVATE4 TABLE4_wf n after_clean4 Hn H) as (x & Hx & Hg).
    exists x. split; [exact Hx|]. intros p Hp Hin. apply in_netb_in in Hin.
    rewrite (proj1 (addr_global_iff SHARED4 PRIVATE4 x) Hg p Hp) in Hin. discriminate.
  - intros (x & Hx & H). apply (contains_global_is_global SHARED4 PRIVATE4 n x Hx). apply addr_global_iff. intros p Hp.
    destruct (in_netb W4 x p) eqn:E; [|reflexivity]. exfalso. apply (H p Hp). apply in_netb_in. exact E.
Qed.

(* the generic laws at the generated table *)
Theorem is_private4_down a b : subnet_of W4 a b = true -> is_private4 b = true -> is_private4 a = true.
Proof. exact (is_private_down PRIVATE4 a b). Qed.
Theorem is_global4_up a b : subnet_of W4 a b = true -> is_global4 a = true -> is_global4 b = true.
Proof. exact (is_global_up SHARED4 PRIVATE4 a b). Qed.
Theorem is_public4_up a b g g' : wf W4 b -> subnet_of W4 a b = true ->
  is_public4 (Some a) g = true -> is_public4 (Some b) g' = true.
Proof. exact (is_public_up SHARED4 PRIVATE4 a b g g'). Qed.
Theorem not_public4_down a b g g' : wf W4 b -> subnet_of W4 a b = true ->
  is_public4 (Some b) g' = false -> is_public4 (Some a) g = false.
Proof. exact (not_public_down SHARED4 PRIVATE4 a b g g'). Qed.

Theorem partition4 n : wf W4 n ->
  (Inside SHARED4 PRIVATE4 n /\ ~ Straddles SHARED4 PRIVATE4 n /\ ~ Disjoint SHARED4 PRIVATE4 n /\ is_global4 n = false) \/
  (~ Inside SHARED4 PRIVATE4 n /\ Straddles SHARED4 PRIVATE4 n /\ ~ Disjoint SHARED4 PRIVATE4 n /\ is_global4 n = true) \/
  (~ Inside SHARED4 PRIVATE4 n /\ ~ Straddles SHARED4 PRIVATE4 n /\ Disjoint SHARED4 PRIVATE4 n /\ is_global4 n = true).
Proof. exact (partition SHARED4 PRIVATE4 TABLE4_wf n). Qed.

(* spellings: the predicates see the stored network only, and the stored network is the SET of addresses *)
Theorem parse4_written_mask x l : x < 2 ^ 32 -> l <= 32 ->
  parse4 (print_addr4 x ++ SLASH :: print_mask4 l) = Ok (mk_net W4 x l).
Proof.
  intros Hx Hl. rewrite <- parse4_spellings; [apply parse4_written; assumption | apply print_addr4_no_slash, Hx | exact Hl].
Qed.
(* any address of the range may be written: the same network is stored *)
Corollary parse4_any_host_bits x y l : x < 2 ^ 32 -> y < 2 ^ 32 -> l <= 32 -> same_prefix W4 l x y ->
  parse4 (print_addr4 x ++ SLASH :: print_small l) = parse4 (print_addr4 y ++ SLASH :: print_mask4 l).
Proof.
  intros Hx Hy Hl Hp. rewrite parse4_written, parse4_written_mask by assumption. f_equal. apply mk_net_same_prefix. exact Hp.
Qed.

(* the two address families *)
Lemma dotted_quad_no_colon a x : dotted_quad a x -> ~ In COLON a.
Proof. intros H. apply (Forall_notin _ _ _ (dotted_quad_chars a x H)). unfold COLON, DOT. lia. Qed.
(* a bare dotted quad is not an IPv6 address (it would be two groups out of eight) *)
Lemma parse_addr6_quad a x : dotted_quad a x -> parse_addr6 a = None.
Proof.
  intros Hq. pose proof (dotted_quad_no_colon a x Hq) as Hnc. pose proof (dotted_quad_has_dot a x Hq) as Hdot.
  assert (Hcut : cut_dcolon a = None).
  { rewrite <- (app_nil_r a). apply cut_dcolon_app; [exact Hnc | reflexivity]. }
  unfold parse_addr6. rewrite Hcut. unfold side_groups. destruct a as [|c a']; [destruct Hdot|].
  rewrite split_ch_none by exact Hnc. rewrite groups_of_one.
  rewrite (proj2 (has_ch_In DOT (c :: a')) Hdot). apply parse_addr4_spec in Hq. rewrite Hq. reflexivity.
Qed.
Lemma cidr4_text_chars s x l : cidr4_text s x l -> Forall (fun c => 48 <= c <= 57 \/ c = DOT \/ c = SLASH) s.
Proof.
  assert (Q : forall t y, dotted_quad t y -> Forall (fun c => 48 <= c <= 57 \/ c = DOT \/ c = SLASH) t).
  { intros t y H. eapply Forall_impl; [|eapply dotted_quad_chars; exact H]. cbv beta. tauto. }
  intros [[Hq _]|(a & m & -> & Hq & _ & Hm)]; [eapply Q; exact Hq|].
  apply Forall_app. split; [eapply Q; exact Hq|]. constructor; [right; right; reflexivity|].
  destruct Hm as [[Hd _]|(k & Hk & _)]; [|eapply Q; exact Hk].
  apply parse_dec_spec in Hd. apply parse_dec_digits in Hd. eapply Forall_impl; [|exact Hd]. cbv beta. tauto.
Qed.
(* NO text is accepted by both CIDR fields: what CidrIp / CIDRIP accepts, CidrIpv6 rejects with ValueError *)
Theorem v4_text_not_v6 s n : parse4 s = Ok n -> parse6 s = Err EValue.
Proof.
  intros H. apply parse4_ok in H. destruct H as (x & l & Ht & _).
  assert (Hp : has_ch PERCENT s = false).
  { apply has_ch_false, (Forall_notin _ _ _ (cidr4_text_chars s x l Ht)). unfold PERCENT, DOT, SLASH. lia. }
  unfold parse6. rewrite Hp. assert (Hw : written6 s = None); [|rewrite Hw; reflexivity].
  unfold written6. destruct Ht as [[Hq _]|(a & m & -> & Hq & Hm & _)].
  - rewrite split_ch_none by (eapply dotted_quad_no_slash; exact Hq). rewrite (parse_addr6_quad s x Hq). reflexivity.
  - rewrite split_ch_two by (try exact Hm; eapply dotted_quad_no_slash; exact Hq).
    rewrite (parse_addr6_quad a x Hq). reflexivity.
Qed.
Corollary v6_text_not_v4 s n : parse6 s = Ok n -> exists e, parse4 s = Err e.
Proof.
  intros H. destruct (parse4_err s) as [E|[m E]]; [exists EValue; exact E|].
  rewrite (v4_text_not_v6 s m E) in H. discriminate.
Qed.

(* IPv4-mapped IPv6: ::ffff:a.b.c.d/(96+l) *)
Definition MAPPED_PREFIX : str := [COLON; COLON; 102; 102; 102; 102; COLON].          (* "::ffff:" *)
Definition mapped_addr (x : N) : N := 65535 * 2 ^ 32 + x.
Definition mapped6 (n : net) : net := (mapped_addr (fst n), 96 + snd n).

Lemma blk_mapped l : blk W6 (96 + l) = blk W4 l.
Proof. unfold blk, W6, W4. f_equal. lia. Qed.
Lemma mapped_addr_plus_blocks x l : l <= 32 -> mapped_addr x = x + (65535 * 2 ^ l) * blk W4 l.
Proof. intros Hl. unfold mapped_addr. change (2 ^ 32) with (2 ^ W4). rewrite (blk_divides W4 l) by exact Hl. lia. Qed.

(* masking commutes with the embedding *)
Lemma mk_net_mapped x l : l <= 32 -> mk_net W6 (mapped_addr x) (96 + l) = mapped6 (mk_net W4 x l).
Proof.
  intros Hl. unfold mk_net, mapped6. cbn [fst snd]. f_equal. rewrite blk_mapped. pose proof (blk_pos W4 l) as Hb.
  rewrite (mapped_addr_plus_blocks x l Hl). rewrite N.div_add by lia. rewrite (mapped_addr_plus_blocks (x / blk W4 l * blk W4 l) l Hl). lia.
Qed.

Lemma parse_addr6_mapped x : x < 2 ^ 32 -> parse_addr6 (MAPPED_PREFIX ++ print_addr4 x) = Some (mapped_addr x).
Proof.
  intros Hx. pose proof (print_addr4_quad x Hx) as Hq. set (a := print_addr4 x) in *.
  pose proof (dotted_quad_no_colon a x Hq) as Hnc. pose proof (dotted_quad_has_dot a x Hq) as Hdot.
  unfold parse_addr6, MAPPED_PREFIX. cbn [app]. rewrite cut_dcolon_cons2, N.eqb_refl. cbn [andb].
  change (side_groups false []) with (Some (@nil N)).
  assert (Hs : side_groups true (102 :: 102 :: 102 :: 102 :: COLON :: a) = Some [65535; x / 65536; x mod 65536]).
  { unfold side_groups. change (102 :: 102 :: 102 :: 102 :: COLON :: a) with ([102; 102; 102; 102] ++ COLON :: a).
    rewrite split_ch_two by (try exact Hnc; unfold COLON; cbn [In]; intros H; repeat (destruct H as [H|H]; [discriminate|]); exact H).
    rewrite groups_of_cons, groups_of_one.
    rewrite (proj2 (has_ch_In DOT a) Hdot). apply parse_addr4_spec in Hq. rewrite Hq. reflexivity. }
  rewrite Hs. cbn [length Nat.add Nat.leb Nat.sub repeat app]. f_equal.
  unfold addr_of_groups. cbn [fold_left]. unfold mapped_addr. change (2 ^ 32) with 4294967296.
  pose proof (N.div_mod x 65536). lia.
Qed.

(* rule level *)
(* an EC2 security-group rule (inline, or a stand-alone ingress / egress resource): the two CIDR fields after parsing, and
   whether a source / destination security group or a prefix list is named *)
Record ec2_rule := { r_cidr4 : option net; r_cidr6 : option net; r_group : option str; r_prefix_list : option str }.
Definition rule_v4_zero (r : ec2_rule) : bool := slash_zero_field (r_cidr4 r).
Definition rule_v6_zero (r : ec2_rule) : bool := slash_zero_field (r_cidr6 r).

(* the RDS rule: COMPLETE decision table of is_public().  With a CIDR the source groups are not consulted at all *)
Theorem rds_rule_table SH PR c gname gid :
  is_public_rule SH PR c gname gid =
  match c with
  | Some n => net_eqb n ZERO || is_global SH PR n
  | None => negb (truthy gname || truthy gid)
  end.
Proof. unfold is_public_rule. destruct c; [reflexivity|]. cbn [is_public]. destruct (truthy gname || truthy gid); reflexivity. Qed.
Corollary rds_group_irrelevant_with_cidr SH PR n gname gid gname' gid' :
  is_public_rule SH PR (Some n) gname gid = is_public_rule SH PR (Some n) gname' gid'.
Proof. rewrite !rds_rule_table. reflexivity. Qed.
