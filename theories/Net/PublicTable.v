(* Facts about the GENERATED private-network table (gen/PrivateNets.v, rewritten from the running Python on every run),
   re-proved by computation each time: what the table-parametric theorems of Net/Public.v ask of it. *)
From Coq Require Import List Bool NArith ZArith.
From PV Require Import Base.Value Net.Arith Net.IPv4 Net.IPv6 Net.Public.
From PVGen Require Import PrivateNets.
Import ListNotations.
Local Open Scope N_scope.

(* every entry is a well-formed IPv4 network: prefix length <= 32, address < 2^32, host bits zero *)
Lemma table_wf_check : forallb (wfb W4) (SHARED4 :: PRIVATE4) = true.
Proof. vm_compute. reflexivity. Qed.
Lemma SHARED4_wf : wf W4 SHARED4.
Proof. apply wfb_wf. pose proof table_wf_check as H. cbn [forallb] in H. apply andb_true_iff in H. apply H. Qed.
Lemma PRIVATE4_wf : Forall (wf W4) PRIVATE4.
Proof.
  pose proof table_wf_check as H. cbn [forallb] in H. apply andb_true_iff in H. destruct H as [_ H].
  apply Forall_forall. intros p Hp. apply wfb_wf. rewrite forallb_forall in H. apply H. exact Hp.
Qed.

(* no entry is the whole address space *)
Lemma table_pos_check : forallb (fun q => 0 <? snd q) (SHARED4 :: PRIVATE4) = true.
Proof. vm_compute. reflexivity. Qed.
Lemma table_pos : Forall (fun q => 0 < snd q) (SHARED4 :: PRIVATE4).
Proof.
  apply Forall_forall. intros q Hq. pose proof table_pos_check as H. rewrite forallb_forall in H.
  apply N.ltb_lt. apply H. exact Hq.
Qed.

(* pycfmodel's two constants denote the all-zero /0 networks *)
Lemma zero4_text_check : parse4 ZERO4_TEXT = Ok ZERO.
Proof. vm_compute. reflexivity. Qed.
Lemma zero6_text_check : parse6 ZERO6_TEXT = Ok ZERO.
Proof. vm_compute. reflexivity. Qed.

Definition is_public4 : option net -> bool -> bool := is_public SHARED4 PRIVATE4.
Definition is_global4 : net -> bool := is_global SHARED4 PRIVATE4.
