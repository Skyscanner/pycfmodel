(* C13 -- Every embedded policy document is discoverable, exactly once.
   The theorems of the property, each proved from the lemmas of Typed/Collect.v, Typed/CollectFacts.v, Typed/TypedDocs.v and
   Typed/PdCheck.v.  Most of them are about generic resources (cast, then collect); C13_typed_paths,
   C13_known_rows_unchanged and the [typed_docs] Examples are about the modelled classes: [typed_docs] (Typed/TypedDocs.v) reads
   the rows of [FULL_TABLE] (Typed/PdFull.v), which are checked against the document-capable paths of the live classes
   (gen/PdPaths.v).
   Model: [cast] (Typed/Cast.v, pycfmodel/model/generic.py), [collect] / [resource_docs] (resource.py
   policy_documents + obtain_policy_documents).  Spec: [embedded] = a FILTER over the flat enumeration [positions] of all
   positions of the input (object members, list members, positions inside decoded JSON strings), keeping a position whose
   node is recognised as a policy document / named wrapper and that has no accepted proper ancestor.
   The recogniser is a per-node oracle annotation (TypeAdapter(Properties) in isolation): the theorems hold for EVERY
   annotation and every configuration [c] of the casting algorithm. *)
From Coq Require Import List Bool NArith ZArith Lia.
From PV Require Import Base.ListFacts Typed.CastFacts.
From PV Require Import Base.Str Base.Value Typed.GValue Typed.Cast Typed.Collect Typed.PdSpec Typed.PdFull Typed.TypedDocs Typed.PdCheck Typed.Witness.
From PV Require Import Typed.CastShape Typed.CollectFacts.
From Coq Require Import Permutation Sorted.
From PVGen Require PdPaths.
Import ListNotations.

(* The faithful model of the code: cast-then-collect returns, as a LIST (each document once, in traversal order, nothing
   else), exactly the documents at the positions the code's reading enumerates -- a JSON-encoded string is entered only when
   its decoded top-level value is accepted by the union (known finding F16). *)
Theorem C13_exactly_once_impl :
  forall (c : cfg) (props : list (str * gvalue)), resource_docs c props = resource_embedded false c props.
Proof. intros c props. unfold resource_docs, resource_embedded. apply flat_map_ext_in. intros [k x] _. apply collect_is_embedded_impl. Qed.
Print Assumptions C13_exactly_once_impl.

(* The property's reading (every JSON-encoded string is entered): equal to what the code returns whenever no JSON string
   hides a document below a decoded value the union rejects. *)
Theorem C13_exactly_once :
  forall (c : cfg) (props : list (str * gvalue)),
    forallb (fun kv => hidden_free c (snd kv)) props = true ->
    resource_docs c props = resource_embedded true c props.
Proof.
  intros c props H. rewrite forallb_forall in H. unfold resource_docs, resource_embedded. apply flat_map_ext_in.
  intros [k x] Hx. apply exactly_once_spec. apply (H (k, x) Hx).
Qed.
Print Assumptions C13_exactly_once.

Theorem C13_exactly_once_value :
  forall (c : cfg) (g : gvalue), hidden_free c g = true -> collect (cast c g) = embedded_spec c g.
Proof. exact exactly_once_spec. Qed.
Print Assumptions C13_exactly_once_value.

(* a document in a named wrapper carries its PolicyName; a bare document is unnamed; no other property model yields anything *)
Theorem C13_named :
  forall (c : cfg) (d : list (str * gvalue)) (r : recog) (n : str),
    choose c (GDict d (Some r)) = CProp r -> r_kind r = PkPolicy -> name_confirmed d r = true -> policy_name d = Some n ->
    collect (cast c (GDict d (Some r))) = [(Some n, r_doc r)].
Proof.
  intros c d r n E K N P. rewrite (recognised_is_leaf c d _ r E). unfold yields. rewrite K.
  unfold name_confirmed in N. rewrite K, P in N. destruct (r_name r) as [m|]; [|discriminate].
  apply str_eqb_spec in N. subst. reflexivity.
Qed.
Print Assumptions C13_named.
Theorem C13_unnamed :
  forall (c : cfg) (d : list (str * gvalue)) (r : recog),
    choose c (GDict d (Some r)) = CProp r -> r_kind r = PkPolicyDocument ->
    collect (cast c (GDict d (Some r))) = [(None, r_doc r)].
Proof. intros c d r E K. rewrite (recognised_is_leaf c d _ r E). unfold yields. rewrite K. reflexivity. Qed.
Print Assumptions C13_unnamed.
Theorem C13_nothing_else :
  forall (c : cfg) (d : list (str * gvalue)) (r : recog),
    choose c (GDict d (Some r)) = CProp r -> r_kind r <> PkPolicyDocument -> r_kind r <> PkPolicy ->
    collect (cast c (GDict d (Some r))) = [].
Proof. intros c d r E K1 K2. rewrite (recognised_is_leaf c d _ r E). unfold yields. destruct (r_kind r); congruence. Qed.
Print Assumptions C13_nothing_else.

(* all_statement_conditions = the Condition blocks of the statements of exactly those documents, in order,
   statements without a Condition skipped *)
Theorem C13_conditions :
  forall (c : cfg) (props : list (str * gvalue)),
    resource_conditions c props = flat_map (fun nd => doc_conditions (snd nd)) (resource_embedded false c props).
Proof. intros c props. unfold resource_conditions, conditions_of. rewrite C13_exactly_once_impl. reflexivity. Qed.
Print Assumptions C13_conditions.
Theorem C13_conditions_of_document :
  forall sts, doc_conditions (VList sts) = map the_condition (filter has_condition sts).
Proof.
  intros sts. unfold doc_conditions. induction sts as [|st sts IH]; [reflexivity|]. cbn [flat_map filter]. rewrite IH.
  rewrite stmt_condition_filter. destruct (has_condition st); reflexivity.
Qed.
Print Assumptions C13_conditions_of_document.

(* modelled classes: the document-typed paths of the LIVE schema (gen/PdPaths.v, regenerated each run) are exactly the
   known ones, and each is read by its class's accessor or by its dedicated accessor (IAM role trust policy) *)
Theorem C13_typed_paths :
  forall t ov paths, In (t, (ov, paths)) PdPaths.PD_TABLE ->
  exists r, In r FULL_TABLE /\ c_type r = t /\ c_paths r = paths /\ (ov = is_override (c_acc r) \/ paths = []) /\
            forallb (path_covered r) paths = true.
Proof.
  intros t ov paths H. destruct pd_table_is_spec as [F _]. rewrite forallb_forall in F. specialize (F _ H).
  apply row_compat_spec in F. destruct F as (E1 & E2 & E3).
  assert (Hr : In (full_row (t, (ov, paths))) FULL_TABLE) by (unfold FULL_TABLE; apply in_map; exact H).
  exists (full_row (t, (ov, paths))). split; [exact Hr|]. split; [exact E1|]. split; [exact E2|]. split; [exact E3|].
  pose proof full_table_covered as C. rewrite forallb_forall in C. specialize (C _ Hr). unfold covered in C. rewrite E2 in C. exact C.
Qed.
Print Assumptions C13_typed_paths.
(* FULL_TABLE (Typed/PdFull.v): for a class with an accessor OVERRIDE the hand-written row of PdSpec.SPEC_TABLE -- its
   document-capable paths are pinned, a path the override does not read would hide documents; for a class read by the inherited WALK,
   known or modelled since, a walking row with the LIVE paths -- the walk visits every field, so a property added upstream is searched
   like the others.  For a class WITHOUT document-capable paths (the security groups) the override flag is immaterial: skipping the
   walk finds what the walk finds, nothing.  Every class of SPEC_TABLE is modelled: *)
Theorem C13_known_rows_unchanged : forall r, In r SPEC_TABLE -> exists ov paths, In (c_type r, (ov, paths)) PdPaths.PD_TABLE.
Proof.
  intros r Hr. destruct pd_table_is_spec as (_ & F). rewrite forallb_forall in F. specialize (F _ Hr).
  apply existsb_exists in F. destruct F as ([t [ov paths]] & Hg & E). apply String.eqb_eq in E. simpl in E. subst t.
  exists ov, paths. exact Hg.
Qed.
Print Assumptions C13_known_rows_unchanged.
Theorem C13_override_rows_pinned :
  forall t ov paths r, In (t, (ov, paths)) PdPaths.PD_TABLE -> spec_row t = Some r -> c_acc r <> AWalk -> paths = c_paths r.
Proof.
  intros t ov paths r H Hs Ha. destruct pd_table_is_spec as [F _]. rewrite forallb_forall in F. specialize (F _ H).
  apply row_compat_spec in F. destruct F as (_ & E2 & _). unfold full_row in E2. simpl in E2. rewrite Hs in E2.
  destruct (c_acc r) eqn:A; [contradiction Ha; reflexivity | symmetry; exact E2 | symmetry; exact E2].
Qed.
Print Assumptions C13_override_rows_pinned.
Theorem C13_typed_generic_field :
  forall (c : cfg) (d : list (str * gvalue)) (r : option recog), generic_obj c (GDict d r) = resource_embedded false c d.
Proof. intros c d r. apply C13_exactly_once_impl. Qed.
Print Assumptions C13_typed_generic_field.


(* counting, path, order, locality and nesting forms (Typed/CollectFacts.v) *)

(* EXACTLY ONCE as a count: as many documents are collected as there are positions -- at any depth, any width -- whose node
   the union recognises as a policy document / named wrapper and that have no accepted proper ancestor *)
Theorem C13_count :
  forall (c : cfg) (g : gvalue), length (collect (cast c g)) = count_pd_positions false c g.
Proof. intros c g. rewrite collect_is_embedded_impl. apply embedded_length. Qed.
Print Assumptions C13_count.
Theorem C13_count_spec :
  forall (c : cfg) (g : gvalue), hidden_free c g = true -> length (collect (cast c g)) = count_pd_positions true c g.
Proof. intros c g H. rewrite (exactly_once_spec c g H). apply embedded_length. Qed.
Print Assumptions C13_count_spec.
Theorem C13_count_resource :
  forall (c : cfg) (props : list (str * gvalue)),
    length (resource_docs c props) = list_sum (map (fun kv => count_pd_positions false c (snd kv)) props).
Proof.
  intros c props. unfold resource_docs. induction props as [|[k x] props IH]; [reflexivity|].
  cbn [flat_map map list_sum snd]. rewrite app_length, IH, C13_count. reflexivity.
Qed.
Print Assumptions C13_count_resource.

(* EXACTLY ONCE as paths: the collected list is, document by document and in order, a list of documents found at pairwise
   DISTINCT paths of the input, each path leading to a node the union recognises as a document / named wrapper *)
Theorem C13_distinct_paths :
  forall (c : cfg) (g : gvalue),
  exists ps : list (path * pdoc),
    map snd ps = collect (cast c g) /\ NoDup (map fst ps) /\
    forall p d, In (p, d) ps -> exists x r, gat g p = Some x /\ node_choice c x = CProp r /\ In d (yields r).
Proof.
  intros c g. destruct (collected_in_document_order c g) as (ps & E & S & H). exists ps. split; [exact E|]. split; [|exact H].
  exact (StronglySorted_NoDup path_lt _ path_lt_irrefl S).
Qed.
Print Assumptions C13_distinct_paths.
(* the enumeration of ALL positions lists every path once, and each path leads to the node it is listed with *)
Theorem C13_positions_distinct :
  forall (deep : bool) (c : cfg) (g : gvalue) (cut : bool), NoDup (map fst (positions_p deep c cut g)).
Proof. intros deep c g cut. exact (StronglySorted_NoDup path_lt _ path_lt_irrefl (positions_p_sorted deep c g cut)). Qed.
Print Assumptions C13_positions_distinct.
Theorem C13_positions_are_paths :
  forall (deep : bool) (c : cfg) (g : gvalue) (cut : bool) (p : path) (y : bool * gvalue),
    In (p, y) (positions_p deep c cut g) -> gat g p = Some (snd y).
Proof. exact positions_p_gat. Qed.
Print Assumptions C13_positions_are_paths.
Theorem C13_positions_erase :
  forall (deep : bool) (c : cfg) (g : gvalue) (cut : bool), map snd (positions_p deep c cut g) = positions deep c cut g.
Proof. exact positions_p_erase. Qed.
Print Assumptions C13_positions_erase.
Theorem C13_embedded_paths_docs :
  forall (deep : bool) (c : cfg) (g : gvalue), map snd (embedded_p deep c g) = embedded deep c g.
Proof. exact embedded_p_docs. Qed.
Print Assumptions C13_embedded_paths_docs.

(* ORDER: documents come in document order -- what a list of properties / a plain object / an array yields is the
   concatenation, member by member, of what the members yield *)
Theorem C13_order_properties :
  forall (c : cfg) (p1 p2 : list (str * gvalue)), resource_docs c (p1 ++ p2) = resource_docs c p1 ++ resource_docs c p2.
Proof. intros c p1 p2. unfold resource_docs. apply flat_map_app. Qed.
Print Assumptions C13_order_properties.
Theorem C13_order_object :
  forall (c : cfg) (d : list (str * gvalue)) (r : option recog),
    choose c (GDict d r) = CNone -> collect (cast c (GDict d r)) = resource_docs c d.
Proof.
  intros c d r E. rewrite (cast_dict_plain c d r E). cbn [collect]. unfold cast_props, resource_docs.
  rewrite flat_map_map. apply flat_map_ext_in. intros [k x] _. reflexivity.
Qed.
Print Assumptions C13_order_object.
Theorem C13_order_object_app :
  forall (c : cfg) (m1 m2 : list (str * gvalue)) (r : option recog),
    choose c (GDict (m1 ++ m2) r) = CNone ->
    collect (cast c (GDict (m1 ++ m2) r)) = resource_docs c m1 ++ resource_docs c m2.
Proof. intros c m1 m2 r E. rewrite (C13_order_object c _ r E). apply C13_order_properties. Qed.
Print Assumptions C13_order_object_app.
Theorem C13_order_generic_app :
  forall m1 m2 : list (str * tval), collect (TGeneric (m1 ++ m2)) = collect (TGeneric m1) ++ collect (TGeneric m2).
Proof. intros m1 m2. cbn [collect]. apply flat_map_app. Qed.
Print Assumptions C13_order_generic_app.
Theorem C13_order_tlist_app :
  forall l1 l2 : list tval, collect (TList (l1 ++ l2)) = collect (TList l1) ++ collect (TList l2).
Proof. intros l1 l2. cbn [collect]. apply flat_map_app. Qed.
Print Assumptions C13_order_tlist_app.
(* arrays: a typed array holds no document, any other array yields what its members yield, in order ... *)
Theorem C13_order_list :
  forall (c : cfg) (l : list gvalue),
    collect (cast c (GList l)) = if accepted c (GList l) then [] else list_docs c l.
Proof. exact collect_list. Qed.
Print Assumptions C13_order_list.
(* ... unconditionally so when text that encodes a container is not also read as a boolean / number / date / network *)
Theorem C13_order_list_members :
  forall (c : cfg) (l : list gvalue),
    forallb container_text_coherent l = true -> collect (cast c (GList l)) = list_docs c l.
Proof.
  (* a list that no alternative (or only the str alternative) takes yields the documents of its members by [collect_list]; a list typed
     by another alternative b yields nothing, and so do its members: each is a scalar read by b -- coherent text that b reads
     does not encode a container -- or a function call *)
  intros c l Co. rewrite collect_list. unfold accepted, node_choice.
  destruct (cast_list_cases c l) as [[[E|E] _]|(b & Hb & E & _)]; rewrite E; [reflexivity|reflexivity|].
  assert (match b with BStr => false | _ => true end = true) as -> by (destruct b; congruence).
  symmetry. apply flat_map_nil. intros x Hx. rewrite forallb_forall in Co.
  destruct (typed_member c l b x E Hb Hx) as [[_ Sc]|[F _]]; [exact (coherent_member c b x _ (Co x Hx) Hb Sc)|].
  rewrite (cast_fn c x F). reflexivity.
Qed.
Print Assumptions C13_order_list_members.
Theorem C13_order_list_app :
  forall (c : cfg) (l1 l2 : list gvalue),
    forallb container_text_coherent (l1 ++ l2) = true ->
    collect (cast c (GList (l1 ++ l2))) = collect (cast c (GList l1)) ++ collect (cast c (GList l2)).
Proof.
  intros c l1 l2 Co. pose proof Co as Co'. rewrite forallb_app in Co'. apply andb_prop in Co'. destruct Co' as [C1 C2].
  rewrite !C13_order_list_members by assumption. apply list_docs_app.
Qed.
Print Assumptions C13_order_list_app.

(* ORDER on paths: positions are enumerated, and documents therefore collected, in DOCUMENT ORDER (a node before its members,
   members in the order written): the paths are strictly increasing in the pre-order [path_lt], a strict order *)
Theorem C13_positions_in_document_order :
  forall (deep : bool) (c : cfg) (g : gvalue) (cut : bool),
    Sorted.StronglySorted path_lt (map fst (positions_p deep c cut g)).
Proof. exact positions_p_sorted. Qed.
Print Assumptions C13_positions_in_document_order.
Theorem C13_collected_in_document_order :
  forall (c : cfg) (g : gvalue),
  exists ps : list (path * pdoc),
    map snd ps = collect (cast c g) /\ Sorted.StronglySorted path_lt (map fst ps) /\
    forall p d, In (p, d) ps -> exists x r, gat g p = Some x /\ node_choice c x = CProp r /\ In d (yields r).
Proof. exact collected_in_document_order. Qed.
Print Assumptions C13_collected_in_document_order.
Theorem C13_path_lt_irrefl : forall p : path, ~ path_lt p p.
Proof. exact path_lt_irrefl. Qed.
Print Assumptions C13_path_lt_irrefl.
Theorem C13_path_lt_trans : forall p q r : path, path_lt p q -> path_lt q r -> path_lt p r.
Proof.
  intros p. unfold path_lt. induction p as [|s p IH]; intros [|s' q] [|s'' r]; cbn [path_ltb]; try discriminate; try reflexivity.
  intros H1 H2. apply orb_true_iff in H1. apply orb_true_iff in H2. apply orb_true_iff.
  destruct H1 as [H1|H1], H2 as [H2|H2].
  - left. apply Nat.ltb_lt in H1. apply Nat.ltb_lt in H2. apply Nat.ltb_lt. lia.
  - left. apply andb_prop in H2. destruct H2 as [E _]. apply Nat.eqb_eq in E. rewrite <- E. exact H1.
  - left. apply andb_prop in H1. destruct H1 as [E _]. apply Nat.eqb_eq in E. rewrite E. exact H2.
  - right. apply andb_prop in H1. destruct H1 as [E1 L1]. apply andb_prop in H2. destruct H2 as [E2 L2].
    apply Nat.eqb_eq in E1. apply Nat.eqb_eq in E2. rewrite E1, E2, Nat.eqb_refl. cbn [andb]. eapply IH; eauto.
Qed.
Print Assumptions C13_path_lt_trans.

(* LOCALITY: what one property yields depends on that property's value only -- not on the other properties, not on any key,
   and (Python iterates a set of field names) the order of the properties only permutes the result *)
Theorem C13_locality :
  forall (c : cfg) (p1 : list (str * gvalue)) (k : str) (v : gvalue) (p2 : list (str * gvalue)),
    resource_docs c (p1 ++ (k, v) :: p2) = resource_docs c p1 ++ collect (cast c v) ++ resource_docs c p2.
Proof. intros c p1 k v p2. rewrite C13_order_properties. reflexivity. Qed.
Print Assumptions C13_locality.
Theorem C13_keys_irrelevant :
  forall (c : cfg) (p p' : list (str * gvalue)), map snd p = map snd p' -> resource_docs c p = resource_docs c p'.
Proof.
  intros c p p'. unfold resource_docs. intros H. rewrite <- (flat_map_map snd (fun x => collect (cast c x)) p).
  rewrite <- (flat_map_map snd (fun x => collect (cast c x)) p'). rewrite H. reflexivity.
Qed.
Print Assumptions C13_keys_irrelevant.
Theorem C13_property_order :
  forall (c : cfg) (p p' : list (str * gvalue)), Permutation p p' -> Permutation (resource_docs c p) (resource_docs c p').
Proof. intros c p p'. apply Permutation_flat_map. Qed.
Print Assumptions C13_property_order.

(* NESTING: a node the union recognises as a property model is a LEAF of the search -- it yields its own document (or
   nothing) whatever its members hold; an object the recogniser rejects is searched member by member *)
Theorem C13_recognised_is_leaf :
  forall (c : cfg) (d : list (str * gvalue)) (r : option recog) (r' : recog),
    choose c (GDict d r) = CProp r' -> collect (cast c (GDict d r)) = yields r'.
Proof. exact recognised_is_leaf. Qed.
Print Assumptions C13_recognised_is_leaf.
Theorem C13_recognised_json_is_leaf :
  forall (c : cfg) (s : str) (j : gvalue) (a : sann) (r' : recog),
    choose c j = CProp r' -> collect (cast c (GStr s (Some j) a)) = yields r'.
Proof. intros c s j a r' E. cbn [cast]. rewrite E. reflexivity. Qed.
Print Assumptions C13_recognised_json_is_leaf.
Theorem C13_recognised_members_irrelevant :
  forall (c : cfg) (d d' : list (str * gvalue)) (r : option recog),
    map fst d = map fst d' -> is_cnone (choose c (GDict d r)) = false -> fnb c (GDict d r) = false ->
    collect (cast c (GDict d r)) = collect (cast c (GDict d' r)).
Proof.
  intros c d d' r K NN NF. pose proof (choose_dict_keys_only c d d' r K) as E.
  pose proof (choose_spec c (GDict d r)) as S. pose proof (choose_dict_shape c d r) as Sh.
  destruct (choose c (GDict d r)) as [|r'| | |] eqn:E1; try contradiction; try discriminate; [congruence|].
  rewrite (recognised_is_leaf c d r r' E1). symmetry. apply recognised_is_leaf. congruence.
Qed.
Print Assumptions C13_recognised_members_irrelevant.
Theorem C13_lookalike_is_searched :
  forall (c : cfg) (d : list (str * gvalue)), fnb c (GDict d None) = false -> collect (cast c (GDict d None)) = resource_docs c d.
Proof.
  intros c d NF. apply C13_order_object. unfold choose. destruct d as [|kv d].
  - destruct (c_empty_plain c); reflexivity.
  - rewrite NF. reflexivity.
Qed.
Print Assumptions C13_lookalike_is_searched.

(* non-vacuity and witnesses *)
From Coq Require Import String.
Local Open Scope string_scope.
Example C13_ex_found :
  forallb (fun kv => hidden_free SPEC (snd kv)) props_found = true
  /\ resource_docs SPEC props_found =
     [(None, stmts "s1"); (None, stmts "s2"); (None, stmts_c "s3" "{""Bool"": {""aws:SecureTransport"": true}}");
      (None, stmts "s4"); (Some (s "n1"), stmts "s5")]
  /\ resource_conditions SPEC props_found = [VStr (s "{""Bool"": {""aws:SecureTransport"": true}}")].
Proof. vm_compute. repeat split; reflexivity. Qed.
(* known finding F16 (not repaired): the property's reading finds the document, the code does not *)
Example C13_json_nested_refuted :
  exists props, resource_embedded true ORIG props <> resource_docs ORIG props.
Proof. exists props_hidden. vm_compute. discriminate. Qed.
Example C13_json_nested_witnesses :
  resource_docs ORIG props_hidden = [] /\ resource_embedded true ORIG props_hidden = [(None, stmts "s9")]
  /\ resource_docs SPEC props_hidden_list = [] /\ resource_embedded true SPEC props_hidden_list = [(None, stmts "s7")]
  /\ forallb (fun kv => hidden_free SPEC (snd kv)) props_hidden = false.
Proof. vm_compute. repeat split; reflexivity. Qed.
Example C13_ex_role_dedicated :
  exists r, find_row (s "AWS::IAM::Role") = Some r
  /\ typed_docs SPEC r [(s "AssumeRolePolicyDocument", doc_node "trust"); (s "Policies", GList [policy_node "p" "s1"])]
     = [(Some (s "p"), stmts "s1")]
  /\ dedicated_docs r [(s "AssumeRolePolicyDocument", doc_node "trust"); (s "Policies", GList [policy_node "p" "s1"])]
     = [(None, stmts "trust")].
Proof. eexists. split; [vm_compute; reflexivity|]. split; vm_compute; reflexivity. Qed.

(* Typed/CollectFacts.v: non-vacuity *)
(* five documents at five distinct paths: $.A, $.B[0], $.B[1][0], $.C.D.E (JSON text), $.P[0]; 35 positions in all *)
Example C13_ex_count :
  map (fun kv => count_pd_positions false SPEC (snd kv)) props_found = [1; 2; 1; 1; 0; 0]%nat
  /\ List.length (resource_docs SPEC props_found) = 5%nat
  /\ List.length (positions false SPEC false (GDict props_found None)) = 35%nat
  /\ forallb (fun kv => hidden_free SPEC (snd kv)) props_found = true.
Proof. vm_compute. repeat split; reflexivity. Qed.
Example C13_ex_paths :
  map fst (embedded_p false SPEC (GDict props_found None)) =
  [[Mem 0 (s "A")]; [Mem 1 (s "B"); Idx 0]; [Mem 1 (s "B"); Idx 1; Idx 0]; [Mem 2 (s "C"); Mem 0 (s "D"); Mem 0 (s "E")];
   [Mem 3 (s "P"); Idx 0]]
  /\ map snd (embedded_p false SPEC (GDict props_found None)) = resource_docs SPEC props_found.
Proof. vm_compute. split; reflexivity. Qed.
Example C13_ex_document_order :
  path_lt [Mem 0 (s "A")] [Mem 1 (s "B"); Idx 0] /\ path_lt [Mem 1 (s "B"); Idx 0] [Mem 1 (s "B"); Idx 1; Idx 0]
  /\ path_lt [Mem 1 (s "B")] [Mem 1 (s "B"); Idx 0] /\ path_ltb [Mem 1 (s "B"); Idx 1; Idx 0] [Mem 1 (s "B"); Idx 0] = false.
Proof. vm_compute. repeat split; reflexivity. Qed.
(* F16 as a count: the property's reading counts one position, the code finds none *)
Example C13_ex_count_hidden :
  map (fun kv => count_pd_positions true SPEC (snd kv)) props_hidden = [1]%nat
  /\ map (fun kv => count_pd_positions false SPEC (snd kv)) props_hidden = [0]%nat
  /\ List.length (resource_docs SPEC props_hidden) = 0%nat.
Proof. vm_compute. repeat split; reflexivity. Qed.
(* hypotheses of the order / locality theorems *)
Example C13_ex_order_hyps :
  choose SPEC (GDict props_found None) = CNone
  /\ forallb container_text_coherent (map snd props_found) = true
  /\ accepted SPEC (GList [g_int_1; g_int_1]) = true /\ accepted SPEC (GList (map snd props_found)) = false
  /\ collect (cast SPEC (GList (map snd props_found))) = resource_docs SPEC props_found.
Proof. vm_compute. repeat split; reflexivity. Qed.
Example C13_ex_keys_perm :
  resource_docs SPEC [(s "X", doc_node "s1"); (s "Y", GList [doc_node "s2"])]
  = resource_docs SPEC [(s "Q", doc_node "s1"); (s "Q", GList [doc_node "s2"])]
  /\ Permutation [(s "X", doc_node "s1"); (s "Y", GList [doc_node "s2"])] [(s "Y", GList [doc_node "s2"]); (s "X", doc_node "s1")]
  /\ resource_docs SPEC [(s "Y", GList [doc_node "s2"]); (s "X", doc_node "s1")] = [(None, stmts "s2"); (None, stmts "s1")].
Proof. split; [vm_compute; reflexivity|]. split; [apply perm_swap|vm_compute; reflexivity]. Qed.

(* NESTING, as the code does it (pycfmodel gives the same result on each):
   a document under an extra key of a recognised document is NOT collected, the outer one is, once;
   a named wrapper yields its document once, under its name -- the PolicyDocument member is not reported a second time;
   a "document" whose statement carries a Condition value the schema rejects (here: an object, itself a document) is not a
   document for pydantic: it is searched like any object, the inner document is collected and the look-alike is not *)
Example C13_ex_nested :
  choose SPEC doc_with_extra = CProp {| r_kind := PkPolicyDocument; r_dump := s "doc outer"; r_name := None; r_doc := stmts "outer" |}
  /\ resource_docs SPEC [(s "A", doc_with_extra)] = [(None, stmts "outer")]
  /\ count_pd_positions false SPEC doc_with_extra = 1%nat
  /\ resource_docs SPEC [(s "A", policy_node "n" "s1")] = [(Some (s "n"), stmts "s1")]
  /\ count_pd_positions false SPEC (policy_node "n" "s1") = 1%nat
  /\ fnb SPEC doc_lookalike = false
  /\ resource_docs SPEC [(s "A", doc_lookalike)] = [(None, stmts "inner")]
  /\ map fst (embedded_p false SPEC doc_lookalike) = [[Mem 0 (s "Statement"); Idx 0; Mem 2 (s "Condition"); Mem 0 (s "StringEquals"); Mem 0 (s "aws:x")]].
Proof. vm_compute. repeat split; reflexivity. Qed.
