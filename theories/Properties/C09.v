(* C09 -- Action expansion obeys set laws over the catalogue, the same in every API.
   The theorems of the property, each proved from the lemmas of Actions/{Expand,ExpandThm,ExpandAlgebra,ExpandLattice,Catalogue,Fast}.v
   and Glob/GlobAlgebra.v.
   [cat] is ANY catalogue (list of strings), [ps]/[qs] ANY lists of patterns (any length, overlapping or not);
   [glob_ci p a] is the IAM wildcard match of C08, blind to ASCII letter case.
   The shipped catalogue is checked in Actions/CatalogueChecks.v (Catalogue_ok), regenerated from the source on every run. *)
From Coq Require Import List Bool NArith Sorting.Sorted Permutation.
From PV Require Import Base.Str Base.Value Glob.Glob Run.RState Glob.GlobAlgebra Actions.Expand Actions.ExpandThm Actions.ExpandAlgebra Actions.Catalogue Actions.Tree Actions.Fast.
From PV Require Import Actions.ExpandLattice.
Import ListNotations.

(* Action: exactly the catalogue actions matched by at least one pattern *)
Theorem C09_action_mem : forall cat ps a,
  In a (expand cat ps) <-> In a cat /\ exists p, In p ps /\ glob_ci p a = true.
Proof. exact action_mem. Qed.
Print Assumptions C09_action_mem.

(* NotAction: exactly the catalogue actions matched by none of the patterns *)
Theorem C09_notaction_mem : forall cat ps a,
  In a (expand_not cat ps) <-> In a cat /\ forall p, In p ps -> glob_ci p a = false.
Proof. exact notaction_mem. Qed.
Print Assumptions C09_notaction_mem.

(* both results are strictly increasing in Python's str order, hence duplicate-free *)
Theorem C09_sorted_nodup : forall cat ps,
  StronglySorted str_lt (expand cat ps) /\ NoDup (expand cat ps) /\
  StronglySorted str_lt (expand_not cat ps) /\ NoDup (expand_not cat ps).
Proof. exact sorted_nodup. Qed.
Print Assumptions C09_sorted_nodup.

(* Action and NotAction over the same patterns partition the catalogue *)
Theorem C09_partition : forall cat ps,
  (forall a, In a (expand cat ps) -> In a (expand_not cat ps) -> False) /\
  (forall a, In a cat <-> In a (expand cat ps) \/ In a (expand_not cat ps)) /\
  Permutation (expand cat ps ++ expand_not cat ps) (nodup_sort cat).
Proof. exact partition. Qed.
Print Assumptions C09_partition.

(* a list expands to the union of its parts / of its members -- as EQUAL lists, which is what the API returns *)
Theorem C09_union : forall cat ps qs,
  expand cat (ps ++ qs) = nodup_sort (expand cat ps ++ expand cat qs).
Proof. exact union_law. Qed.
Print Assumptions C09_union.

Theorem C09_union_members : forall cat ps,
  expand cat ps = nodup_sort (flat_map (fun p => expand cat [p]) ps).
Proof.
  intros cat ps.
  apply ssorted_ext; try apply nodup_sort_sorted. intros a.
  rewrite nodup_sort_In, in_flat_map, action_mem. setoid_rewrite action_mem_one. split.
  - intros [Hc (p & Hp & Hm)]. eauto.
  - intros (p & Hp & Hc & Hm). eauto.
Qed.
Print Assumptions C09_union_members.

(* NotAction of a list is the INTERSECTION of the members' complements (not their union) *)
Theorem C09_demorgan : forall cat ps qs,
  expand_not cat (ps ++ qs) = inter (expand_not cat ps) (expand_not cat qs).
Proof. exact demorgan_law. Qed.
Print Assumptions C09_demorgan.

Theorem C09_demorgan_members : forall cat ps a,
  In a (expand_not cat ps) <-> In a cat /\ forall p, In p ps -> In a (expand_not cat [p]).
Proof.
  intros cat ps a.
  rewrite notaction_mem. setoid_rewrite notaction_mem_one. split; intros [Hc H]; (split; [exact Hc|]); intros p Hp.
  - split; [exact Hc | exact (H p Hp)].
  - exact (proj2 (H p Hp)).
Qed.
Print Assumptions C09_demorgan_members.

(* the entry points agree: one pattern = the one-element list; a list = expand / expand_not *)
Theorem C09_apis_agree : forall cat p ps na,
  (expand_action cat p na = expand_actions cat (ManyActions [p]) na /\
   expand_actions cat (OneAction p) na = expand_actions cat (ManyActions [p]) na) /\
  (expand_actions cat (ManyActions ps) false = expand cat ps /\
   expand_actions cat (ManyActions ps) true = expand_not cat ps).
Proof. intros cat p ps na. exact (conj (api_single_vs_list cat p na) (api_list cat ps)). Qed.
Print Assumptions C09_apis_agree.

(* a statement's expanded action list: the union of expand(Action) and, when NotAction is present, expand_not(NotAction) *)
Theorem C09_apis_agree_statement : forall cat acts nots,
  stmt_expanded cat acts nots =
    nodup_sort (expand cat acts ++ match nots with Some ns => expand_not cat ns | None => [] end)
  /\ stmt_expanded cat acts None = expand cat acts
  /\ (forall ns, stmt_expanded cat [] (Some ns) = expand_not cat ns).
Proof.
  intros cat acts nots.
  exact (conj (api_statement cat acts nots) (conj (api_statement_action_only cat acts) (api_statement_notaction_only cat))).
Qed.
Print Assumptions C09_apis_agree_statement.

(* a policy document: allowed actions = union over the statements whose effect is Allow (any letter case);
   IAM actions = the "iam:" entries of the union over ALL statements *)
Theorem C09_apis_agree_document : forall cat ss,
  allowed_actions cat ss = nodup_sort (flat_map (stmt_list cat) (filter is_allow ss)) /\
  iam_actions cat ss = nodup_sort (filter (starts_with S_IAM) (flat_map (stmt_list cat) ss)) /\
  (forall a, In a (allowed_actions cat ss) <-> exists s, In s ss /\ is_allow s = true /\ In a (stmt_list cat s)) /\
  (forall a, In a (iam_actions cat ss) <-> (exists r, a = S_IAM ++ r) /\ exists s, In s ss /\ In a (stmt_list cat s)).
Proof.
  intros cat ss.
  exact (conj (api_allowed cat ss) (conj (api_iam cat ss) (conj (allowed_actions_In cat ss) (iam_actions_In cat ss)))).
Qed.
Print Assumptions C09_apis_agree_document.

Theorem C09_one_allow_statement : forall cat s,
  is_allow s = true -> allowed_actions cat [s] = stmt_list cat s.
Proof.
  intros cat s H.
  rewrite api_allowed. simpl. rewrite H. simpl. rewrite app_nil_r.
  apply nodup_sort_id. apply nodup_sort_sorted.
Qed.
Print Assumptions C09_one_allow_statement.

(* on a strictly sorted catalogue (the shipped one is: Catalogue_ok) expansion is the plain filter in catalogue order *)
Theorem C09_expand_is_filter : forall cat ps,
  StronglySorted str_lt cat ->
  expand cat ps = filter (any_match ps) cat /\
  expand_not cat ps = filter (fun a => negb (any_match ps a)) cat.
Proof. exact expand_is_filter. Qed.
Print Assumptions C09_expand_is_filter.

(* what the boolean catalogue check means *)
Theorem C09_catalogue_check_meaning : forall c,
  catalogue_ok c = true ->
  StronglySorted str_lt c /\ NoDup c /\ NoDup (map lower c) /\
  Forall (fun a =>
            (exists svc name, a = svc ++ COLON :: name /\ svc <> [] /\ name <> [] /\ ~ In COLON svc /\ ~ In COLON name)
            /\ ~ In STAR a /\ ~ In QM a /\ Forall (fun cp => (cp < 128)%N) a) c.
Proof. exact catalogue_ok_spec. Qed.
Print Assumptions C09_catalogue_check_meaning.

(* the functions the extracted runner executes (staged for speed, Actions/Fast.v) ARE the model functions above *)
Theorem C09_runner_functions : forall cat,
  (forall x na, expand_actions_fast cat x na = expand_actions cat x na) /\
  (forall p na, expand_action_fast cat p na = expand_action cat p na) /\
  (forall s, stmt_list_fast cat s = stmt_list cat s) /\
  (forall ss, allowed_actions_fast cat ss = allowed_actions cat ss) /\
  (forall ss, iam_actions_fast cat ss = iam_actions cat ss) /\
  (forall t, expand_model_pre cat t = Tree.expand_model cat t).
Proof.
  intros cat.
  exact (conj (expand_actions_fast_ok cat) (conj (expand_action_fast_ok cat) (conj (stmt_list_fast_ok cat)
        (conj (allowed_actions_fast_ok cat) (conj (iam_actions_fast_ok cat) (expand_model_pre_ok cat)))))).
Qed.
Print Assumptions C09_runner_functions.

(* non-vacuity and the known defect, on a small catalogue *)
From Coq Require Import String.
Definition s (x : string) : str := of_string x.
Definition CAT5 : list str :=
  [s "iam:PassRole"; s "s3:GetObject"; s "s3:GetObjectAcl"; s "s3:ListBucket"; s "s3:PutObject"]%string.

Example C09_ex_catalogue_ok : catalogue_ok CAT5 = true.
Proof. vm_compute. reflexivity. Qed.
Example C09_ex_catalogue_case_dup_rejected :
  catalogue_ok [s "s3:GetObject"; s "s3:getobject"]%string = false /\ catalogue_ok [s "s3:Get*"]%string = false
  /\ catalogue_ok [s "s3:B"; s "s3:A"]%string = false /\ catalogue_ok [s "s3GetObject"]%string = false.
Proof. vm_compute. repeat split; reflexivity. Qed.

Example C09_ex_overlap :
  expand CAT5 [s "s3:Get*"; s "S3:GETOBJECT*"; s "iam:*"]%string = [s "iam:PassRole"; s "s3:GetObject"; s "s3:GetObjectAcl"]%string
  /\ expand_not CAT5 [s "s3:Get*"; s "s3:Put*"]%string = [s "iam:PassRole"; s "s3:ListBucket"]%string.
Proof. split; vm_compute; reflexivity. Qed.

Example C09_ex_document :
  let ss := [ {| s_effect := s "ALLOW"; s_actions := [s "s3:Get*"]%string; s_notactions := None |};
              {| s_effect := s "Deny"; s_actions := []; s_notactions := Some [s "s3:*"]%string |} ] in
  allowed_actions CAT5 ss = [s "s3:GetObject"; s "s3:GetObjectAcl"]%string /\ iam_actions CAT5 ss = [s "iam:PassRole"]%string.
Proof. split; vm_compute; reflexivity. Qed.

(* the statement-level defect (union of the per-pattern complements) is a DIFFERENT list: here it is the whole catalogue *)
Example C09_union_of_complements_refuted :
  stmt_expanded_defect CAT5 [] (Some [s "s3:Get*"; s "s3:Put*"]%string) = CAT5 /\
  stmt_expanded CAT5 [] (Some [s "s3:Get*"; s "s3:Put*"]%string) = [s "iam:PassRole"; s "s3:ListBucket"]%string /\
  stmt_expanded_defect CAT5 [] (Some [s "s3:Get*"; s "s3:Put*"]%string)
    <> stmt_expanded CAT5 [] (Some [s "s3:Get*"; s "s3:Put*"]%string).
Proof. split; [vm_compute; reflexivity|]. split; [vm_compute; reflexivity | vm_compute; discriminate]. Qed.

(* COROLLARIES OF THE PATTERN ALGEBRA (C08; Glob/GlobAlgebra.v, Actions/ExpandAlgebra.v).
   [ci_equiv p q]: p and q match the same names (as action patterns, blind to ASCII case).  ANY catalogue. *)

Theorem C09_ci_equiv_meaning : forall p q, ci_equiv p q <-> forall a, glob_ci p a = glob_ci q a.
Proof. intros p q. exact (iff_refl _). Qed.
Print Assumptions C09_ci_equiv_meaning.

(* expansion -- Action and NotAction -- is invariant under replacing the members of a list by equivalent patterns ... *)
Theorem C09_equivalent_patterns_same_expansion : forall cat ps qs,
  Forall2 ci_equiv ps qs ->
  expand cat ps = expand cat qs /\ expand_not cat ps = expand_not cat qs.
Proof. exact expand_equiv. Qed.
Print Assumptions C09_equivalent_patterns_same_expansion.

(* ... and depends only on the SET of patterns up to equivalence (order, repetition and spelling are irrelevant) *)
Theorem C09_equivalent_pattern_sets_same_expansion : forall cat ps qs,
  (forall p, In p ps -> exists q, In q qs /\ ci_equiv p q) ->
  (forall q, In q qs -> exists p, In p ps /\ ci_equiv q p) ->
  expand cat ps = expand cat qs /\ expand_not cat ps = expand_not cat qs.
Proof. exact expand_equiv_sets. Qed.
Print Assumptions C09_equivalent_pattern_sets_same_expansion.

(* the same in the entry points: one pattern, a string-or-list argument, a statement *)
Theorem C09_equivalent_patterns_same_expansion_apis : forall cat,
  (forall p q na, ci_equiv p q -> expand_action cat p na = expand_action cat q na) /\
  (forall x y na, arg_equiv x y -> expand_actions cat x na = expand_actions cat y na) /\
  (forall acts acts' nots nots',
     Forall2 ci_equiv acts acts' ->
     match nots, nots' with
     | Some ns, Some ns' => Forall2 ci_equiv ns ns'
     | None, None => True
     | _, _ => False
     end ->
     stmt_expanded cat acts nots = stmt_expanded cat acts' nots').
Proof.
  intros cat. exact (conj (expand_action_equiv cat) (conj (expand_actions_equiv cat) (stmt_expanded_equiv cat))).
Qed.
Print Assumptions C09_equivalent_patterns_same_expansion_apis.

(* the equivalences of the algebra, for action patterns (p, q arbitrary: wildcards, any case) *)
Theorem C09_pattern_equivalences : forall p q,
  (forall n, ci_equiv (p ++ repeat STAR (S n) ++ q) (p ++ [STAR] ++ q)) /\
  ci_equiv (p ++ [STAR; STAR] ++ q) (p ++ [STAR] ++ q) /\
  ci_equiv (p ++ [STAR; QM] ++ q) (p ++ [QM; STAR] ++ q) /\
  ci_equiv (norm_pat p) p /\
  ci_equiv (lower p) p.
Proof.
  intros p q.
  exact (conj (ci_equiv_star_run p q) (conj (ci_equiv_star_star p q) (conj (ci_equiv_star_qm p q)
        (conj (ci_equiv_norm p) (ci_equiv_case p))))).
Qed.
Print Assumptions C09_pattern_equivalences.

(* hence: "p**q" expands as "p*q" (a run of stars of any length too), "p*?q" as "p?*q" *)
Theorem C09_star_star_expansion : forall cat p q na,
  expand_action cat (p ++ [STAR; STAR] ++ q) na = expand_action cat (p ++ [STAR] ++ q) na.
Proof. intros cat p q na. apply expand_action_equiv. apply ci_equiv_star_star. Qed.
Print Assumptions C09_star_star_expansion.
Theorem C09_star_run_expansion : forall cat p q n na,
  expand_action cat (p ++ repeat STAR (S n) ++ q) na = expand_action cat (p ++ [STAR] ++ q) na.
Proof. intros cat p q n na. apply expand_action_equiv. apply ci_equiv_star_run. Qed.
Print Assumptions C09_star_run_expansion.
Theorem C09_star_question_expansion : forall cat p q na,
  expand_action cat (p ++ [STAR; QM] ++ q) na = expand_action cat (p ++ [QM; STAR] ++ q) na.
Proof. intros cat p q na. apply expand_action_equiv. apply ci_equiv_star_qm. Qed.
Print Assumptions C09_star_question_expansion.

(* a pattern expands as its normal form; a list as the list of normal forms (and as the list of lower-cased patterns) *)
Theorem C09_normal_form_expansion : forall cat,
  (forall p na, expand_action cat (norm_pat p) na = expand_action cat p na) /\
  (forall ps, expand cat (map norm_pat ps) = expand cat ps /\ expand_not cat (map norm_pat ps) = expand_not cat ps) /\
  (forall ps, expand cat (map lower ps) = expand cat ps /\ expand_not cat (map lower ps) = expand_not cat ps).
Proof. intros cat. exact (conj (expand_norm cat) (conj (expand_norm_list cat) (expand_lower_list cat))). Qed.
Print Assumptions C09_normal_form_expansion.

(* BUT "p*?q" does NOT expand as "p*q": a catalogue entry that is p and q with their stars deleted, side by side (nothing in
   the place of the wildcards), is in the expansion of "p*q" and not in that of "p*?q" -- and the reverse under NotAction *)
Theorem C09_star_question_is_not_star_expansion : forall cat p q,
  let a := witness N N.eqb STAR p ++ witness N N.eqb STAR q in
  In a cat ->
  (In a (expand cat [p ++ [STAR] ++ q]) /\ ~ In a (expand cat [p ++ [STAR; QM] ++ q])) /\
  (~ In a (expand_not cat [p ++ [STAR] ++ q]) /\ In a (expand_not cat [p ++ [STAR; QM] ++ q])).
Proof.
  intros cat p q a Hin.
  destruct (ci_star_qm_is_not_star N N.eqb N.eqb_eq STAR QM lower_cp lower_cp_star lower_cp_qm p q STAR_neq_QM) as [Ht Hf].
  fold a in Ht, Hf. change (glob_ci (p ++ [STAR] ++ q) a = true) in Ht. change (glob_ci (p ++ [STAR; QM] ++ q) a = false) in Hf.
  rewrite !action_mem_one, !notaction_mem_one, Ht, Hf. intuition discriminate.
Qed.
Print Assumptions C09_star_question_is_not_star_expansion.

(* non-vacuity on a small catalogue *)
Definition CAT6 : list str :=
  [s "iam:PassRole"; s "s3:Get"; s "s3:GetObject"; s "s3:GetObjectAcl"; s "s3:ListBucket"; s "s3:PutObject"]%string.

Example C09_ex_equivalent_spellings :
  norm_pat (s "s3:Get*?*?*"%string) = s "s3:Get??*"%string /\
  expand CAT6 [s "s3:Get*?*?*"]%string = [s "s3:GetObject"; s "s3:GetObjectAcl"]%string /\
  expand CAT6 [s "S3:GET??*"]%string = [s "s3:GetObject"; s "s3:GetObjectAcl"]%string /\
  expand CAT6 [s "s3:Get**"]%string = expand CAT6 [s "s3:Get*"]%string /\
  expand CAT6 [s "s3:Get**"]%string = [s "s3:Get"; s "s3:GetObject"; s "s3:GetObjectAcl"]%string /\
  expand_not CAT6 [s "s3:*?Object***"; s "iam:??*"]%string = expand_not CAT6 [s "iam:*"; s "S3:?*OBJECT*"; s "iam:*"]%string /\
  expand_not CAT6 [s "s3:*?Object***"; s "iam:??*"]%string = [s "s3:Get"; s "s3:ListBucket"]%string.
Proof. do 6 (split; [vm_compute; reflexivity|]). vm_compute; reflexivity. Qed.

(* hypotheses satisfiable: an entry that is the pattern with its stars deleted ("s3:Get" for "s3:Get*" / "s3:Get*?") *)
Example C09_ex_star_question_is_not_star :
  witness N N.eqb STAR (s "s3:Get"%string) ++ witness N N.eqb STAR [] = s "s3:Get"%string /\ In (s "s3:Get"%string) CAT6 /\
  expand CAT6 [s "s3:Get*"]%string = [s "s3:Get"; s "s3:GetObject"; s "s3:GetObjectAcl"]%string /\
  expand CAT6 [s "s3:Get*?"]%string = [s "s3:GetObject"; s "s3:GetObjectAcl"]%string /\
  expand CAT6 [s "s3:Get*?"]%string <> expand CAT6 [s "s3:Get*"]%string.
Proof.
  split; [vm_compute; reflexivity|]. split; [right; left; reflexivity|].
  split; [vm_compute; reflexivity|]. split; [vm_compute; reflexivity|]. vm_compute. discriminate.
Qed.
Example C09_ex_equiv_hypotheses :
  Forall2 ci_equiv [s "s3:Get**"; s "iam:*?"]%string [s "s3:Get*"; s "iam:?*"]%string /\
  arg_equiv (OneAction (s "s3:Get**"%string)) (OneAction (s "s3:Get*"%string)).
Proof.
  assert (H1 : ci_equiv (s "s3:Get**"%string) (s "s3:Get*"%string)) by exact (ci_equiv_star_star (s "s3:Get"%string) []).
  assert (H2 : ci_equiv (s "iam:*?"%string) (s "iam:?*"%string)) by exact (ci_equiv_star_qm (s "iam:"%string) []).
  split; [repeat constructor; assumption | constructor; exact H1].
Qed.

(* order laws over the pattern list (Actions/ExpandLattice.v): every catalogue, lists of any length *)

(* the order of the patterns, and repeating some, never changes either result list *)
Theorem C09_pattern_order_irrelevant : forall cat ps qs, Permutation ps qs ->
  expand cat ps = expand cat qs /\ expand_not cat ps = expand_not cat qs.
Proof. exact expand_perm. Qed.
Print Assumptions C09_pattern_order_irrelevant.

Theorem C09_same_pattern_set_same_expansion : forall cat ps qs, incl ps qs -> incl qs ps ->
  expand cat ps = expand cat qs /\ expand_not cat ps = expand_not cat qs.
Proof. exact expand_same_set. Qed.
Print Assumptions C09_same_pattern_set_same_expansion.

Theorem C09_repeated_list : forall cat ps,
  expand cat (ps ++ ps) = expand cat ps /\ expand_not cat (ps ++ ps) = expand_not cat ps.
Proof. intros cat ps. apply expand_same_set; [apply incl_app; apply incl_refl | apply incl_appl, incl_refl]. Qed.
Print Assumptions C09_repeated_list.

(* adding patterns can only add to Action and only remove from NotAction *)
Theorem C09_monotone : forall cat ps qs, incl ps qs ->
  incl (expand cat ps) (expand cat qs) /\ incl (expand_not cat qs) (expand_not cat ps).
Proof. exact expand_mono_patterns. Qed.
Print Assumptions C09_monotone.

(* a pattern all of whose matches are matched by the rest of the list adds nothing *)
Theorem C09_absorbed_pattern : forall cat ps p,
  (forall a, glob_ci p a = true -> exists q, In q ps /\ glob_ci q a = true) ->
  expand cat (p :: ps) = expand cat ps /\ expand_not cat (p :: ps) = expand_not cat ps.
Proof.
  intros cat ps p H.
  apply expand_of_any_match. intros a. unfold any_match, any_match_g. cbn [existsb].
  destruct (glob_ci p a) eqn:E; [| reflexivity]. symmetry. apply any_match_true, H, E.
Qed.
Print Assumptions C09_absorbed_pattern.

(* the empty Action list allows nothing; the empty NotAction list allows the whole catalogue *)
Theorem C09_empty_lists : forall cat, expand cat [] = [] /\ expand_not cat [] = nodup_sort cat.
Proof.
  intros cat.
  split; (apply ssorted_ext; [apply nodup_sort_sorted | try apply nodup_sort_sorted; constructor |]); intros a.
  - rewrite action_mem. split; [intros (_ & p & [] & _) | intros []].
  - rewrite notaction_mem, nodup_sort_In. split; [tauto | intros Hc; split; [exact Hc | intros p []]].
Qed.
Print Assumptions C09_empty_lists.

Theorem C09_disjoint_under_extension : forall cat ps qs a, incl ps qs ->
  In a (expand cat ps) -> In a (expand_not cat qs) -> False.
Proof.
  intros cat ps qs a H Ha Hn.
  destruct (partition cat qs) as (Hd & _). apply (Hd a); [| exact Hn].
  destruct (expand_mono_patterns cat ps qs H) as (Hi & _). apply Hi. exact Ha.
Qed.
Print Assumptions C09_disjoint_under_extension.

(* "*" anywhere in the list: Action is the whole catalogue (sorted, duplicate-free), NotAction is empty *)
Theorem C09_star_is_everything : forall cat ps, In [STAR] ps ->
  expand cat ps = nodup_sort cat /\ expand_not cat ps = [].
Proof.
  intros cat ps Hin.
  split; (apply ssorted_ext; [apply nodup_sort_sorted | try apply nodup_sort_sorted; constructor |]); intros a.
  - rewrite action_mem, nodup_sort_In. split; [tauto | intros Hc; split; [exact Hc|]]. exists [STAR]. split; [exact Hin | apply glob_ci_star].
  - rewrite notaction_mem. split; [intros [_ H] | intros []]. specialize (H _ Hin). rewrite glob_ci_star in H. discriminate.
Qed.
Print Assumptions C09_star_is_everything.

(* one statement's expanded action list depends only on the SETS of its Action and NotAction patterns, not on their order *)
Theorem C09_statement_pattern_order_irrelevant : forall cat acts acts' ns ns', Permutation acts acts' -> Permutation ns ns' ->
  stmt_expanded cat acts (Some ns) = stmt_expanded cat acts' (Some ns') /\
  stmt_expanded cat acts None = stmt_expanded cat acts' None.
Proof.
  intros cat acts acts' ns ns' Ha Hn.
  apply ListFacts.perm_incl in Ha. apply ListFacts.perm_incl in Hn. destruct Ha as [A1 A2].
  split; apply stmt_expanded_same_sets; try assumption. exact I.
Qed.
Print Assumptions C09_statement_pattern_order_irrelevant.

Theorem C09_statement_same_pattern_sets : forall cat acts acts' nots nots',
  incl acts acts' -> incl acts' acts ->
  match nots, nots' with
  | Some ns, Some ns' => incl ns ns' /\ incl ns' ns
  | None, None => True
  | _, _ => False
  end ->
  stmt_expanded cat acts nots = stmt_expanded cat acts' nots'.
Proof. exact stmt_expanded_same_sets. Qed.
Print Assumptions C09_statement_same_pattern_sets.

(* a policy document's allowed-action and IAM-action queries depend only on the SET of statements: statement order and
   repeated statements are irrelevant, adding a statement can only add actions, a non-Allow statement allows nothing *)
Theorem C09_document_statement_order_irrelevant : forall cat ss ss', Permutation ss ss' ->
  allowed_actions cat ss = allowed_actions cat ss' /\ iam_actions cat ss = iam_actions cat ss'.
Proof. intros cat ss ss' H. destruct (ListFacts.perm_incl _ _ H). apply doc_same_statements; assumption. Qed.
Print Assumptions C09_document_statement_order_irrelevant.

Theorem C09_document_same_statements : forall cat ss ss', incl ss ss' -> incl ss' ss ->
  allowed_actions cat ss = allowed_actions cat ss' /\ iam_actions cat ss = iam_actions cat ss'.
Proof. exact doc_same_statements. Qed.
Print Assumptions C09_document_same_statements.

Theorem C09_document_monotone : forall cat ss ss', incl ss ss' ->
  incl (allowed_actions cat ss) (allowed_actions cat ss') /\ incl (iam_actions cat ss) (iam_actions cat ss').
Proof. exact doc_mono. Qed.
Print Assumptions C09_document_monotone.

Theorem C09_document_non_allow_ignored : forall cat ss s, is_allow s = false ->
  allowed_actions cat (s :: ss) = allowed_actions cat ss.
Proof. intros cat ss s Hd. rewrite !api_allowed. cbn [filter]. rewrite Hd. reflexivity. Qed.
Print Assumptions C09_document_non_allow_ignored.
