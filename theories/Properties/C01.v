(* C01 -- Intrinsic value functions resolve to their CloudFormation-defined value.
   The theorems of the property, each proved from the lemmas of Resolver/Spec.v (the big-step relation), Text.v, SubSpec.v and
   SubFacts.v (Fn::Sub, Ref, Fn::FindInMap, Fn::Select), FixFacts.v and Rendered.v (rendering), Robust/Validators.v (b64decode) and
   Resolver/FnAlgebra.v.
   Two parts.  Up to the examples on [e0]: [resolve] is the relation [Eval], and what the helper of each function ([sub_tokens],
   [do_sub], [render_tok], [do_find_in_map], [do_select]) computes on arguments that are already resolved.  From "ALGEBRAIC LAWS"
   on: laws of the function OBJECTS (FJoin, FSub, ... of FnAlgebra.v) under [resolve].  Several statements of the second part are
   statements of the first again, written with [ph] / through [resolve]: C01_sub_value_verbatim is C01_sub_placeholder_end_to_end,
   C01_sub_bang_literal and C01_sub_no_rescan are their instances with empty context, C01_findinmap_leaf lifts C01_find_in_map,
   C01_select_int lifts C01_select, C01_sub_unbound_as_written lifts C01_sub_unbound.
   Findings F14b, F20, F31 cited below are rows of the table in DESIGN.md 7.3. *)
From Coq Require Import List Bool NArith ZArith Lia.
From PV Require Import Base.Str Base.Value Resolver.Consts Resolver.Text Resolver.Resolve Resolver.Spec Resolver.SubFacts Resolver.SubSpec
  Resolver.Template Resolver.ParamFacts Resolver.FixFacts Resolver.Rendered Robust.Validators Resolver.FnAlgebra.
Import ListNotations.
Local Open Scope N_scope.

(* The executable model computes EXACTLY the declarative big-step relation [Eval] (one rule per construct, any
   nesting depth, anywhere in lists and objects): sound, complete, hence deterministic. *)
Theorem C01_eval_iff : forall e v r, resolve e v = Ok r <-> Eval e v r.
Proof. exact resolve_iff_eval. Qed.
Print Assumptions C01_eval_iff.

Theorem C01_deterministic : forall e v a b, Eval e v a -> Eval e v b -> a = b.
Proof. intros e v a b Ha Hb. apply resolve_iff_eval in Ha, Hb. congruence. Qed.
Print Assumptions C01_deterministic.

(* Fn::Sub: the text is cut into literal characters and placeholders without losing, duplicating or reordering anything ... *)
Theorem C01_sub_tokens_partition : forall text, concat (map tok_src (sub_tokens text)) = text.
Proof. exact sub_tokens_partition. Qed.
Print Assumptions C01_sub_tokens_partition.

(* ... and the cut is THE one Python's  re.sub  makes with the pattern  \$\{(!?)([\w:]+)\}  (a partition alone could
   also be the tokeniser that finds nothing).  [Scan] (Resolver/SubSpec.v) is the declarative left-to-right,
   non-overlapping scan:
     Match ("${"  n "}" rest) (TVar n)  rest      Match ("${!" n "}" rest) (TBang n) rest      (n : one or more of [\w:])
     Scan [] []
     Match s t rest -> Scan rest ts -> Scan s (t :: ts)                            (a match: go on AFTER it)
     ~ starts_placeholder (c :: r) -> Scan r ts -> Scan (c :: r) (TText c :: ts)   (no match here: literal character)
   and [sub_tokens text] is the one and only scan of [text].   $ = 36  { = 123  } = 125  ! = 33 *)
Theorem C01_sub_tokeniser_is_the_regex : forall text ts, Scan text ts <-> ts = sub_tokens text.
Proof. exact Scan_iff. Qed.
Print Assumptions C01_sub_tokeniser_is_the_regex.

(* the executable placeholder test is the regex match, and "the regex matches here" spelled out *)
Theorem C01_sub_match_is_the_regex : forall s t rest, placeholder_at s = Some (t, rest) <-> Match s t rest.
Proof. intros s t rest. split; [apply placeholder_at_Match | apply Match_placeholder_at]. Qed.
Print Assumptions C01_sub_match_is_the_regex.
Theorem C01_sub_starts_placeholder : forall s,
  starts_placeholder s <->
  exists n rest, valid_name n /\ (s = 36 :: 123 :: n ++ 125 :: rest \/ s = 36 :: 123 :: 33 :: n ++ 125 :: rest).
Proof. exact starts_placeholder_iff. Qed.
Print Assumptions C01_sub_starts_placeholder.

(* every well-formed placeholder is found, wherever it stands:  pre "${" n "}" post   and   pre "${!" n "}" post.
   No condition on [pre] or [post]: "$" can only be the first character of a match, so nothing that began
   in [pre] can swallow it. *)
Theorem C01_sub_finds_placeholder : forall pre n post, valid_name n ->
  sub_tokens (pre ++ 36 :: 123 :: n ++ 125 :: post) = sub_tokens pre ++ TVar n :: sub_tokens post.
Proof. exact (fun pre n post Hv => sub_finds_match pre _ _ post (M_var n post Hv)). Qed.
Print Assumptions C01_sub_finds_placeholder.
Theorem C01_sub_finds_bang : forall pre n post, valid_name n ->
  sub_tokens (pre ++ 36 :: 123 :: 33 :: n ++ 125 :: post) = sub_tokens pre ++ TBang n :: sub_tokens post.
Proof. exact (fun pre n post Hv => sub_finds_match pre _ _ post (M_bang n post Hv)). Qed.
Print Assumptions C01_sub_finds_bang.

(* cutting anywhere else: fine as soon as [pre] leaves no placeholder open
   ([closed]: no suffix of [pre] is "$", "${" + name characters or "${!" + name characters) *)
Theorem C01_sub_tokens_app : forall pre x, closed pre -> sub_tokens (pre ++ x) = sub_tokens pre ++ sub_tokens x.
Proof. intros pre x H. apply sub_tokens_app. apply no_straddle_closed. exact H. Qed.
Print Assumptions C01_sub_tokens_app.

(* Take any token [t] of the tokenisation, [before] = the source text of the tokens before it, [here] = the text
   from [t] on.  A placeholder token carries a genuine name (its source "${" n "}" / "${!" n "}" is a regex match:
   nothing is invented); a literal-character token stands where the regex does NOT match (nothing is missed). *)
Theorem C01_sub_misses_nothing : forall text ts1 t ts2, sub_tokens text = ts1 ++ t :: ts2 ->
  let before := concat (map tok_src ts1) in
  let here := tok_src t ++ concat (map tok_src ts2) in
  text = before ++ here /\
  match t with
  | TVar n => valid_name n
  | TBang n => valid_name n
  | TText c => ~ starts_placeholder here
  end.
Proof. exact sub_misses_nothing. Qed.
Print Assumptions C01_sub_misses_nothing.

(* "everything is literal text" is the answer exactly when the regex matches at no position of the text ... *)
Theorem C01_sub_all_text_iff : forall text,
  sub_tokens text = map TText text <-> (forall a u, text = a ++ u -> ~ starts_placeholder u).
Proof. exact sub_all_text_iff. Qed.
Print Assumptions C01_sub_all_text_iff.

(* ... so the tokeniser that finds nothing, although a partition of every text, is refuted by "${A}" *)
Theorem C01_sub_all_text_refuted :
  (forall text, concat (map tok_src (map TText text)) = text)
  /\ ~ Scan [36;123;65;125] (map TText [36;123;65;125])
  /\ Scan [36;123;65;125] [TVar [65]].
Proof.
  split; [exact concat_src_text|]. split.
  - intros H. apply Scan_iff in H. vm_compute in H. discriminate H.
  - apply Scan_iff. vm_compute. reflexivity.
Qed.
Print Assumptions C01_sub_all_text_refuted.

(* end to end.  pre "${" n "}" post  -->  (pre substituted) (value of n, once) (post substituted);
                pre "${!" n "}" post -->  (pre substituted) "${" n "}" (post substituted);  no "$": unchanged *)
Theorem C01_sub_placeholder_end_to_end : forall e custom pre n post a b c, valid_name n ->
  do_sub e pre custom = Ok (VStr a) -> render_var e custom n = Ok b -> do_sub e post custom = Ok (VStr c) ->
  do_sub e (pre ++ 36 :: 123 :: n ++ 125 :: post) custom = Ok (VStr (a ++ b ++ c)).
Proof. exact (fun e custom pre n post a b c Hv => do_sub_match e custom pre _ _ post a b c (M_var n post Hv)). Qed.
Print Assumptions C01_sub_placeholder_end_to_end.
Theorem C01_sub_bang_end_to_end : forall e custom pre n post a c, valid_name n ->
  do_sub e pre custom = Ok (VStr a) -> do_sub e post custom = Ok (VStr c) ->
  do_sub e (pre ++ 36 :: 123 :: 33 :: n ++ 125 :: post) custom = Ok (VStr (a ++ (36 :: 123 :: n ++ [125]) ++ c)).
Proof. exact (fun e custom pre n post a c Hv Ha => do_sub_match e custom pre _ _ post a _ c (M_bang n post Hv) Ha eq_refl). Qed.
Print Assumptions C01_sub_bang_end_to_end.
Theorem C01_sub_no_dollar : forall e text custom, ~ In 36 text -> do_sub e text custom = Ok (VStr text).
Proof. intros e text custom H. apply do_sub_all_text, sub_no_dollar, H. Qed.
Print Assumptions C01_sub_no_dollar.

(* ... and the result is the concatenation of each token rendered exactly once, left to right *)
Theorem C01_sub_once : forall e text custom r,
  do_sub e text custom = Ok (VStr r) <->
  exists pieces, Forall2 (fun t p => render_tok e custom t = Ok p) (sub_tokens text) pieces /\ r = concat pieces.
Proof. intros e text custom r. rewrite do_sub_render. apply render_toks_spec. Qed.
Print Assumptions C01_sub_once.

(* inserted text is never scanned again *)
Theorem C01_sub_no_rescan : forall e custom n s, valid_name n -> hd 0 n <> 33 ->
  render_var e custom n = Ok s -> do_sub e (36 :: 123 :: n ++ [125]) custom = Ok (VStr s).
Proof. exact (fun e custom n s Hv _ => sub_no_rescan e custom n s Hv). Qed.
Print Assumptions C01_sub_no_rescan.

(* ${!literal} is kept as the literal ${literal} *)
Theorem C01_sub_bang : forall e custom n, render_tok e custom (TBang n) = Ok (36 :: 123 :: n ++ [125]).
Proof. intros e custom n. reflexivity. Qed.
Print Assumptions C01_sub_bang.

(* variables are bound first from the expression's own map, then from the parameters; unbound ones stay as written *)
Theorem C01_sub_local_first : forall e custom n x, lookup n custom = Some x ->
  render_tok e custom (TVar n) = (x' <- normalize (params e) x ;; match x' with VStr s => Ok s | _ => Err EUndefined end).
Proof. intros e custom n x H. simpl. unfold render_var. rewrite H. reflexivity. Qed.
Print Assumptions C01_sub_local_first.
Theorem C01_sub_param : forall e custom n x, lookup n custom = None -> lookup n (params e) = Some x ->
  render_tok e custom (TVar n) = (x' <- normalize (params e) x ;; match x' with VStr s => Ok s | _ => Err EUndefined end).
Proof. intros e custom n x H1 H2. simpl. unfold render_var. rewrite H1, H2. reflexivity. Qed.
Print Assumptions C01_sub_param.
Theorem C01_sub_unbound : forall e custom n, lookup n custom = None -> lookup n (params e) = None ->
  render_tok e custom (TVar n) = Ok (36 :: 123 :: n ++ [125]).
Proof. intros e custom n H1 H2. simpl. unfold render_var. rewrite H1, H2. reflexivity. Qed.
Print Assumptions C01_sub_unbound.

(* undefined references yield the stable placeholder text instead of an error *)
Theorem C01_ref_undefined : forall e body s,
  resolve e body = Ok (VStr s) -> lookup s (params e) = None ->
  resolve e (VDict [(K_Ref, body)]) = Ok (VStr (undefined_param s))
  /\ resolve e (VDict [(K_ImportValue, body)]) = Ok (VStr (undefined_param s)).
Proof. intros e body s H1 H2. rewrite resolve_ref, resolve_import, H1. simpl. rewrite H2. split; reflexivity. Qed.
Print Assumptions C01_ref_undefined.

Theorem C01_ref_defined : forall e body s x,
  resolve e body = Ok (VStr s) -> lookup s (params e) = Some x ->
  resolve e (VDict [(K_Ref, body)]) = normalize (params e) x.
Proof. intros e body s x H1 H2. rewrite resolve_ref, H1. simpl. rewrite H2. reflexivity. Qed.
Print Assumptions C01_ref_defined.

(* [mapping_leaf] (Resolver/SubFacts.v): the map name exactly, the two keys by [lookup_bk] (repair of F31: exactly, else -- for the
   texts "true" / "false" -- by the first entry whose key lower-cases to it), a null leaf counting as missing *)
Theorem C01_mapping_leaf_unfold : forall e m k1 k2,
  mapping_leaf e m k1 k2 =
  match lookup m (mappings e) with
  | Some (VDict top) => match lookup_bk k1 top with
                        | Some (VDict snd_) => match lookup_bk k2 snd_ with Some VNull => None | x => x end
                        | _ => None
                        end
  | _ => None
  end.
Proof. reflexivity. Qed.
Theorem C01_find_in_map : forall e m k1 k2, mappings_wf e ->
  do_find_in_map e (VStr m) (VStr k1) (VStr k2) =
  Ok (match mapping_leaf e m k1 k2 with Some leaf => leaf | None => VStr (undefined_mapping m k1 k2) end).
Proof. exact find_in_map_spec. Qed.
Print Assumptions C01_find_in_map.

(* an out-of-range Fn::Select (negative indices included) yields an empty list *)
Theorem C01_select : forall s ls z, parse_int s = Some z ->
  do_select (VStr s) (VList ls) =
  Ok (if (0 <=? z)%Z && (z <? Z.of_nat (length ls))%Z then nth (Z.to_nat z) ls (VList []) else VList []).
Proof. exact select_spec. Qed.
Print Assumptions C01_select.

(* the statements above on a small environment *)
Definition e0 : env := {| params := [([65], VStr [49]); ([66], VStr [36;123;65;125])]; mappings := []; conds := fun _ => Ok false |}.
(* "x${A}y${!A}z" with A = "1"  -->  "x1y${A}z" *)
Example C01_ex_bang : resolve e0 (VDict [(K_Sub, VStr [120;36;123;65;125;121;36;123;33;65;125;122])])
  = Ok (VStr [120;49;121;36;123;65;125;122]).
Proof. vm_compute. reflexivity. Qed.
(* "${B}-${A}" with B = "${A}"  -->  "${A}-1": the inserted "${A}" is not substituted again *)
Example C01_ex_no_rescan : resolve e0 (VDict [(K_Sub, VStr [36;123;66;125;45;36;123;65;125])])
  = Ok (VStr [36;123;65;125;45;49]).
Proof. vm_compute. reflexivity. Qed.
(* [Sub ["${V}", {V: "l"}], Ref V]  -->  ["l", "UNDEFINED_PARAM_V"]: the local variable is invisible outside *)
Example C01_ex_scope :
  resolve e0 (VList [VDict [(K_Sub, VList [VStr [36;123;86;125]; VDict [([86], VStr [108])]])]; VDict [(K_Ref, VStr [86])]])
  = Ok (VList [VStr [108]; VStr (undefined_param [86])]).
Proof. vm_compute. reflexivity. Qed.
Example C01_ex_select_negative : resolve e0 (VDict [(K_Select, VList [VInt (-1); VList [VStr [97]; VStr [98]]])]) = Ok (VList []).
Proof. vm_compute. reflexivity. Qed.
Example C01_ex_nested : resolve e0 (VDict [(K_Join, VList [VStr [45]; VList [VDict [(K_Ref, VStr [65])]; VDict [(K_Base64, VStr [97])]; VBool true]])])
  = Ok (VStr [49;45;89;81;61;61;45;116;114;117;101]).
Proof. vm_compute. reflexivity. Qed.
(* the tokeniser on the same text: x ${A} y ${!A} z;  "${A.B}", "${ A }", "$A", "${}" and "${!}" are literal text *)
Example C01_ex_tokens : sub_tokens [120;36;123;65;125;121;36;123;33;65;125;122]
  = [TText 120; TVar [65]; TText 121; TBang [65]; TText 122].
Proof. vm_compute. reflexivity. Qed.
Example C01_ex_not_placeholders :
  sub_tokens [36;123;65;46;66;125] = map TText [36;123;65;46;66;125]
  /\ sub_tokens [36;123;32;65;32;125] = map TText [36;123;32;65;32;125]
  /\ sub_tokens [36;65] = map TText [36;65]
  /\ sub_tokens [36;123;125] = map TText [36;123;125]
  /\ sub_tokens [36;123;33;125] = map TText [36;123;33;125].
Proof. vm_compute. repeat split; reflexivity. Qed.
(* "${${A}" : the open "${" is literal, the placeholder after it is still found *)
Example C01_ex_open_then_placeholder : sub_tokens [36;123;36;123;65;125] = [TText 36; TText 123; TVar [65]].
Proof. vm_compute. reflexivity. Qed.

(* ALGEBRAIC LAWS of the value functions (Resolver/FnAlgebra.v).  Laws that are FALSE of the model are stated as
   [..._refuted] with their witness; "lib:" gives the answer of the library on the witness
   (pycfmodel.resolver.resolve(expr, params, mappings, {}), tree ea4be28).
   Notation: FJoin d l = {"Fn::Join": [d, l]}, FSplit, FSelect, FFindInMap, FRef,
   FImport, FBase64, FSub text = {"Fn::Sub": text}, FSubV text vars = {"Fn::Sub": [text, vars]}; ph n = "${n}".
   Code points: , 44  - 45  0 48  1 49  A 65  a 97  x 120. *)
(* Examples use [e1] (FnAlgebra.v): A = "1", B = "${A}", L = ["a", "TRUE", 1, true], N = 7;  Mappings {M: {a: {b: "leaf"}}} *)

(* Fn::Join / Fn::Split *)
(* on texts: Join d (Split d s) = s, whatever d and s *)
Theorem C01_join_split_text : forall d s, join d (split d s) = s.
Proof. exact join_split. Qed.
Print Assumptions C01_join_split_text.
Theorem C01_join_split : forall e dl s ds ss,
  resolve e dl = Ok (VStr ds) -> ds <> [] -> resolve e s = Ok (VStr ss) ->
  resolve e (FJoin dl (FSplit dl s)) = Ok (VStr ss).
Proof.
  intros e dl s ds ss Hd Hne Hs.
  rewrite (resolve_join_texts e dl _ ds (split ds ss) Hd); [rewrite join_split; reflexivity|].
  rewrite (resolve_FSplit e dl s _ _ Hd Hs). destruct ds; [congruence | reflexivity].
Qed.
Print Assumptions C01_join_split.
Example C01_ex_join_split :
  resolve e1 (VStr [97;97]) = Ok (VStr [97;97]) /\ resolve e1 (VStr [97;97;97;120;97;97]) = Ok (VStr [97;97;97;120;97;97]) /\
  resolve e1 (FJoin (VStr [97;97]) (FSplit (VStr [97;97]) (VStr [97;97;97;120;97;97]))) = Ok (VStr [97;97;97;120;97;97]).
Proof. vm_compute. repeat split. Qed.
(* an empty delimiter is an error (Python: ValueError "empty separator") *)
Theorem C01_split_empty_delimiter : forall e dl s ss,
  resolve e dl = Ok (VStr []) -> resolve e s = Ok (VStr ss) -> resolve e (FSplit dl s) = Err EValue.
Proof. exact (fun e dl s ss Hd Hs => resolve_FSplit e dl s _ _ Hd Hs). Qed.
Print Assumptions C01_split_empty_delimiter.

(* Split d (Join d l) = l: l non-empty, no member contains the FIRST code point c of d = c :: d' *)
Theorem C01_split_join_text : forall c d' l, l <> [] -> Forall (fun x => ~ In c x) l -> split (c :: d') (join (c :: d') l) = l.
Proof. exact split_join. Qed.
Print Assumptions C01_split_join_text.
Theorem C01_split_join : forall e dl l c d' ls,
  resolve e dl = Ok (VStr (c :: d')) -> resolve e l = Ok (VList (map VStr ls)) ->
  ls <> [] -> Forall (fun x => ~ In c x) ls ->
  resolve e (FSplit dl (FJoin dl l)) = Ok (VList (map VStr ls)).
Proof.
  intros e dl l c d' ls Hd Hl Hne Hall.
  rewrite (resolve_FSplit e dl _ _ _ Hd (resolve_join_texts e dl l _ _ Hd Hl)).
  cbn [do_split]. rewrite split_join by assumption. reflexivity.
Qed.
Print Assumptions C01_split_join.
Example C01_ex_split_join :
  let l := VList [FRef (VStr [65]); VStr []; VStr [120]] in
  resolve e1 (VStr [44]) = Ok (VStr [44]) /\ resolve e1 l = Ok (VList (map VStr [[49]; []; [120]])) /\
  Forall (fun x => ~ In 44 x) [[49]; []; [120]] /\
  resolve e1 (FSplit (VStr [44]) (FJoin (VStr [44]) l)) = Ok (VList (map VStr [[49]; []; [120]])).
Proof. cbv zeta. repeat split; try (vm_compute; reflexivity). repeat constructor; simpl; intuition discriminate. Qed.
(* for a one-character delimiter that is "no member contains d" ([occurs d x]: d is a substring of x) ... *)
Theorem C01_split_join_char : forall c l, l <> [] -> Forall (fun x => occurs [c] x = false) l -> split [c] (join [c] l) = l.
Proof.
  intros c l Hne Hall.
  apply split_join; [exact Hne|].
  eapply Forall_impl; [|exact Hall]. intros x Hx. apply occurs_char. exact Hx.
Qed.
Print Assumptions C01_split_join_char.
Theorem C01_occurs : forall d s, occurs d s = true <-> exists a b, s = a ++ d ++ b.
Proof. exact occurs_spec. Qed.
Print Assumptions C01_occurs.
(* ... and for longer delimiters that law is FALSE: d = "aa", l = ["a"; "x"] ("a"+"aa"+"x" = "aaax" splits as ["", "ax"];
   lib: ['', 'ax'] -- a fact about texts, CloudFormation alike) *)
Theorem C01_split_join_refuted :
  exists d l, d <> [] /\ l <> [] /\ Forall (fun x => occurs d x = false) l /\ split d (join d l) <> l.
Proof.
  exists [97;97], [[97];[120]]. split; [discriminate|]. split; [discriminate|]. split.
  - repeat constructor.
  - vm_compute. discriminate.
Qed.
Print Assumptions C01_split_join_refuted.
Example C01_ex_split_join_refuted :
  resolve e1 (FSplit (VStr [97;97]) (FJoin (VStr [97;97]) (VList [VStr [97]; VStr [120]]))) = Ok (VList [VStr []; VStr [97;120]]).
Proof. vm_compute. reflexivity. Qed.
(* the empty list is not recovered: Join d [] = "" and Split d "" = [""] (lib: ['']) *)
Theorem C01_split_join_nil : forall d, split d (join d []) = [[]].
Proof. intros d. reflexivity. Qed.
Print Assumptions C01_split_join_nil.

Theorem C01_join_singleton : forall e dl ds x s,
  resolve e dl = Ok (VStr ds) -> resolve e x = Ok (VStr s) ->
  resolve e (FJoin dl (VList [x])) = Ok (VStr (if str_eqb s S_NOVALUE then [] else s)).
Proof.
  intros e dl ds x s Hd Hx.
  unfold FJoin. rewrite resolve_join, Hd. cbn [bind]. rewrite resolve_list. cbn [rlist].
  rewrite Hx. cbn [bind is_novalue]. destruct (str_eqb s S_NOVALUE); reflexivity.
Qed.
Print Assumptions C01_join_singleton.
Theorem C01_join_nil : forall e dl ds, resolve e dl = Ok (VStr ds) -> resolve e (FJoin dl (VList [])) = Ok (VStr []).
Proof. exact (fun e dl ds Hd => resolve_FJoin e dl (VList []) _ _ Hd eq_refl). Qed.
Print Assumptions C01_join_nil.
Example C01_ex_join_singleton_nil :
  resolve e1 (FJoin (VStr [44]) (VList [FRef (VStr [65])])) = Ok (VStr [49]) /\
  resolve e1 (FJoin (VStr [44]) (VList [])) = Ok (VStr []).
Proof. vm_compute. repeat split. Qed.

(* scalars rendered as strings: booleans true / false, integers in decimal, text rendered ([leaf_text]) *)
Theorem C01_join_scalars : forall e dl ds l ts,
  resolve e dl = Ok (VStr ds) ->
  Forall2 (fun v t => leaf_text (params e) v = Some t /\ t <> S_NOVALUE) l ts ->
  resolve e (FJoin dl (VList l)) = Ok (VStr (join ds ts)).
Proof. intros e dl ds l ts Hd HF. apply (resolve_join_texts e dl _ ds ts Hd). rewrite resolve_list, (rlist_leaves e l ts HF). reflexivity. Qed.
Print Assumptions C01_join_scalars.
(* [1, true, false, "TRUE", -5] joined by "-"  =  "1-true-false-true--5" *)
Example C01_ex_join_scalars :
  Forall2 (fun v t => leaf_text (params e1) v = Some t /\ t <> S_NOVALUE)
    [VInt 1; VBool true; VBool false; VStr [84;82;85;69]; VInt (-5)] [[49]; S_true; S_false; S_true; [45;53]] /\
  resolve e1 (FJoin (VStr [45]) (VList [VInt 1; VBool true; VBool false; VStr [84;82;85;69]; VInt (-5)]))
  = Ok (VStr [49;45;116;114;117;101;45;102;97;108;115;101;45;116;114;117;101;45;45;53]).
Proof. split; [repeat constructor; try (vm_compute; reflexivity); vm_compute; discriminate | vm_compute; reflexivity]. Qed.
(* a list / object / null among the resolved members: the model declines (the library interpolates Python's repr;
   lib: "a-['b', 'c']", "a-{'k': 'v'}", 'a-None') *)
Theorem C01_join_nested_declined : forall e dl ds l ls,
  resolve e dl = Ok (VStr ds) -> resolve e l = Ok (VList ls) -> (exists x, In x ls /\ forall s, x <> VStr s) ->
  resolve e (FJoin dl l) = Err EUndefined.
Proof. intros e dl ds l ls Hd Hl Hx. rewrite (resolve_FJoin e dl l _ _ Hd Hl). cbn [do_join]. rewrite (as_strs_declines ls Hx). reflexivity. Qed.
Print Assumptions C01_join_nested_declined.
Example C01_ex_join_nested : resolve e1 (FJoin (VStr [45]) (VList [VStr [97]; VList [VStr [98]; VStr [99]]])) = Err EUndefined.
Proof. vm_compute. reflexivity. Qed.

(* Fn::Select *)
Theorem C01_select_nth : forall e i l s z ls,
  resolve e i = Ok (VStr s) -> parse_int s = Some z -> resolve e l = Ok (VList ls) ->
  (0 <= z < Z.of_nat (length ls))%Z ->
  resolve e (FSelect i l) = Ok (nth (Z.to_nat z) ls (VList [])).
Proof.
  intros e i l s z ls Hi Hp Hl Hz.
  rewrite (resolve_select_spec e i l s z ls Hi Hp Hl).
  replace (0 <=? z)%Z with true by (symmetry; apply Z.leb_le; lia).
  replace (z <? Z.of_nat (length ls))%Z with true by (symmetry; apply Z.ltb_lt; lia). reflexivity.
Qed.
Print Assumptions C01_select_nth.
Theorem C01_select_out_of_range : forall e i l s z ls,
  resolve e i = Ok (VStr s) -> parse_int s = Some z -> resolve e l = Ok (VList ls) ->
  (z < 0 \/ Z.of_nat (length ls) <= z)%Z ->
  resolve e (FSelect i l) = Ok (VList []).
Proof.
  intros e i l s z ls Hi Hp Hl Hz.
  rewrite (resolve_select_spec e i l s z ls Hi Hp Hl).
  destruct (0 <=? z)%Z eqn:E1; [|reflexivity]. apply Z.leb_le in E1.
  replace (z <? Z.of_nat (length ls))%Z with false by (symmetry; apply Z.ltb_ge; lia). reflexivity.
Qed.
Print Assumptions C01_select_out_of_range.
(* index 1 of the list parameter L = ["a","TRUE",1,true] is "true"; indices -1 and 4 give [] *)
Example C01_ex_select :
  resolve e1 (VStr [49]) = Ok (VStr [49]) /\ parse_int [49] = Some 1%Z /\
  resolve e1 (FRef (VStr [76])) = Ok (VList [VStr [97]; VStr S_true; VStr [49]; VStr S_true]) /\
  resolve e1 (FSelect (VStr [49]) (FRef (VStr [76]))) = Ok (VStr S_true) /\
  parse_int [45;49] = Some (-1)%Z /\ resolve e1 (FSelect (VStr [45;49]) (FRef (VStr [76]))) = Ok (VList []) /\
  resolve e1 (FSelect (VInt 4) (FRef (VStr [76]))) = Ok (VList []).
Proof. vm_compute. repeat split. Qed.
(* a NON-NUMERIC index is not "out of range": no empty list.  The model declines whenever [parse_int s = None]; the library
   raises ValueError for the texts that Python's int() rejects ("x") and answers for those it accepts and [parse_int] does not
   (" 1 ", "1_0") *)
Theorem C01_select_non_numeric : forall e i l s ls,
  resolve e i = Ok (VStr s) -> parse_int s = None -> resolve e l = Ok (VList ls) ->
  resolve e (FSelect i l) = Err EUndefined.
Proof. intros e i l s ls Hi Hp Hl. rewrite (resolve_FSelect e i l _ _ Hi Hl). cbn [do_select]. rewrite Hp. reflexivity. Qed.
Print Assumptions C01_select_non_numeric.
Example C01_ex_select_non_numeric :
  parse_int [120] = None /\ resolve e1 (FSelect (VStr [120]) (VList [VStr [97]; VStr [98]])) = Err EUndefined.
Proof. vm_compute. repeat split. Qed.
(* the index as a number and as its decimal text are the same; decimal text reads back *)
Theorem C01_parse_int_roundtrip : forall z, parse_int (str_of_Z z) = Some z.
Proof.
  intros z.
  destruct z as [|p|p]; [reflexivity | |]; unfold str_of_Z; pose proof (digits_N_val p) as Hv;
    destruct (digits_N_head (Npos p)) as (c & rest & E & Hc); rewrite E in *.
  - rewrite (parse_int_digit_head c rest Hc), Hv. reflexivity.
  - cbn [parse_int tl]. rewrite Hv. reflexivity.
Qed.
Print Assumptions C01_parse_int_roundtrip.
Theorem C01_select_index_number : forall e z l,
  resolve e (FSelect (VInt z) l) = resolve e (FSelect (VStr (str_of_Z z)) l).
Proof. intros e z l. unfold FSelect. rewrite !resolve_select. cbn [resolve]. rewrite (plain_text_fixed _ _ (plain_str_of_Z z)). reflexivity. Qed.
Print Assumptions C01_select_index_number.
Theorem C01_select_int : forall e z l ls, resolve e l = Ok (VList ls) ->
  resolve e (FSelect (VInt z) l) =
  Ok (if (0 <=? z)%Z && (z <? Z.of_nat (length ls))%Z then nth (Z.to_nat z) ls (VList []) else VList []).
Proof. exact (fun e z l ls => resolve_select_spec e (VInt z) l _ z ls eq_refl (C01_parse_int_roundtrip z)). Qed.
Print Assumptions C01_select_int.
Theorem C01_select_split_join : forall e i s z dl l c d' ls,
  resolve e i = Ok (VStr s) -> parse_int s = Some z -> (0 <= z < Z.of_nat (length ls))%Z ->
  resolve e dl = Ok (VStr (c :: d')) -> resolve e l = Ok (VList (map VStr ls)) -> Forall (fun x => ~ In c x) ls ->
  resolve e (FSelect i (FSplit dl (FJoin dl l))) = Ok (VStr (nth (Z.to_nat z) ls [])).
Proof.
  intros e i s z dl l c d' ls Hi Hp Hz Hd Hl Hall.
  assert (Hne : ls <> []) by (intros ->; simpl in Hz; lia).
  rewrite (C01_select_nth e i _ s z (map VStr ls) Hi Hp (C01_split_join e dl l c d' ls Hd Hl Hne Hall))
    by (rewrite map_length; exact Hz).
  f_equal. rewrite (nth_indep _ (VList []) (VStr [])) by (rewrite map_length; lia).
  apply (map_nth VStr).
Qed.
Print Assumptions C01_select_split_join.
Example C01_ex_select_split_join :
  resolve e1 (FSelect (VInt 2) (FSplit (VStr [44]) (FJoin (VStr [44]) (VList [FRef (VStr [65]); VStr []; VStr [120]])))) = Ok (VStr [120]).
Proof. vm_compute. reflexivity. Qed.
(* FALSE: "Select i [x0; x1; x2] is the value of x_i" -- the list is resolved first and AWS::NoValue members are dropped, so
   the positions shift: Select 1 ["a"; "AWS::NoValue"; "c"] is "c" (lib: 'c') *)
Theorem C01_select_literal_refuted : exists e i x0 x1 x2 r1,
  resolve e x1 = Ok r1 /\ exists r, resolve e (FSelect i (VList [x0; x1; x2])) = Ok r /\ i = VInt 1 /\ r <> r1.
Proof.
  exists {| params := []; mappings := []; conds := fun _ => Ok false |}, (VInt 1), (VStr [97]), (VStr S_NOVALUE), (VStr [99]), (VStr S_NOVALUE).
  split; [vm_compute; reflexivity|]. exists (VStr [99]). split; [vm_compute; reflexivity|]. split; [reflexivity | discriminate].
Qed.
Print Assumptions C01_select_literal_refuted.
(* a text where the list is expected (Ref to an unbound list parameter, Fn::GetAZs, Fn::GetAtt): declined
   (lib, for Fn::GetAZs: Join gives 'G,E,T,A,Z,S', Select 'G') *)
Theorem C01_select_over_text_declined : forall e i s l t,
  resolve e i = Ok (VStr s) -> resolve e l = Ok (VStr t) -> resolve e (FSelect i l) = Err EUndefined.
Proof. exact (fun e i s l t Hi Hl => resolve_FSelect e i l _ _ Hi Hl). Qed.
Print Assumptions C01_select_over_text_declined.
Theorem C01_join_over_text_declined : forall e dl ds l t,
  resolve e dl = Ok (VStr ds) -> resolve e l = Ok (VStr t) -> resolve e (FJoin dl l) = Err EUndefined.
Proof. exact (fun e dl ds l t Hd Hl => resolve_FJoin e dl l _ _ Hd Hl). Qed.
Print Assumptions C01_join_over_text_declined.
Example C01_ex_over_text :
  resolve e1 (VDict [(K_GetAZs, VStr [])]) = Ok (VStr S_GETAZS) /\
  resolve e1 (FSelect (VInt 0) (VDict [(K_GetAZs, VStr [])])) = Err EUndefined /\
  resolve e1 (FJoin (VStr [44]) (FRef (VStr [90]))) = Err EUndefined.
Proof. vm_compute. repeat split. Qed.

(* Fn::Sub *)
(* no "${" anywhere: the text AS IT IS -- the Fn::Sub text is not rendered (no lower-casing, no SSM lookup) *)
Theorem C01_sub_no_placeholder : forall e text,
  (forall a u, text <> a ++ 36 :: 123 :: u) -> resolve e (FSub text) = Ok (VStr text).
Proof. exact (fun e text => do_sub_no_placeholder e text []). Qed.
Print Assumptions C01_sub_no_placeholder.
(* ... not even rendered: the Fn::Sub text is not a literal of the template for the resolver
   (lib: {"Fn::Sub": "TRUE"} is 'TRUE', the literal "TRUE" is 'true') *)
Theorem C01_sub_text_not_rendered : exists text,
  (forall a u, text <> a ++ 36 :: 123 :: u) /\ resolve e_nil (FSub text) <> resolve e_nil (VStr text).
Proof.
  exists [84;82;85;69]. split.
  - intros a u H. assert (Hin : In 36 [84;82;85;69]) by (rewrite H; apply in_or_app; right; left; reflexivity).
    simpl in Hin. repeat (destruct Hin as [Hin | Hin]; [discriminate Hin|]). exact Hin.
  - vm_compute. discriminate.
Qed.
Print Assumptions C01_sub_text_not_rendered.
(* "$ {x}" and "TRUE": unchanged; the literal "TRUE" is "true" *)
Example C01_ex_sub_no_placeholder :
  resolve e1 (FSub [36;32;123;120;125]) = Ok (VStr [36;32;123;120;125]) /\
  resolve e1 (FSub [84;82;85;69]) = Ok (VStr [84;82;85;69]) /\ resolve e1 (VStr [84;82;85;69]) = Ok (VStr S_true).
Proof. vm_compute. repeat split. Qed.
Theorem C01_sub_empty_map : forall e text, resolve e (FSubV text (VDict [])) = resolve e (FSub text).
Proof. intros e text. reflexivity. Qed.
Print Assumptions C01_sub_empty_map.
Theorem C01_sub_adjacent : forall e custom a b ra rb, valid_name a -> valid_name b ->
  render_var e custom a = Ok ra -> render_var e custom b = Ok rb ->
  do_sub e (ph a ++ ph b) custom = Ok (VStr (ra ++ rb)).
Proof.
  intros e custom a b ra rb Ha Hb Hra Hrb.
  exact (do_sub_value_verbatim e custom [] a (ph b) [] ra rb Ha eq_refl Hra (sub_no_rescan e custom b rb Hb Hrb)).
Qed.
Print Assumptions C01_sub_adjacent.
(* exactly once: pre "${n}" post --> (pre) (value of n, verbatim) (post) *)
Theorem C01_sub_value_verbatim : forall e custom pre n post a s c, valid_name n ->
  do_sub e pre custom = Ok (VStr a) -> render_var e custom n = Ok s -> do_sub e post custom = Ok (VStr c) ->
  do_sub e (pre ++ ph n ++ post) custom = Ok (VStr (a ++ s ++ c)).
Proof. exact do_sub_value_verbatim. Qed.
Print Assumptions C01_sub_value_verbatim.
Theorem C01_sub_bang_literal : forall e custom n, valid_name n -> do_sub e (ph_bang n) custom = Ok (VStr (ph n)).
Proof.
  intros e custom n Hv.
  pose proof (do_sub_match e custom [] _ _ [] [] _ [] (M_bang n [] Hv) eq_refl eq_refl eq_refl) as H.
  cbn [app] in H. rewrite app_nil_r in H. exact H.
Qed.
Print Assumptions C01_sub_bang_literal.
(* "${B}${A}" with B = "${A}", A = "1" is "${A}1": B's value is inserted once and not scanned; "${!A}" is "${A}" *)
Example C01_ex_sub_adjacent :
  valid_name [66] /\ valid_name [65] /\ render_var e1 [] [66] = Ok [36;123;65;125] /\ render_var e1 [] [65] = Ok [49] /\
  resolve e1 (FSub (ph [66] ++ ph [65])) = Ok (VStr [36;123;65;125;49]) /\
  resolve e1 (FSub (ph_bang [65])) = Ok (VStr (ph [65])).
Proof. vm_compute. repeat split; discriminate. Qed.
(* an UNBOUND variable stays as written; it does NOT become the UNDEFINED_PARAM_ text that Ref gives *)
Theorem C01_sub_unbound_as_written : forall e custom n, valid_name n ->
  lookup n custom = None -> lookup n (params e) = None -> do_sub e (ph n) custom = Ok (VStr (ph n)).
Proof. intros e custom n Hv H1 H2. apply (sub_no_rescan e custom n (ph n) Hv). unfold render_var. rewrite H1, H2. reflexivity. Qed.
Print Assumptions C01_sub_unbound_as_written.
(* lib: '${N}' while {"Ref": "N"} is 'UNDEFINED_PARAM_N' *)
Theorem C01_sub_unbound_is_not_undefined_param : exists n, valid_name n /\
  resolve e_nil (FRef (VStr n)) = Ok (VStr (undefined_param n)) /\
  resolve e_nil (FSub (ph n)) = Ok (VStr (ph n)) /\ ph n <> undefined_param n.
Proof.
  exists [78]. split; [split; [discriminate | reflexivity]|].
  split; [vm_compute; reflexivity|]. split; [vm_compute; reflexivity | discriminate].
Qed.
Print Assumptions C01_sub_unbound_is_not_undefined_param.
(* what a variable inserts *)
Theorem C01_sub_var_scalar : forall e custom n x t,
  var_value e custom n = Some x -> leaf_text (params e) x = Some t -> render_var e custom n = Ok t.
Proof. intros e custom n x t Hv Hl. rewrite render_var_value, Hv, (normalize_leaf _ _ _ Hl). reflexivity. Qed.
Print Assumptions C01_sub_var_scalar.
(* lists, objects, null: the model declines (lib: Python's repr, "['a', 'b']", "{'k': 'v'}", 'None') *)
Theorem C01_sub_var_container_declined : forall e custom n x,
  var_value e custom n = Some x -> leaf_text (params e) x = None -> is_ok (render_var e custom n) = false.
Proof.
  intros e custom n x Hv Hl.
  rewrite render_var_value, Hv. destruct x; try discriminate Hl.
  - reflexivity.
  - rewrite normalize_list. destruct (mlist (normalize (params e)) l); reflexivity.
  - rewrite normalize_dict. destruct (is_fn_dict d); [reflexivity|]. destruct (mdict (normalize (params e)) d); reflexivity.
Qed.
Print Assumptions C01_sub_var_container_declined.
(* N = 7 inserts "7", a local variable true inserts "true", the list parameter L is declined *)
Example C01_ex_sub_var :
  var_value e1 [] [78] = Some (VInt 7) /\ resolve e1 (FSub (ph [78])) = Ok (VStr [55]) /\
  resolve e1 (FSubV (ph [86]) (VDict [([86], VBool true)])) = Ok (VStr S_true) /\
  leaf_text (params e1) (VList [VStr [97]; VStr [84;82;85;69]; VInt 1; VBool true]) = None /\
  resolve e1 (FSub (ph [76])) = Err EUndefined.
Proof. vm_compute. repeat split. Qed.
(* ${n} is Ref n -- for a bound, text-valued parameter whose name rendering leaves alone *)
Theorem C01_sub_is_ref : forall e n x s, valid_name n -> plain_text n = true ->
  lookup n (params e) = Some x -> normalize (params e) x = Ok (VStr s) ->
  resolve e (FSub (ph n)) = resolve e (FRef (VStr n)).
Proof.
  intros e n x s Hv Hp Hl Hn.
  rewrite (resolve_ref_plain e n Hp), Hl, Hn. unfold FSub. rewrite resolve_sub_text.
  apply (sub_no_rescan e [] n s Hv). unfold render_var. cbn [lookup]. rewrite Hl, Hn. reflexivity.
Qed.
Print Assumptions C01_sub_is_ref.
Example C01_ex_sub_is_ref :
  valid_name [65] /\ plain_text [65] = true /\ lookup [65] (params e1) = Some (VStr [49]) /\
  normalize (params e1) (VStr [49]) = Ok (VStr [49]) /\ resolve e1 (FSub (ph [65])) = Ok (VStr [49]).
Proof. vm_compute. repeat split; discriminate. Qed.

(* Ref / Fn::ImportValue *)
(* the NAME is a literal like any other: it is rendered, and the rendered name is looked up *)
Theorem C01_ref_literal : forall e p,
  resolve e (FRef (VStr p)) =
  match lookup (render_str (params e) p) (params e) with
  | Some x => normalize (params e) x
  | None => Ok (VStr (undefined_param (render_str (params e) p)))
  end.
Proof. exact resolve_ref_literal. Qed.
Print Assumptions C01_ref_literal.
Theorem C01_import_is_ref : forall e b, resolve e (FImport b) = resolve e (FRef b).
Proof. intros e b. reflexivity. Qed.
Print Assumptions C01_import_is_ref.
Theorem C01_ref_plain : forall e p, plain_text p = true ->
  resolve e (FRef (VStr p)) =
  match lookup p (params e) with Some x => normalize (params e) x | None => Ok (VStr (undefined_param p)) end.
Proof. exact resolve_ref_plain. Qed.
Print Assumptions C01_ref_plain.
Theorem C01_ref_list : forall e p l ts, plain_text p = true -> lookup p (params e) = Some (VList l) ->
  Forall2 (fun v t => leaf_text (params e) v = Some t /\ t <> S_NOVALUE) l ts ->
  resolve e (FRef (VStr p)) = Ok (VList (map VStr ts)).
Proof. intros e p l ts Hp Hl HF. rewrite (resolve_ref_plain e p Hp), Hl. apply normalize_leaves. exact HF. Qed.
Print Assumptions C01_ref_list.
Example C01_ex_ref_list :
  plain_text [76] = true /\
  Forall2 (fun v t => leaf_text (params e1) v = Some t /\ t <> S_NOVALUE)
    [VStr [97]; VStr [84;82;85;69]; VInt 1; VBool true] [[97]; S_true; [49]; S_true] /\
  resolve e1 (FRef (VStr [76])) = Ok (VList (map VStr [[97]; S_true; [49]; S_true])) /\
  resolve e1 (FRef (VStr [90])) = Ok (VStr (undefined_param [90])).
Proof.
  split; [vm_compute; reflexivity|]. split; [repeat constructor; try (vm_compute; reflexivity); vm_compute; discriminate|].
  split; vm_compute; reflexivity.
Qed.
(* FALSE for a name that rendering rewrites: the parameter "True" is bound, Ref "True" is UNDEFINED_PARAM_true, ${True} finds it
   (lib: 'UNDEFINED_PARAM_true', 'v') *)
Theorem C01_ref_boolean_name_refuted :
  lookup s_True (params e_True) = Some (VStr [118]) /\
  resolve e_True (FRef (VStr s_True)) = Ok (VStr (undefined_param (lower s_True))) /\
  resolve e_True (FSub (ph s_True)) = Ok (VStr [118]).
Proof. vm_compute. repeat split. Qed.
Print Assumptions C01_ref_boolean_name_refuted.
(* a pseudo parameter is overridden by a supplied value of the same name (binding: C04_precedence) *)
Theorem C01_ref_supplied_overrides_pseudo : forall pseudo decls extra ps maps cs k v w,
  bind_params pseudo decls extra = Ok ps -> NoDup (keys decls) -> plain_text k = true ->
  lookup k decls = None -> lookup k pseudo = Some w -> lookup k extra = Some v ->
  resolve {| params := ps; mappings := maps; conds := cs |} (FRef (VStr k)) = normalize ps v.
Proof.
  intros pseudo decls extra ps maps cs k v w Hb Hnd Hp Hd _ Hx.
  rewrite (resolve_ref_plain _ k Hp). cbn [params].
  rewrite (bind_params_precedence pseudo decls extra ps Hb Hnd k), Hd, Hx. reflexivity.
Qed.
Print Assumptions C01_ref_supplied_overrides_pseudo.
Example C01_ex_ref_overrides_pseudo :
  let pseudo := [([82], VStr [112])] in let extra := [([82], VStr [120])] in
  bind_params pseudo [] extra = Ok (extra ++ pseudo) /\ plain_text [82] = true /\
  resolve {| params := extra ++ pseudo; mappings := []; conds := fun _ => Ok false |} (FRef (VStr [82])) = Ok (VStr [120]).
Proof. vm_compute. repeat split. Qed.

(* Fn::FindInMap *)
Theorem C01_findinmap_text : forall m k1 k2,
  undefined_mapping m k1 k2 = S_UNDEF_MAPPING ++ m ++ [95] ++ k1 ++ [95] ++ k2.
Proof. intros m k1 k2. reflexivity. Qed.
Print Assumptions C01_findinmap_text.
(* map name and keys are resolved first; the answer is the leaf AS WRITTEN in the mapping, or the placeholder text built from
   the RESOLVED name and keys *)
Theorem C01_findinmap_leaf : forall e m k1 k2 ms s1 s2, mappings_wf e ->
  resolve e m = Ok (VStr ms) -> resolve e k1 = Ok (VStr s1) -> resolve e k2 = Ok (VStr s2) ->
  resolve e (FFindInMap m k1 k2) =
  Ok (match mapping_leaf e ms s1 s2 with Some leaf => leaf | None => VStr (undefined_mapping ms s1 s2) end).
Proof.
  exact (fun e m k1 k2 ms s1 s2 Hwf Hm H1 H2 =>
           eq_trans (resolve_FFindInMap e m k1 k2 _ _ _ Hm H1 H2) (find_in_map_spec e ms s1 s2 Hwf)).
Qed.
Print Assumptions C01_findinmap_leaf.
(* the two keys are looked up by [lookup_bk] (exactly, else -- for the texts "true" / "false" -- by the first entry whose key
   lower-cases to it: repair of F31, library acd13a2); with the exact [lookup] in the hypothesis the
   statement is false (Mappings {"M":{"True":{"k":"yes"}}}, keys "true", "k": "True" is found).
   [C01_lookup_bk_none] says what [lookup_bk ... = None] means *)
Theorem C01_findinmap_missing : forall e m k1 k2 ms s1 s2,
  resolve e m = Ok (VStr ms) -> resolve e k1 = Ok (VStr s1) -> resolve e k2 = Ok (VStr s2) ->
  lookup ms (mappings e) = None
  \/ (exists top, lookup ms (mappings e) = Some (VDict top) /\
        (lookup_bk s1 top = None
         \/ exists snd_, lookup_bk s1 top = Some (VDict snd_) /\ (lookup_bk s2 snd_ = None \/ lookup_bk s2 snd_ = Some VNull))) ->
  resolve e (FFindInMap m k1 k2) = Ok (VStr (undefined_mapping ms s1 s2)).
Proof.
  exact (fun e m k1 k2 ms s1 s2 Hm H1 H2 H =>
           eq_trans (resolve_FFindInMap e m k1 k2 _ _ _ Hm H1 H2) (do_find_in_map_missing e ms s1 s2 H)).
Qed.
Print Assumptions C01_findinmap_missing.
Theorem C01_findinmap_leaf_verbatim : forall e ms s1 s2 top snd_ leaf,
  lookup ms (mappings e) = Some (VDict top) -> lookup s1 top = Some (VDict snd_) -> lookup s2 snd_ = Some leaf ->
  leaf <> VNull -> do_find_in_map e (VStr ms) (VStr s1) (VStr s2) = Ok leaf.
Proof.
  intros e ms s1 s2 top snd_ leaf H1 H2 H3 Hn.
  unfold do_find_in_map. rewrite H1, (lookup_bk_exact _ _ _ H2), (lookup_bk_exact _ _ _ H3).
  destruct leaf; try reflexivity. congruence.
Qed.
Print Assumptions C01_findinmap_leaf_verbatim.
(* keys given by Ref / Join: M[a][b] = "leaf"; a missing second-level key gives UNDEFINED_MAPPING_M_a_1 *)
Example C01_ex_findinmap :
  mappings_wf e1 /\
  resolve e1 (FFindInMap (VStr [77]) (FJoin (VStr []) (VList [VStr [97]])) (VStr [98])) = Ok (VStr [108;101;97;102]) /\
  resolve e1 (FFindInMap (VStr [77]) (VStr [97]) (FRef (VStr [65]))) = Ok (VStr (undefined_mapping [77] [97] [49])) /\
  undefined_mapping [77] [97] [49] = S_UNDEF_MAPPING ++ [77;95;97;95;49].
Proof. split; [exact e1_mappings_wf|]. vm_compute. repeat split. Qed.
(* FALSE: "the result is rendered" -- a leaf "True" / 0 / false comes out as written (known finding F14b; lib: 'True', 0, False) *)
Theorem C01_findinmap_unrendered_refuted :
  resolve e_map (FFindInMap (VStr [77]) (VStr [97]) (VStr [84])) = Ok (VStr s_True) /\
  rendered (params e_map) (VStr s_True) = false /\
  resolve e_map (FFindInMap (VStr [77]) (VStr [97]) (VStr [110])) = Ok (VInt 0) /\
  resolve e_map (FFindInMap (VStr [77]) (VStr [97]) (VStr [102])) = Ok (VBool false).
Proof. vm_compute. repeat split. Qed.
Print Assumptions C01_findinmap_unrendered_refuted.
(* the key lookup of Fn::FindInMap (library `_mapping_get`): exactly; a key that is not the text "true" / "false" only exactly;
   what is found is an entry of the level, under the key or under a spelling of it; [None] = not there as written and, for "true" /
   "false", under no spelling *)
Theorem C01_lookup_bk_exact : forall k (d : list (str * value)) v, lookup k d = Some v -> lookup_bk k d = Some v.
Proof. exact (@lookup_bk_exact value). Qed.
Print Assumptions C01_lookup_bk_exact.
Theorem C01_lookup_bk_plain : forall k (d : list (str * value)), k <> S_true -> k <> S_false -> lookup_bk k d = lookup k d.
Proof. exact (@lookup_bk_plain value). Qed.
Print Assumptions C01_lookup_bk_plain.
Theorem C01_lookup_bk_in : forall k (d : list (str * value)) v,
  lookup_bk k d = Some v -> exists k', In (k', v) d /\ (k' = k \/ (is_bool_text k = true /\ lower k' = k)).
Proof. exact (@lookup_bk_In value). Qed.
Print Assumptions C01_lookup_bk_in.
Theorem C01_lookup_bk_none : forall k (d : list (str * value)),
  lookup_bk k d = None <-> ~ In k (keys d) /\ (is_bool_text k = true -> forall k', In k' (keys d) -> lower k' <> k).
Proof. exact (@lookup_bk_None value). Qed.
Print Assumptions C01_lookup_bk_none.
Example C01_ex_lookup_bk :
  let d := [(s_True, VStr [49]); ([97], VStr [50])] in
  lookup S_true d = None /\ lookup_bk S_true d = Some (VStr [49]) /\ lookup_bk S_false d = None /\ lookup_bk [65] d = None /\
  lookup_bk [97] d = Some (VStr [50]) /\ [97] <> S_true /\ [97] <> S_false /\ is_bool_text S_true = true /\ lower s_True = S_true.
Proof. vm_compute. repeat split; discriminate. Qed.

(* TRUE (the library's `_mapping_get`, repair F31): "a key is looked up as written", also a key written like a
   boolean -- it reaches the lookup as [key_text s] ("True" -> "true") and finds the mapping's "True", PROVIDED the mapping level holds
   no second spelling of that boolean ([only_spelling]; with two, the first in dictionary order answers: C01_findinmap_first_spelling_wins) *)
Theorem C01_findinmap_key_text : forall e ms s1 s2 top snd_ leaf,
  lookup ms (mappings e) = Some (VDict top) -> lookup s1 top = Some (VDict snd_) -> lookup s2 snd_ = Some leaf -> leaf <> VNull ->
  (is_boolish s1 = true -> only_spelling s1 top) -> (is_boolish s2 = true -> only_spelling s2 snd_) ->
  do_find_in_map e (VStr ms) (VStr (key_text s1)) (VStr (key_text s2)) = Ok leaf.
Proof. exact do_find_in_map_key_text. Qed.
Print Assumptions C01_findinmap_key_text.
Theorem C01_findinmap_boolean_key : forall e ms s1 s2 top snd_ leaf,
  plain_text ms = true -> ssm_key s1 = None -> ssm_key s2 = None ->
  lookup ms (mappings e) = Some (VDict top) -> lookup s1 top = Some (VDict snd_) -> lookup s2 snd_ = Some leaf -> leaf <> VNull ->
  (is_boolish s1 = true -> only_spelling s1 top) -> (is_boolish s2 = true -> only_spelling s2 snd_) ->
  resolve e (FFindInMap (VStr ms) (VStr s1) (VStr s2)) = Ok leaf.
Proof.
  exact (fun e ms s1 s2 top snd_ leaf Hm K1 K2 => resolve_find_in_map_key_text e _ _ _ ms s1 s2 top snd_ leaf
           (resolve_plain e ms Hm) (resolve_key_text e s1 K1) (resolve_key_text e s2 K2)).
Qed.
Print Assumptions C01_findinmap_boolean_key.
Theorem C01_findinmap_boolean_key_ref : forall e ms p s1 s2 top snd_ leaf,
  plain_text ms = true -> plain_text p = true -> lookup p (params e) = Some (VStr s1) -> ssm_key s1 = None -> ssm_key s2 = None ->
  lookup ms (mappings e) = Some (VDict top) -> lookup s1 top = Some (VDict snd_) -> lookup s2 snd_ = Some leaf -> leaf <> VNull ->
  (is_boolish s1 = true -> only_spelling s1 top) -> (is_boolish s2 = true -> only_spelling s2 snd_) ->
  resolve e (FFindInMap (VStr ms) (FRef (VStr p)) (VStr s2)) = Ok leaf.
Proof.
  exact (fun e ms p s1 s2 top snd_ leaf Hm Hp Lp K1 K2 => resolve_find_in_map_key_text e _ _ _ ms s1 s2 top snd_ leaf
           (resolve_plain e ms Hm) (resolve_ref_key_text e p s1 Hp Lp K1) (resolve_key_text e s2 K2)).
Qed.
Print Assumptions C01_findinmap_boolean_key_ref.
(* the witness: Mappings {M: {True: {k: yes}, a: ...}}, P = "True": the key "True", literal or through Ref P, finds "yes"; every
   hypothesis of the two theorems holds on it *)
Example C01_ex_findinmap_boolean_key :
  lookup [77] (mappings e_map) = Some (VDict [(s_True, VDict [([107], VStr [121;101;115])]);
                                              ([97], VDict [([84], VStr s_True); ([110], VInt 0); ([102], VBool false)])]) /\
  only_spelling s_True [(s_True, VDict [([107], VStr [121;101;115])]);
                        ([97], VDict [([84], VStr s_True); ([110], VInt 0); ([102], VBool false)])] /\
  lookup [80] (params e_map) = Some (VStr s_True) /\
  mapping_leaf e_map [77] (lower s_True) [107] = Some (VStr [121;101;115]) /\
  key_text s_True = lower s_True /\ is_boolish s_True = true /\ plain_text [77] = true /\ plain_text [80] = true /\
  ssm_key s_True = None /\ ssm_key [107] = None /\ is_boolish [107] = false /\
  resolve e_map (FFindInMap (VStr [77]) (VStr s_True) (VStr [107])) = Ok (VStr [121;101;115]) /\
  resolve e_map (FFindInMap (VStr [77]) (FRef (VStr [80])) (VStr [107])) = Ok (VStr [121;101;115]).
Proof. split; [reflexivity|]. split; [exact e_map_only_spelling|]. split; [reflexivity|]. exact ex_find_in_map_boolean_key. Qed.
(* FALSE without [only_spelling].  [maps_two first second] = {M: {first: {k: no}, second: {k: yes}}}.  With TRUE, True the key "True"
   finds "no", the first spelling in dictionary order (lib: 'no'); with True, TRUE the keys "True" and "TRUE" both find "no", again
   the first entry; with TRUE, true the key "True" finds "yes": a key "true" present as such answers for itself *)
Theorem C01_findinmap_first_spelling_wins :
  let e12 := {| params := []; mappings := maps_two s_TRUE s_True; conds := fun _ => Ok false |} in
  let e21 := {| params := []; mappings := maps_two s_True s_TRUE; conds := fun _ => Ok false |} in
  let e3 := {| params := []; mappings := maps_two s_TRUE S_true; conds := fun _ => Ok false |} in
  resolve e12 (FFindInMap (VStr [77]) (VStr s_True) (VStr [107])) = Ok (VStr [110;111]) /\
  resolve e21 (FFindInMap (VStr [77]) (VStr s_True) (VStr [107])) = Ok (VStr [110;111]) /\
  resolve e21 (FFindInMap (VStr [77]) (VStr s_TRUE) (VStr [107])) = Ok (VStr [110;111]) /\
  resolve e3 (FFindInMap (VStr [77]) (VStr s_True) (VStr [107])) = Ok (VStr [121;101;115]).
Proof. vm_compute. repeat split. Qed.
Print Assumptions C01_findinmap_first_spelling_wins.

(* Fn::Base64 *)
Theorem C01_base64_text : forall e b s, resolve e b = Ok (VStr s) -> resolve e (FBase64 b) = Ok (VStr (b64encode (utf8 s))).
Proof. exact (fun e b s H => resolve_FBase64 e b _ H). Qed.
Print Assumptions C01_base64_text.
(* a list, an object, null or a Python bool (from a condition function): declined (the library raises AttributeError) *)
Theorem C01_base64_non_text : forall e b r,
  resolve e b = Ok r -> (forall s, r <> VStr s) -> resolve e (FBase64 b) = Err EUndefined.
Proof. intros e b r H Hn. rewrite (resolve_FBase64 e b r H). destruct r; try reflexivity. exfalso. eapply Hn. reflexivity. Qed.
Print Assumptions C01_base64_non_text.
(* the encoder is inverted by the model of Python's base64.b64decode (Robust/Validators.v) on every byte string *)
Theorem C01_b64_roundtrip : forall bs, Forall (fun b => b < 256) bs -> b64decode (b64encode bs) = Some bs.
Proof. exact b64_roundtrip. Qed.
Print Assumptions C01_b64_roundtrip.
Theorem C01_base64_roundtrip : forall e b s, Forall (fun c => c < 1114112) s -> resolve e b = Ok (VStr s) ->
  exists t, resolve e (FBase64 b) = Ok (VStr t) /\ b64decode t = Some (utf8 s).
Proof.
  intros e b s Hs Hb.
  exists (b64encode (utf8 s)). split; [exact (resolve_FBase64 e b _ Hb)|].
  apply b64_roundtrip, utf8_bytes. exact Hs.
Qed.
Print Assumptions C01_base64_roundtrip.
(* base64("a<e-acute>") = "YcOp"; of the number 1 = base64("1") = "MQ=="; of a list: declined *)
Example C01_ex_base64 :
  resolve e1 (FBase64 (VStr [97;233])) = Ok (VStr [89;99;79;112]) /\ b64decode [89;99;79;112] = Some (utf8 [97;233]) /\
  resolve e1 (FBase64 (VInt 1)) = Ok (VStr [77;81;61;61]) /\
  resolve e1 (FBase64 (VList [VStr [97]])) = Err EUndefined.
Proof. vm_compute. repeat split. Qed.

(* Composition *)
(* [Cong e a b] (FnAlgebra.v): b is a with any number of sub-expressions, at positions whose value is obtained by resolving
   them, replaced by expressions with the same resolution.  Such a replacement does not change the result. *)
Theorem C01_congruence : forall e a b, Cong e a b -> resolve e a = resolve e b.
Proof.
  (* the list motive carries the three loops that consume a member list (rlist: lists, rall: Fn::And, rany: Fn::Or); the object
     motive carries the keys, because the keys decide whether the object is a function object *)
  intros e. apply (Cong_mut e (fun a b _ => resolve e a = resolve e b)
    (fun l l' _ => rlist e l = rlist e l' /\ rall e l = rall e l' /\ rany e l = rany e l')
    (fun d d' _ => rdict e d = rdict e d' /\ map fst d = map fst d')).
  - intros a b H. exact H.
  - intros l l' _ (H & _ & _). rewrite !resolve_list, H. reflexivity.
  - intros d d' Hf _ (H & Hk).
    rewrite (resolve_dict_generic e d Hf), (resolve_dict_generic e d') by (rewrite <- (is_fn_dict_keys d d' Hk); exact Hf).
    rewrite H. reflexivity.
  - intros k b b' Hk _ IH. destruct Hk as [-> | [-> | ->]].
    + rewrite !resolve_ref, IH. reflexivity.
    + rewrite !resolve_import, IH. reflexivity.
    + rewrite !resolve_base64, IH. reflexivity.
  - intros d d' l l' _ IH1 _ IH2. unfold FJoin. rewrite !resolve_join, IH1, IH2. reflexivity.
  - intros d d' s s' _ IH1 _ IH2. unfold FSplit. rewrite !resolve_split, IH1, IH2. reflexivity.
  - intros i i' l l' _ IH1 _ IH2. unfold FSelect. rewrite !resolve_select, IH1, IH2. reflexivity.
  - intros m m' k1 k1' k2 k2' _ IH1 _ IH2 _ IH3. unfold FFindInMap. rewrite !resolve_find_in_map, IH1, IH2, IH3. reflexivity.
  - intros text vars vars' _ IH. unfold FSubV. rewrite !resolve_sub_vars, IH. reflexivity.
  - intros c t t' f f' _ IH1 _ IH2. rewrite !resolve_if, IH1, IH2. reflexivity.
  - intros parts parts' _ (_ & H & _). rewrite !resolve_and, H. reflexivity.
  - intros parts parts' _ (_ & _ & H). rewrite !resolve_or, H. reflexivity.
  - intros x x' rest rest' _ IH. rewrite !resolve_not, IH. reflexivity.
  - intros a a' b b' _ IH1 _ IH2. rewrite !resolve_equals, IH1, IH2. reflexivity.
  - repeat split; reflexivity.
  - intros x x' xs xs' _ IH _ (H1 & H2 & H3). cbn [rlist rall rany]. fold (rlist e) (rall e) (rany e).
    rewrite IH, H1, H2, H3. repeat split; reflexivity.
  - split; reflexivity.
  - intros k x x' xs xs' _ IH _ (H1 & H2). cbn [rdict map fst]. fold (rdict e). rewrite IH, H1, H2. split; reflexivity.
Qed.
Print Assumptions C01_congruence.
(* resolving in place: a sub-expression may be replaced by its own value when that value is rendered and function-free
   (then it is a fixed point: C03_fixed_point) *)
Theorem C01_resolved_value_in_place : forall e f r,
  resolve e f = Ok r -> no_fn_dict r = true -> rendered (params e) r = true -> Cong e f r.
Proof. intros e f r Hf Hn Hr. apply Cg_same. rewrite Hf. symmetry. apply rendered_fixed_point; assumption. Qed.
Print Assumptions C01_resolved_value_in_place.
(* ctx1 h = {"k": [Join ["-", [h, "x"]], "y"]}: Ref A replaced by Sub "${A}" and by its value "1" *)
Example C01_ex_congruence :
  Cong e1 (ctx1 (FRef (VStr [65]))) (ctx1 (FSub (ph [65]))) /\ Cong e1 (ctx1 (FRef (VStr [65]))) (ctx1 (VStr [49])) /\
  resolve e1 (ctx1 (FRef (VStr [65]))) = Ok (VDict [([107], VList [VStr [49;45;120]; VStr [121]])]) /\
  resolve e1 (ctx1 (VStr [49])) = Ok (VDict [([107], VList [VStr [49;45;120]; VStr [121]])]).
Proof.
  split; [apply ctx1_cong; apply Cg_same; vm_compute; reflexivity|].
  split; [apply ctx1_cong; apply C01_resolved_value_in_place; vm_compute; reflexivity | split; vm_compute; reflexivity].
Qed.
(* FALSE without "rendered": Join ["", ["TR","UE"]] = "TRUE"; inside Join ["-", [_, "x"]] it gives "TRUE-x", the literal "TRUE" gives "true-x"
   (the literal is lower-cased; F20) *)
Theorem C01_in_place_refuted : exists f r,
  resolve e_nil f = Ok r /\
  resolve e_nil (FJoin (VStr [45]) (VList [f; VStr [120]])) <> resolve e_nil (FJoin (VStr [45]) (VList [r; VStr [120]])).
Proof.
  exists (FJoin (VStr []) (VList [VStr [84;82]; VStr [85;69]])), (VStr [84;82;85;69]).
  split; [vm_compute; reflexivity | vm_compute; discriminate].
Qed.
Print Assumptions C01_in_place_refuted.
(* FALSE at the positions read as SYNTAX (the Fn::Sub text, the argument list of Fn::Join, the condition name of Fn::If):
   same resolved value, different result (lib: TypeError / ValueError on the replaced forms) *)
Theorem C01_congruence_syntax_refuted :
  (exists a b, resolve e_nil a = resolve e_nil b /\
     resolve e_nil (VDict [(K_Sub, VList [a; VDict []])]) <> resolve e_nil (VDict [(K_Sub, VList [b; VDict []])])) /\
  (exists a b, resolve e_nil a = resolve e_nil b /\
     resolve e_nil (VDict [(K_Join, a)]) <> resolve e_nil (VDict [(K_Join, b)])) /\
  (exists a b, resolve e_nil a = resolve e_nil b /\
     resolve e_nil (VDict [(K_If, VList [a; VStr [116]; VStr [102]])]) <> resolve e_nil (VDict [(K_If, VList [b; VStr [116]; VStr [102]])])).
Proof.
  split; [|split].
  - exists (VStr [120]), (FJoin (VStr []) (VList [VStr [120]])). split; [vm_compute; reflexivity | vm_compute; discriminate].
  - exists (VList [VStr [45]; VList [VStr [120]; VStr [121]]]), (VList [VStr [45]; VList [VStr [120]; VStr [121]]; VStr S_NOVALUE]).
    split; [vm_compute; reflexivity | vm_compute; discriminate].
  - exists (VStr [99]), (FJoin (VStr []) (VList [VStr [99]])). split; [vm_compute; reflexivity | vm_compute; discriminate].
Qed.
Print Assumptions C01_congruence_syntax_refuted.

(* Rendering *)
(* a text is returned as it is, except: any capitalisation of true / false is lower-cased, and a text that STARTS with an SSM
   reference {{resolve:ssm:NAME:VERSION}} is replaced by the non-empty text bound to NAME:VERSION (else UNDEFINED_PARAM_NAME:VERSION) *)
Theorem C01_render_cases : forall ps s,
  render_str ps s =
  match ssm_key s with
  | Some key => match lookup key ps with Some (VStr (c :: r)) => c :: r | _ => undefined_param key end
  | None => if str_eqb (lower s) S_true || str_eqb (lower s) S_false then lower s else s
  end.
Proof. intros ps s. reflexivity. Qed.
Print Assumptions C01_render_cases.
Theorem C01_render_other : forall ps s, ssm_key s = None -> lower s <> S_true -> lower s <> S_false -> render_str ps s = s.
Proof.
  intros ps s Hk H1 H2.
  unfold render_str, is_boolish. rewrite Hk.
  apply str_eqb_neq in H1, H2. rewrite H1, H2. reflexivity.
Qed.
Print Assumptions C01_render_other.
Theorem C01_render_boolean : forall ps s, ssm_key s = None -> lower s = S_true \/ lower s = S_false -> render_str ps s = lower s.
Proof.
  intros ps s Hk Hb.
  unfold render_str, is_boolish. rewrite Hk.
  destruct Hb as [-> | ->]; reflexivity.
Qed.
Print Assumptions C01_render_boolean.
(* rendering a parameter value twice is rendering it once -- when the texts an SSM reference can fetch are themselves rendered
   ([ssm_values_fixed]), typed atoms have rendered texts ([atoms_fixed]) and pruning AWS::NoValue left no function object *)
Theorem C01_render_idempotent : forall ps v r, ssm_values_fixed ps -> atoms_fixed ps v = true ->
  normalize ps v = Ok r -> no_fn_dict r = true -> normalize ps r = Ok r.
Proof. intros ps v r Hs Ha Hv Hn. apply normalize_fixed; [exact Hn | exact (normalize_rendered ps Hs v r Ha Hv)]. Qed.
Print Assumptions C01_render_idempotent.
Example C01_ex_render_idempotent :
  let v := VList [VStr [97]; VStr [84;82;85;69]; VInt 1; VBool true] in
  ssm_values_fixed (params e1) /\ atoms_fixed (params e1) v = true /\
  normalize (params e1) v = Ok (VList [VStr [97]; VStr S_true; VStr [49]; VStr S_true]) /\
  no_fn_dict (VList [VStr [97]; VStr S_true; VStr [49]; VStr S_true]) = true.
Proof. cbv zeta. split; [apply params_rendered_ssm; vm_compute; reflexivity|]. vm_compute. repeat split. Qed.
(* FALSE without the hypothesis on SSM values: "{{resolve:ssm:/p:1}}" with /p:1 = "TRUE" renders to "TRUE", which renders to
   "true" (lib: 'TRUE' then 'true') *)
Theorem C01_render_idempotent_refuted : exists ps s,
  render_str ps (render_str ps s) <> render_str ps s /\
  exists r r2, normalize ps (VStr s) = Ok r /\ normalize ps r = Ok r2 /\ r2 <> r.
Proof.
  exists ps_ssm_TRUE, (S_SSM_PREFIX ++ [47;112;58;49;125;125]). split; [vm_compute; discriminate|].
  exists (VStr [84;82;85;69]), (VStr [116;114;117;101]). repeat split; try (vm_compute; reflexivity). discriminate.
Qed.
Print Assumptions C01_render_idempotent_refuted.
(* 1 and "1" alike, true / "True" / "TRUE" alike, 1 and true apart *)
Theorem C01_render_identifications : forall ps,
  normalize ps (VInt 1) = normalize ps (VStr [49]) /\
  normalize ps (VBool true) = normalize ps (VStr s_True) /\
  normalize ps (VBool true) = normalize ps (VStr [84;82;85;69]) /\
  normalize ps (VInt 1) <> normalize ps (VBool true) /\
  normalize ps (VInt 0) <> normalize ps (VBool false).
Proof. intros ps. repeat split; try reflexivity; discriminate. Qed.
Print Assumptions C01_render_identifications.
