(* C07 -- Resolution is local and independent of declaration order.
   The theorems of the property, in three parts, each proved from the lemmas of Resolver/: locality and the order of declarations
   (Spec, Ext, CondFacts, ParamFacts, CondAlgebra); the order of the keys inside objects (PermFacts); unused parameters, mappings
   and conditions (Trace). *)
From Coq Require Import List Bool NArith ZArith Permutation.
From PV Require Import Base.Str Base.Value Resolver.Consts Resolver.Text Resolver.Resolve Resolver.Spec Resolver.Ext
  Resolver.Template Resolver.CondFacts Resolver.ParamFacts Resolver.LocalFacts Resolver.PermFacts Resolver.Trace.
From PV Require Base.ListFacts Resolver.CondAlgebra.
Import ListNotations.
Local Open Scope N_scope.

(* the resolved form of a resource depends only on its own definition and on the environment: it is present iff its gate is
   open, and then it is [resolve_resource e] (resolution, literal Type kept) of its own definition -- whatever other resources exist *)
Theorem C07_resource_local : forall e resolved rs rs', resolve_resources e resolved rs = Ok rs' -> NoDup (keys rs) ->
  forall id,
    match lookup id rs with
    | None => lookup id rs' = None
    | Some r =>
        match gate resolved r with
        | Ok true => exists r', resolve_resource e r = Ok r' /\ lookup id rs' = Some r'
        | Ok false => lookup id rs' = None
        | Err _ => False
        end
    end.
Proof. exact resolve_resources_spec. Qed.
Print Assumptions C07_resource_local.

(* reordering the Resources section: same success, same resolved resources *)
Theorem C07_resources_perm : forall e resolved rs rs2 out,
  Permutation rs rs2 -> NoDup (keys rs) -> resolve_resources e resolved rs = Ok out ->
  exists out2, resolve_resources e resolved rs2 = Ok out2 /\ same_lookups out out2.
Proof.
  intros e resolved rs rs2 out Hp Hnd H.
  pose proof (resolve_resources_permutation e resolved rs rs2 Hp) as R. rewrite H in R.
  destruct (resolve_resources e resolved rs2) as [out2|]; [|contradiction]. exists out2. split; [reflexivity|].
  intros id. apply lookup_Permutation; [|exact R].
  rewrite (CondAlgebra.resolve_resources_keys _ _ _ _ H). exact (ListFacts.NoDup_map_filter fst _ rs Hnd).
Qed.
Print Assumptions C07_resources_perm.

(* removing every other resource does not change the one that is kept *)
Theorem C07_restrict : forall e resolved rs out id r,
  NoDup (keys rs) -> resolve_resources e resolved rs = Ok out -> lookup id rs = Some r ->
  exists out1, resolve_resources e resolved [(id, r)] = Ok out1 /\ lookup id out1 = lookup id out.
Proof.
  intros e resolved rs out id r Hnd H Hl.
  pose proof (resolve_resources_spec e resolved rs out H Hnd id) as S. rewrite Hl in S.
  simpl. destruct (gate resolved r) as [[|]|]; try contradiction; simpl.
  - destruct S as (r' & Hr & L). rewrite Hr. simpl. eexists; split; [reflexivity|]. simpl. rewrite str_eqb_refl. congruence.
  - eexists; split; [reflexivity|]. simpl. congruence.
Qed.
Print Assumptions C07_restrict.

(* resolution sees parameters, mappings and conditions only through lookups: any two environments with the same
   lookups (e.g. reordered sections) give the same result for EVERY expression *)
Theorem C07_env_lookups_only : forall e e' v, env_eq e e' -> resolve e v = resolve e' v.
Proof. exact resolve_env_eq. Qed.
Print Assumptions C07_env_lookups_only.

(* reordering Parameters, the caller's extra_params or the pseudo-parameter table gives a parameter map with the same lookups *)
Theorem C07_params_perm : forall pseudo pseudo' decls decls' extra extra' ps,
  Permutation pseudo pseudo' -> NoDup (keys pseudo) ->
  Permutation decls decls' -> NoDup (keys decls) ->
  Permutation extra extra' -> NoDup (keys extra) ->
  bind_params pseudo decls extra = Ok ps ->
  exists ps', bind_params pseudo' decls' extra' = Ok ps' /\ same_lookups ps ps'.
Proof.
  intros pseudo pseudo' decls decls' extra extra' ps Hpp Hnp Hpd Hnd Hpe Hne H.
  assert (Hok : exists a', bind_declared decls' extra' = Ok a').
  { apply bind_declared_ok_iff. eapply Permutation_Forall; [exact Hpd|]. unfold bind_params in H. bind_inv.
    apply bind_declared_ok_iff. rewrite <- (bind_declared_ext decls extra extra')
      by (intros k d _; unfold supplied; rewrite (lookup_Permutation k extra extra' Hne Hpe); reflexivity).
    eexists; exact E. }
  destruct Hok as [a' Ha']. assert (H' : exists ps', bind_params pseudo' decls' extra' = Ok ps').
  { unfold bind_params. rewrite Ha'. eexists; reflexivity. }
  destruct H' as [ps' H']. exists ps'. split; [exact H'|]. intros k.
  rewrite (bind_params_precedence pseudo decls extra ps H Hnd k),
    (bind_params_precedence pseudo' decls' extra' ps' H' (NoDup_keys_Permutation decls decls' Hpd Hnd) k).
  unfold supplied. rewrite (lookup_Permutation k decls decls' Hnd Hpd), (lookup_Permutation k extra extra' Hne Hpe),
    (lookup_Permutation k pseudo pseudo' Hnp Hpp). reflexivity.
Qed.
Print Assumptions C07_params_perm.

(* a condition's value does not depend on where it is declared, nor on the order of parameters and mappings *)
Theorem C07_condition_position_free : forall ps ps' maps maps' decl decl' fuel rem rem' n,
  same_lookups ps ps' -> same_lookups maps maps' -> same_lookups decl decl' -> same_members rem rem' ->
  cond_val ps maps decl fuel rem n = cond_val ps' maps' decl' fuel rem' n.
Proof. intros. apply cond_val_ext_env; assumption. Qed.
Print Assumptions C07_condition_position_free.
Theorem C07_conditions_perm : forall ps maps decl decl' n, Permutation decl decl' -> NoDup (keys decl) ->
  cond_root ps maps decl n = cond_root ps maps decl' n.
Proof. exact cond_root_perm. Qed.
Print Assumptions C07_conditions_perm.

(* a variable bound inside one Fn::Sub is visible only inside it: list members (and object members) are all resolved in the
   same, unchanged environment *)
Theorem C07_sub_scope : forall e x xs,
  rlist e (x :: xs) = (x' <- resolve e x ;; xs' <- rlist e xs ;; Ok (if is_novalue x' then xs' else x' :: xs')).
Proof. exact rlist_cons. Qed.
Print Assumptions C07_sub_scope.

(* witness: r1 = Fn::Sub ["${V}", {V: x, AWS::Region: hack}], r2 = Ref AWS::Region  -->  r2 is still "eu", the region of the environment *)
Definition REGION : str := [65;87;83;58;58;82;101;103;105;111;110].
Definition e1 : env := {| params := [(REGION, VStr [101;117])]; mappings := []; conds := fun _ => Ok false |}.
Example C07_ex_no_leak :
  resolve e1 (VList [VDict [(K_Sub, VList [VStr [36;123;86;125]; VDict [([86], VStr [120]); (REGION, VStr [104;97;99;107])]])];
                     VDict [(K_Ref, VStr REGION)]])
  = Ok (VList [VStr [120]; VStr [101;117]]).
Proof. vm_compute. reflexivity. Qed.

(* The order of the keys inside any object, at any depth, does not matter (Resolver/PermFacts.v).

   [vperm v w]     : v and w are the same value up to reordering the entries of objects at any depth (lists keep their
                     order, scalars are equal);
   [nodup_keys v]  : no object inside v has two entries with the same key (always true after json.load / for a Python dict);
   [env_nodup e]   : the same for the parameter values and the mappings of the environment;
   [maps_bk_unique maps] : no level of a mapping (its top-level keys; the second-level keys under each of them) holds two
                     spellings of the same boolean ("True" and "TRUE").  Fn::FindInMap finds a key spelled like a boolean by the
                     exact key first and else by the FIRST spelling in dictionary order (the library's `_mapping_get`,
                     repair F31), so with two spellings present the order decides: without this hypothesis the theorems
                     below that reach Fn::FindInMap are false (example [C07_ex_boolean_spellings_excluded]).
                     Nothing is asked of parameter values,
                     of the expression or of the mapping leaves;
   [rel_res R x y] : both [Ok] with R-related results, or both [Err].  The error KIND is not compared, and cannot be: when two
                     entries of one object both fail, the exception raised is the one of the entry met first
                     (example [C07_ex_error_kind_depends_on_order] below).
   [eperm e e']    : every parameter / mapping lookup gives [vperm]-related values, every condition reference the same
                     value (or an error in both).                                                                      *)

(* [vperm] is an equivalence relation, it contains every reordering of the entries of one object, it is a congruence for
   object entries and list members by definition; [vpermb] is a computable sufficient test for it *)
Theorem C07_vperm_equivalence :
  (forall v, vperm v v) /\ (forall v w, vperm v w -> vperm w v) /\ (forall a b c, vperm a b -> vperm b c -> vperm a c).
Proof. exact (conj vperm_refl (conj vperm_sym vperm_trans)). Qed.
Print Assumptions C07_vperm_equivalence.
Theorem C07_vperm_reorder_one_object : forall d d', Permutation d d' -> vperm (VDict d) (VDict d').
Proof. intros d d' H. apply vp_dict with (d' := d); [|exact H]. apply F2_refl_in. intros a _. split; [reflexivity | apply vperm_refl]. Qed.
Print Assumptions C07_vperm_reorder_one_object.
Theorem C07_vpermb_sound : forall a b, vpermb a b = true -> vperm a b.
Proof.
  intros a.
  induction a as [| x | x | x | k x | x | la IH | da IH] using value_ind';
    intros [| y | y | y | k' y | y | lb | db] H; try discriminate; simpl in H.
  - constructor.
  - apply Bool.eqb_prop in H. subst. constructor.
  - apply Z.eqb_eq in H. subst. constructor.
  - apply str_eqb_spec in H. subst. constructor.
  - apply andb_true_iff in H. destruct H as [H1 H2]. apply tkind_eqb_true in H1. apply str_eqb_spec in H2. subst. constructor.
  - apply str_eqb_spec in H. subst. constructor.
  - constructor. revert lb H. induction IH as [|x xs Hx _ IHl]; intros [|y ys] H; try discriminate; constructor;
      apply andb_true_iff in H; [apply Hx | apply IHl]; tauto.
  - assert (Hex : exists d', Forall2 (erel vperm) da d' /\ Permutation d' db).
    { revert db H. induction IH as [|[k x] xs Hx _ IHd]; intros db H.
      - destruct db; [|discriminate]. exists []. split; constructor.
      - destruct (extract k db) as [[y rest]|] eqn:Ex; [|discriminate].
        apply andb_true_iff in H. destruct H as [H1 H2]. destruct (IHd rest H2) as (d' & HF & HP).
        exists ((k, y) :: d'). split.
        + constructor; [split; [reflexivity | exact (Hx y H1)] | exact HF].
        + eapply Permutation_trans; [constructor; exact HP | apply extract_perm; exact Ex]. }
    destruct Hex as (d' & HF & HP). exact (vp_dict _ _ _ HF HP).
Qed.
Print Assumptions C07_vpermb_sound.
Theorem C07_vperm_keeps_nodup : forall v w, vperm v w -> nodup_keys v -> nodup_keys w.
Proof.
  apply (vperm_ind' (fun v w => nodup_keys v -> nodup_keys w)).
  - intros v _ H. exact H.
  - intros l l' _ IH Hn. apply nodup_list_iff. apply Forall_forall. intros y Hy.
    destruct (ListFacts.Forall2_In_r _ _ _ _ IH Hy) as (x & Hx & Hxy). exact (Hxy (nodup_in_list l x Hn Hx)).
  - intros d d' d'' HF IH HP Hn. apply nodup_dict_iff. apply nodup_dict_iff in Hn. destruct Hn as [Hk Hv]. split.
    + apply (NoDup_keys_Permutation d' d'' HP). rewrite <- (erel_keys _ _ _ HF). exact Hk.
    + apply Forall_forall. intros y Hy. apply Permutation_sym in HP. pose proof (Permutation_in _ HP Hy) as Hy'.
      destruct (ListFacts.Forall2_In_r _ _ _ _ IH Hy') as (x & Hx & _ & Hxy). rewrite Forall_forall in Hv. exact (Hxy (Hv _ Hx)).
Qed.
Print Assumptions C07_vperm_keeps_nodup.

(* THE THEOREM (one environment): reordering the keys of any objects of an expression, at any depth -- including the
   variable map of a Fn::Sub -- changes neither whether resolution succeeds nor, up to key order, its result *)
Theorem C07_object_keys_perm : forall e v w, env_nodup e -> maps_bk_unique (mappings e) -> vperm v w -> nodup_keys v ->
  rel_res vperm (resolve e v) (resolve e w).
Proof. intros e v w. apply resolve_vperm_env. apply eperm_refl. Qed.
Print Assumptions C07_object_keys_perm.

(* ... and the keys inside parameter values and inside Mappings may be reordered at the same time *)
Theorem C07_object_keys_perm_env : forall e e' v w, eperm e e' -> env_nodup e -> maps_bk_unique (mappings e) ->
  vperm v w -> nodup_keys v ->
  rel_res vperm (resolve e v) (resolve e' w).
Proof. exact resolve_vperm_env. Qed.
Print Assumptions C07_object_keys_perm_env.

(* the same, read off: success is preserved with a [vperm]-related result; failure is preserved; a result that contains no
   object (a string, a list of strings, ...) is preserved exactly *)
Theorem C07_object_keys_perm_ok : forall e e' v w r, eperm e e' -> env_nodup e -> maps_bk_unique (mappings e) ->
  vperm v w -> nodup_keys v ->
  resolve e v = Ok r -> exists r', resolve e' w = Ok r' /\ vperm r r'.
Proof.
  intros e e' v w r He Hne Hbk Hvw Hnv H.
  pose proof (resolve_vperm_env e e' v w He Hne Hbk Hvw Hnv) as R. rewrite H in R.
  destruct (resolve e' w) as [r'|]; simpl in R; [eauto | contradiction].
Qed.
Print Assumptions C07_object_keys_perm_ok.
Theorem C07_object_keys_perm_same_success : forall e e' v w, eperm e e' -> env_nodup e -> maps_bk_unique (mappings e) ->
  vperm v w -> nodup_keys v ->
  is_ok (resolve e v) = is_ok (resolve e' w).
Proof. intros e e' v w He Hne Hbk Hvw Hnv. eapply rel_res_is_ok. apply resolve_vperm_env; assumption. Qed.
Print Assumptions C07_object_keys_perm_same_success.
Theorem C07_object_keys_perm_flat_result : forall e e' v w r, eperm e e' -> env_nodup e -> maps_bk_unique (mappings e) ->
  vperm v w -> nodup_keys v ->
  resolve e v = Ok r -> no_dict r = true -> resolve e' w = Ok r.
Proof.
  intros e e' v w r He Hne Hbk Hvw Hnv H Hd.
  destruct (C07_object_keys_perm_ok e e' v w r He Hne Hbk Hvw Hnv H) as (r' & H' & Hr).
  rewrite H'. f_equal. symmetry. apply (vperm_no_dict _ _ Hr Hd).
Qed.
Print Assumptions C07_object_keys_perm_flat_result.

(* resolution never creates duplicate keys (so the hypotheses above are stable under resolving again) *)
Theorem C07_resolve_keeps_nodup : forall e v r, env_nodup e -> nodup_keys v -> resolve e v = Ok r -> nodup_keys r.
Proof. exact resolve_nodup. Qed.
Print Assumptions C07_resolve_keeps_nodup.

(* Fn::Equals compares with Python's ==, which ignores the order of keys: the model's [py_eq] gives the same answer on the
   whole [vperm] class of each argument (unique keys are needed in the second argument only, the one that is looked up in) *)
Theorem C07_equals_ignores_key_order : forall a a' b b', vperm a a' -> vperm b b' -> nodup_keys b -> py_eq a b = py_eq a' b'.
Proof. exact py_eq_vperm. Qed.
Print Assumptions C07_equals_ignores_key_order.
(* the Fn::Sub variable map is an object: only its lookups matter *)
Theorem C07_sub_map_keys_perm : forall e e' text custom custom', eperm e e' -> lookups_perm custom custom' ->
  rel_res vperm (do_sub e text custom) (do_sub e' text custom').
Proof. exact do_sub_vperm. Qed.
Print Assumptions C07_sub_map_keys_perm.
Theorem C07_object_lookup_keys_perm : forall d d', vperm (VDict d) (VDict d') -> NoDup (keys d) -> lookups_perm d d'.
Proof. exact vperm_lookup. Qed.
Print Assumptions C07_object_lookup_keys_perm.

(* template level.  Permuting the keys inside a resource's definition: the gate is unchanged ... *)
Theorem C07_resource_keys_perm_gate : forall resolved r w, vperm r w -> nodup_keys r -> gate resolved r = gate resolved w.
Proof. exact gate_vperm. Qed.
Print Assumptions C07_resource_keys_perm_gate.
(* ... and the resolved resource (resolution + literal Type put back) is the same up to key order *)
Theorem C07_resource_keys_perm : forall e e' r w, eperm e e' -> env_nodup e -> maps_bk_unique (mappings e) ->
  vperm r w -> nodup_keys r ->
  rel_res vperm (resolve_resource e r) (resolve_resource e' w).
Proof. exact resolve_resource_vperm. Qed.
Print Assumptions C07_resource_keys_perm.
(* the Resources section as one object: resources reordered AND keys permuted inside them *)
Theorem C07_resources_keys_perm : forall e e' resolved rs rs', eperm e e' -> env_nodup e -> maps_bk_unique (mappings e) ->
  vperm (VDict rs) (VDict rs') -> Forall (fun kv => nodup_keys (snd kv)) rs ->
  rel_res (fun a b => vperm (VDict a) (VDict b)) (resolve_resources e resolved rs) (resolve_resources e' resolved rs').
Proof.
  intros e e' resolved rs rs' He Hne Hbk H Hn.
  destruct (vperm_dict_inv _ _ H) as (r1 & r2 & Heq & HF & HP). inv Heq.
  pose proof (resolve_resources_F2 e e' resolved rs r1 He Hne Hbk HF Hn) as H1.
  pose proof (resolve_resources_permutation e' resolved r1 r2 HP) as H2.
  destruct (resolve_resources e resolved rs) as [x|], (resolve_resources e' resolved r1) as [y|],
    (resolve_resources e' resolved r2) as [z|]; simpl in *; try contradiction; try exact I.
  exact (vp_dict _ _ _ H1 H2).
Qed.
Print Assumptions C07_resources_keys_perm.
(* condition values: keys permuted inside the declared expressions, the parameter values, the mappings; declarations reordered *)
Theorem C07_condition_keys_perm : forall ps ps' maps maps' decl decl' n,
  lookups_perm ps ps' -> lookups_perm maps maps' -> vperm (VDict decl) (VDict decl') ->
  (forall k x, lookup k ps = Some x -> nodup_keys x) -> (forall k x, lookup k maps = Some x -> nodup_keys x) ->
  maps_bk_unique maps ->
  nodup_keys (VDict decl) ->
  rel_res eq (cond_root ps maps decl n) (cond_root ps' maps' decl' n).
Proof.
  intros ps ps' maps maps' decl decl' n Hp Hm Hd Hnp Hnm Hbk Hnd.
  unfold cond_root. rewrite <- (vperm_dict_length _ _ Hd).
  apply cond_val_vperm; try assumption.
  - apply vperm_lookup; [exact Hd | apply nodup_dict_keys; exact Hnd].
  - intros k x Hl. eapply nodup_lookup; eassumption.
  - destruct (vperm_dict_inv _ _ Hd) as (d1 & d2 & Heq & HF & HP). inv Heq.
    rewrite (erel_keys _ _ _ HF). apply keys_perm_members. exact HP.
Qed.
Print Assumptions C07_condition_keys_perm.
(* the whole resolved model, for the same Parameters: Mappings, Conditions and Resources each replaced by a [vperm]-related
   section (sections reordered, keys permuted at any depth inside them) *)
Theorem C07_model_keys_perm : forall pseudo decls extra maps maps' cdecl cdecl' rs rs',
  (forall ps, bind_params pseudo decls extra = Ok ps -> forall k x, lookup k ps = Some x -> nodup_keys x) ->
  lookups_perm maps maps' -> (forall k x, lookup k maps = Some x -> nodup_keys x) -> maps_bk_unique maps ->
  vperm (VDict cdecl) (VDict cdecl') -> nodup_keys (VDict cdecl) ->
  vperm (VDict rs) (VDict rs') -> Forall (fun kv => nodup_keys (snd kv)) rs ->
  rel_res vperm (resolve_model pseudo decls extra maps cdecl rs) (resolve_model pseudo decls extra maps' cdecl' rs').
Proof.
  intros pseudo decls extra maps maps' cdecl cdecl' rs rs' Hnp Hm Hnm Hbk Hc Hnc Hr Hnr.
  unfold resolve_model.
  destruct (bind_params pseudo decls extra) as [ps|] eqn:Eps; simpl; [|exact I]. specialize (Hnp ps eq_refl).
  eapply rel_bind with (R := @Permutation _).
  - (* the two lists of condition values are a reordering of each other: change declarations and mappings under the same
       names (H1), then reorder the names (H2) *)
    assert (H1 : rel_res eq (cond_all ps maps cdecl (keys cdecl)) (cond_all ps maps' cdecl' (keys cdecl))).
    { apply cond_all_rel. intros n. apply C07_condition_keys_perm; try assumption. apply lookups_perm_refl. }
    assert (H2 : rel_res (@Permutation _) (cond_all ps maps' cdecl' (keys cdecl)) (cond_all ps maps' cdecl' (keys cdecl'))).
    { apply cond_all_perm. destruct (vperm_dict_inv _ _ Hc) as (d1 & d2 & Heq & HF & HP). inv Heq.
      rewrite (erel_keys _ _ _ HF). apply (Permutation_map fst). exact HP. }
    destruct (cond_all ps maps cdecl (keys cdecl)) as [x|], (cond_all ps maps' cdecl' (keys cdecl)) as [y|],
      (cond_all ps maps' cdecl' (keys cdecl')) as [z|]; simpl in *; try contradiction; try exact I. subst y. exact H2.
  - (* a reordered list of condition values with unique names has the same lookups, which is all the resources see of it *)
    intros resolved resolved' E1 _ HPr.
    assert (Hsl : same_lookups resolved resolved').
    { intros k. apply lookup_Permutation; [|exact HPr]. rewrite (cond_all_keys _ _ _ _ _ E1). apply nodup_dict_keys. exact Hnc. }
    rewrite <- (resolve_resources_gate_ext _ resolved resolved' rs' Hsl).
    eapply rel_bind.
    + apply C07_resources_keys_perm; [|split; simpl; assumption | exact Hbk | exact Hr | exact Hnr].
      repeat split; simpl; [apply lookups_perm_refl | exact Hm|]. intros n. unfold conds_fun. rewrite (Hsl n). reflexivity.
    + intros x y _ _ Hxy. simpl.
      eapply vp_dict; [|apply Permutation_refl].
      constructor; [split; [reflexivity|]|constructor; [split; [reflexivity | exact Hxy]|constructor]].
      simpl. apply C07_vperm_reorder_one_object. apply Permutation_map. exact HPr.
Qed.
Print Assumptions C07_model_keys_perm.

(* examples:
   a = {"Name": {"Fn::Sub": ["${A}-${B}", {"A": "x", "B": {"Ref": "AWS::Region"}}]}, "Tags": {"k": "v", "l": [{"p": "1", "q": "2"}]}}
   b = {"Tags": {"l": [{"q": "2", "p": "1"}], "k": "v"}, "Name": {"Fn::Sub": ["${A}-${B}", {"B": {"Ref": "AWS::Region"}, "A": "x"}]}} *)
Definition s_Name : str := [78;97;109;101].
Definition s_Tags : str := [84;97;103;115].
Definition s_tmpl : str := [36;123;65;125;45;36;123;66;125].
Definition ex_a : value :=
  VDict [(s_Name, VDict [(K_Sub, VList [VStr s_tmpl; VDict [([65], VStr [120]); ([66], VDict [(K_Ref, VStr REGION)])]])]);
         (s_Tags, VDict [([107], VStr [118]); ([108], VList [VDict [([112], VStr [49]); ([113], VStr [50])]])])].
Definition ex_b : value :=
  VDict [(s_Tags, VDict [([108], VList [VDict [([113], VStr [50]); ([112], VStr [49])]]); ([107], VStr [118])]);
         (s_Name, VDict [(K_Sub, VList [VStr s_tmpl; VDict [([66], VDict [(K_Ref, VStr REGION)]); ([65], VStr [120])]])])].
Example C07_ex_keys_hypotheses : vpermb ex_a ex_b = true /\ nodup_keysb ex_a = true /\ nodup_keysb (VDict (params e1)) = true.
Proof. vm_compute. repeat split; reflexivity. Qed.
Example C07_ex_keys_resolved :
  resolve e1 ex_a = Ok (VDict [(s_Name, VStr [120;45;101;117]);
                               (s_Tags, VDict [([107], VStr [118]); ([108], VList [VDict [([112], VStr [49]); ([113], VStr [50])]])])]) /\
  resolve e1 ex_b = Ok (VDict [(s_Tags, VDict [([108], VList [VDict [([113], VStr [50]); ([112], VStr [49])]]); ([107], VStr [118])]);
                               (s_Name, VStr [120;45;101;117])]).
Proof. vm_compute. split; reflexivity. Qed.
(* the hypothesis [maps_bk_unique] holds of mappings without two spellings of one boolean -- one spelling ("True") is fine *)
Definition s_True : str := [84;114;117;101].
Definition s_TRUE : str := [84;82;85;69].
(* Mappings {"M": {"True": {"k": "yes"}, "a": {"false": "0", "b": "1"}}} *)
Definition e_bk : env :=
  {| params := [(REGION, VStr [101;117])];
     mappings := [([77], VDict [(s_True, VDict [([107], VStr [121;101;115])]);
                                ([97], VDict [(S_false, VStr [48]); ([98], VStr [49])])])];
     conds := fun _ => Ok false |}.
Example C07_ex_maps_bk_unique : maps_bk_unique (mappings e1) /\ maps_bk_unique (mappings e_bk) /\ env_nodup e_bk /\
  resolve e_bk (VDict [(K_FindInMap, VList [VStr [77]; VStr s_TRUE; VStr [107]])]) = Ok (VStr [121;101;115]).
Proof.
  split; [apply maps_bk_unique_forallb; vm_compute; reflexivity|]. split; [apply maps_bk_unique_forallb; vm_compute; reflexivity|].
  split; [|vm_compute; reflexivity]. split; intros k x H; simpl in H.
  - destruct (str_eqb k REGION); inv H. reflexivity.
  - destruct (str_eqb k [77]); inv H. vm_compute. reflexivity.
Qed.
(* why two spellings of one boolean in one mapping level are excluded (since the repair of F31): Fn::FindInMap with the key "True"
   (which reaches the lookup as "true") takes the FIRST spelling in dictionary order, in the library as in the model --
   Mappings {"M": {"TRUE": {"k": "no"}, "True": {"k": "yes"}}} gives "no", the same mapping written True-first gives "yes".
   All the other hypotheses of [C07_object_keys_perm_env] hold on this pair. *)
Definition ex_two_spellings (swap : bool) : env :=
  let a := (s_TRUE, VDict [([107], VStr [110;111])]) in let b := (s_True, VDict [([107], VStr [121;101;115])]) in
  {| params := []; mappings := [([77], VDict (if swap then [b; a] else [a; b]))]; conds := fun _ => Ok false |}.
Example C07_ex_boolean_spellings_excluded :
  let v := VDict [(K_FindInMap, VList [VStr [77]; VStr s_True; VStr [107]])] in
  eperm (ex_two_spellings false) (ex_two_spellings true) /\ env_nodup (ex_two_spellings false) /\ vperm v v /\ nodup_keys v /\
  resolve (ex_two_spellings false) v = Ok (VStr [110;111]) /\ resolve (ex_two_spellings true) v = Ok (VStr [121;101;115]) /\
  forallb (fun kv => map_bk_uniqueb (snd kv)) (mappings (ex_two_spellings false)) = false.
Proof.
  cbv zeta. split; [|split; [|split; [apply vperm_refl | vm_compute; repeat split]]].
  - split; [apply lookups_perm_refl|]. split; [|intros n; reflexivity].
    intros k. simpl. destruct (str_eqb k [77]); [|exact I]. apply C07_vpermb_sound. vm_compute. reflexivity.
  - split; intros k x H; simpl in H; [discriminate|]. destruct (str_eqb k [77]); inv H. vm_compute. reflexivity.
Qed.
(* why error kinds are not compared: {"a": {"Fn::Join": []}, "b": {"Ref": []}} raises ValueError, b-first raises TypeError *)
Example C07_ex_error_kind_depends_on_order :
  resolve e1 (VDict [([97], VDict [(K_Join, VList [])]); ([98], VDict [(K_Ref, VList [])])]) = Err EValue /\
  resolve e1 (VDict [([98], VDict [(K_Ref, VList [])]); ([97], VDict [(K_Join, VList [])])]) = Err EType.
Proof. vm_compute. split; reflexivity. Qed.
(* why unique keys are assumed: an association list with a repeated key is not a Python dict; the first entry wins *)
Example C07_ex_duplicate_keys_excluded :
  resolve e1 (VDict [(K_Sub, VList [VStr [36;123;86;125]; VDict [([86], VStr [120]); ([86], VStr [121])]])]) = Ok (VStr [120]) /\
  resolve e1 (VDict [(K_Sub, VList [VStr [36;123;86;125]; VDict [([86], VStr [121]); ([86], VStr [120])]])]) = Ok (VStr [121]) /\
  nodup_keysb (VDict [([86], VStr [120]); ([86], VStr [121])]) = false.
Proof. vm_compute. repeat split; reflexivity. Qed.

(* Adding unused parameters, mappings or conditions changes nothing (Resolver/Trace.v).

   "Unused" is SEMANTIC: a name is used iff the resolver actually looks it up.  [resolve_tr e v] is [resolve e v] together with
   the list of the environment accesses made on the way (also on runs that end in an exception):
     AParam k : lookup k (params e)   -- Ref / Fn::ImportValue, a Fn::Sub placeholder not bound by the expression's own map, the
                                         key of a {{resolve:ssm:NAME:VERSION}} string (in a leaf of the expression, of a
                                         parameter VALUE being inserted, of a Fn::Sub variable value);
     AMap m   : lookup m (mappings e) -- Fn::FindInMap;
     ACond n  : conds e n             -- Condition, Fn::If.
   [trace_of e v] abbreviates [snd (resolve_tr e v)].  [C07_env_lookups_only] above needs the same answer for EVERY key, so
   it does not speak about a template that gains a declaration; the theorems below do. *)

(* the instrumentation is faithful: the instrumented resolver returns what [resolve] returns *)
Theorem C07_trace_same_result : forall e v, fst (resolve_tr e v) = resolve e v.
Proof. exact resolve_tr_result. Qed.
Print Assumptions C07_trace_same_result.

(* THE FRAME THEOREM: two environments that answer alike every access made while resolving v in e give the same result (value
   or exception) -- and the same accesses, so "e' agrees with e on what e reads" is a symmetric relation *)
Theorem C07_unused_ext : forall e e' v,
  (forall k, In (AParam k) (snd (resolve_tr e v)) -> lookup k (params e) = lookup k (params e')) ->
  (forall m, In (AMap m) (snd (resolve_tr e v)) -> lookup m (mappings e) = lookup m (mappings e')) ->
  (forall n, In (ACond n) (snd (resolve_tr e v)) -> conds e n = conds e' n) ->
  resolve e' v = resolve e v /\ snd (resolve_tr e' v) = snd (resolve_tr e v).
Proof.
  intros e e' v Hp Hm Hc.
  assert (H : agree e e' (trace_of e v)) by (apply agree_split; auto).
  split; [apply resolve_frame | apply trace_frame]; exact H.
Qed.
Print Assumptions C07_unused_ext.

(* a new binding for a name that is never read: in front (where it would shadow an older binding of that name) ... *)
Theorem C07_add_unused_parameter : forall e v k x, ~ In (AParam k) (snd (resolve_tr e v)) ->
  resolve {| params := (k, x) :: params e; mappings := mappings e; conds := conds e |} v = resolve e v.
Proof. intros e v k x. exact (add_unused_parameter_anywhere e v k x [] (params e) eq_refl). Qed.
Print Assumptions C07_add_unused_parameter.
(* ... or anywhere in the parameter list *)
Theorem C07_add_unused_parameter_anywhere : forall e v k x l1 l2, params e = l1 ++ l2 -> ~ In (AParam k) (snd (resolve_tr e v)) ->
  resolve {| params := l1 ++ (k, x) :: l2; mappings := mappings e; conds := conds e |} v = resolve e v.
Proof. exact add_unused_parameter_anywhere. Qed.
Print Assumptions C07_add_unused_parameter_anywhere.
(* the converse: a binding that is never read can be deleted *)
Theorem C07_remove_unused_parameter : forall e v k x l1 l2, params e = l1 ++ (k, x) :: l2 -> ~ In (AParam k) (snd (resolve_tr e v)) ->
  resolve {| params := l1 ++ l2; mappings := mappings e; conds := conds e |} v = resolve e v.
Proof.
  intros e v k x l1 l2 Hps Hk.
  apply change_unread_parameters. intros k' Hk'. rewrite Hps. symmetry. apply lookup_insert.
  intros ->. contradiction.
Qed.
Print Assumptions C07_remove_unused_parameter.
(* most generally: ANY other parameter list that binds the names actually read to the same values *)
Theorem C07_change_unread_parameters : forall e ps' v,
  (forall k, In (AParam k) (snd (resolve_tr e v)) -> lookup k ps' = lookup k (params e)) ->
  resolve {| params := ps'; mappings := mappings e; conds := conds e |} v = resolve e v.
Proof. exact change_unread_parameters. Qed.
Print Assumptions C07_change_unread_parameters.

Theorem C07_add_unused_mapping : forall e v m x, ~ In (AMap m) (snd (resolve_tr e v)) ->
  resolve {| params := params e; mappings := (m, x) :: mappings e; conds := conds e |} v = resolve e v.
Proof. intros e v m x. exact (add_unused_mapping_anywhere e v m x [] (mappings e) eq_refl). Qed.
Print Assumptions C07_add_unused_mapping.
Theorem C07_add_unused_mapping_anywhere : forall e v m x l1 l2, mappings e = l1 ++ l2 -> ~ In (AMap m) (snd (resolve_tr e v)) ->
  resolve {| params := params e; mappings := l1 ++ (m, x) :: l2; conds := conds e |} v = resolve e v.
Proof. exact add_unused_mapping_anywhere. Qed.
Print Assumptions C07_add_unused_mapping_anywhere.

(* conditions reach the resolver as the function [conds]: a condition table that differs only on a name never asked about ... *)
Theorem C07_add_unused_condition : forall e v n b, ~ In (ACond n) (snd (resolve_tr e v)) ->
  resolve {| params := params e; mappings := mappings e; conds := fun m => if str_eqb m n then b else conds e m |} v = resolve e v.
Proof.
  intros e v n b Hn.
  apply change_unread_conditions. intros m Hm.
  destruct (str_eqb m n) eqn:E; [|reflexivity]. apply str_eqb_spec in E. subst. contradiction.
Qed.
Print Assumptions C07_add_unused_condition.
(* ... or on any set of names never asked about *)
Theorem C07_change_unread_conditions : forall e c' v,
  (forall n, In (ACond n) (snd (resolve_tr e v)) -> c' n = conds e n) ->
  resolve {| params := params e; mappings := mappings e; conds := c' |} v = resolve e v.
Proof. exact change_unread_conditions. Qed.
Print Assumptions C07_change_unread_conditions.

(* WHY the statement is semantic.  A name can be COMPUTED: {"Ref": {"Fn::Join": ["", ["a", "b"]]}} reads parameter "ab" although
   the text "ab" occurs in no string and no key of the expression ([mentions]); removing that parameter changes the result *)
Example C07_ex_computed_name :
  v_ab = VDict [(K_Ref, VDict [(K_Join, VList [VStr []; VList [VStr [97]; VStr [98]]])])] /\
  params e_ab = [([97; 98], VStr [120])] /\
  mentions [97; 98] v_ab = false /\
  snd (resolve_tr e_ab v_ab) = [AParam [97; 98]] /\
  resolve e_ab v_ab = Ok (VStr [120]) /\
  resolve {| params := []; mappings := mappings e_ab; conds := conds e_ab |} v_ab = Ok (VStr (undefined_param [97; 98])).
Proof. vm_compute. repeat split; reflexivity. Qed.

(* A SYNTACTIC sufficient condition, because users think syntactically.  It needs the fragment where names are not computed:
   [literal_names v] = every Ref / Fn::ImportValue body in v is a literal string that is rendered as itself (no {{resolve:ssm:..}},
   no spelling of true / false), every Fn::Sub is in string form; every other function takes any such arguments.
   [mentions k x] = the text k occurs inside some string leaf (or key) of x.
   In that fragment the parameter names read are string leaves of v, their SSM keys, their ${placeholders}, or SSM keys in the
   leaves of parameter values ... *)
Theorem C07_literal_names_read : forall e v k, literal_names v = true -> In (AParam k) (snd (resolve_tr e v)) ->
  In k (syn_names v) \/ In k (pv_names (params e)).
Proof. intros e v k Hl. apply syn_trace_sound_at, Hl. Qed.
Print Assumptions C07_literal_names_read.
(* ... hence: a text that occurs in no string of the expression and in no string of a parameter value is never read, and a
   parameter bound to that name changes nothing *)
Theorem C07_unmentioned_parameter_unused : forall e v k, literal_names v = true -> mentions k v = false ->
  (forall p x, In (p, x) (params e) -> mentions k x = false) -> ~ In (AParam k) (snd (resolve_tr e v)).
Proof.
  intros e v k Hl Hv Hp Hin.
  destruct (C07_literal_names_read e v k Hl Hin) as [G|G].
  - apply syn_names_mentions in G. congruence.
  - unfold pv_names in G. apply in_flat_map in G. destruct G as ([p x] & Hx & Hk). cbn [snd] in Hk.
    apply ssm_names_syn, syn_names_mentions in Hk. rewrite (Hp p x Hx) in Hk. discriminate.
Qed.
Print Assumptions C07_unmentioned_parameter_unused.
Theorem C07_add_unmentioned_parameter : forall e v k x, literal_names v = true -> mentions k v = false ->
  (forall p y, In (p, y) (params e) -> mentions k y = false) ->
  resolve {| params := (k, x) :: params e; mappings := mappings e; conds := conds e |} v = resolve e v.
Proof. intros e v k x Hl Hv Hp. apply C07_add_unused_parameter. apply C07_unmentioned_parameter_unused; assumption. Qed.
Print Assumptions C07_add_unmentioned_parameter.
(* the fragment is needed: the expression of [C07_ex_computed_name] is outside it; {"Fn::Sub": "${AWS::Region}-x"} is inside *)
Example C07_ex_literal_fragment :
  literal_names v_ab = false /\
  literal_names (VDict [(K_Sub, VStr [36;123;65;87;83;58;58;82;101;103;105;111;110;125;45;120])]) = true /\
  mentions REGION (VDict [(K_Sub, VStr [36;123;65;87;83;58;58;82;101;103;105;111;110;125;45;120])]) = true /\
  mentions [97; 98] (VDict [(K_Sub, VStr [36;123;65;87;83;58;58;82;101;103;105;111;110;125;45;120])]) = false.
Proof. vm_compute. repeat split; reflexivity. Qed.

(* resources: environments that agree on the accesses of the kept resources ([resources_trace]: gate open, until the first
   exception), and condition tables that agree on the names in the resources' "Condition" attributes *)
Theorem C07_resources_unused_ext : forall e e' resolved resolved' rs,
  (forall c, In c (gate_names rs) -> lookup c resolved = lookup c resolved') ->
  (forall k, In (AParam k) (resources_trace e resolved rs) -> lookup k (params e) = lookup k (params e')) ->
  (forall m, In (AMap m) (resources_trace e resolved rs) -> lookup m (mappings e) = lookup m (mappings e')) ->
  (forall n, In (ACond n) (resources_trace e resolved rs) -> conds e n = conds e' n) ->
  resolve_resources e' resolved' rs = resolve_resources e resolved rs.
Proof. intros e e' resolved resolved' rs Hg Hp Hm Hc. apply resolve_resources_frame; [exact Hg | apply agree_split; auto]. Qed.
Print Assumptions C07_resources_unused_ext.
(* one more resolved condition that gates no resource and that no kept resource asks about *)
Theorem C07_resources_add_unused_condition : forall ps maps resolved rs n b,
  ~ In n (gate_names rs) ->
  ~ In (ACond n) (resources_trace {| params := ps; mappings := maps; conds := conds_fun resolved |} resolved rs) ->
  resolve_resources {| params := ps; mappings := maps; conds := conds_fun ((n, b) :: resolved) |} ((n, b) :: resolved) rs =
  resolve_resources {| params := ps; mappings := maps; conds := conds_fun resolved |} resolved rs.
Proof.
  intros ps maps resolved rs n b Hg Hn.
  apply resolve_resources_frame.
  - intros c Hc. simpl. destruct (str_eqb c n) eqn:E; [|reflexivity]. apply str_eqb_spec in E. subst. contradiction.
  - apply agree_split. repeat split; intros c Hc; try reflexivity. simpl. unfold conds_fun. simpl.
    destruct (str_eqb c n) eqn:E; [|reflexivity]. apply str_eqb_spec in E. subst. contradiction.
Qed.
Print Assumptions C07_resources_add_unused_condition.
(* the value of a condition depends on the parameters and mappings only through what its body reads and what the conditions
   it asks about read, transitively ([cond_trace]) *)
Theorem C07_condition_unused_ext : forall ps ps' maps maps' decl fuel rem n,
  (forall k, In (AParam k) (cond_trace ps maps decl fuel rem n) -> lookup k ps = lookup k ps') ->
  (forall m, In (AMap m) (cond_trace ps maps decl fuel rem n) -> lookup m maps = lookup m maps') ->
  cond_val ps' maps' decl fuel rem n = cond_val ps maps decl fuel rem n.
Proof. intros ps ps' maps maps' decl fuel rem n Hp Hm. apply cond_val_frame. split; assumption. Qed.
Print Assumptions C07_condition_unused_ext.
(* THE WHOLE MODEL: one more entry (k, d) in the Parameters section -- whose own binding does not raise -- under a name that no
   declared condition and no kept resource reads ([model_trace] = the accesses of all conditions, then of the kept resources):
   same conditions, same resources, same exception *)
Theorem C07_add_unused_parameter_declaration : forall pseudo decls extra maps cdecl rs k d ov,
  ref_value d (supplied k extra) = Ok ov ->
  (forall ps, bind_params pseudo decls extra = Ok ps -> ~ In (AParam k) (model_trace ps maps cdecl rs)) ->
  resolve_model pseudo ((k, d) :: decls) extra maps cdecl rs = resolve_model pseudo decls extra maps cdecl rs.
Proof.
  intros pseudo decls extra maps cdecl rs k d ov Hd Hk.
  rewrite !resolve_model_unfold.
  destruct (bind_params pseudo decls extra) as [ps|err] eqn:Eb.
  - destruct (bind_params_add_decl pseudo decls extra k d ov ps Hd Eb) as (ps' & Hb' & Hl). rewrite Hb'. cbn [bind].
    apply resolve_model_from_frame. split; [|reflexivity].
    intros k' Hk'. symmetry. apply Hl. intros ->. exact (Hk ps eq_refl Hk').
  - rewrite (bind_params_add_decl_err pseudo decls extra k d ov err Hd Eb). reflexivity.
Qed.
Print Assumptions C07_add_unused_parameter_declaration.
(* one more entry in the Mappings section that nothing looks up *)
Theorem C07_add_unused_mapping_declaration : forall pseudo decls extra maps cdecl rs m x,
  (forall ps, bind_params pseudo decls extra = Ok ps -> ~ In (AMap m) (model_trace ps maps cdecl rs)) ->
  resolve_model pseudo decls extra ((m, x) :: maps) cdecl rs = resolve_model pseudo decls extra maps cdecl rs.
Proof.
  intros pseudo decls extra maps cdecl rs m x Hm.
  rewrite !resolve_model_unfold.
  destruct (bind_params pseudo decls extra) as [ps|err] eqn:Eb; [|reflexivity]. cbn [bind].
  apply resolve_model_from_frame. split; [reflexivity|].
  intros m' Hm'. simpl. destruct (str_eqb m' m) eqn:E; [|reflexivity].
  apply str_eqb_spec in E. subst. exfalso. exact (Hm ps eq_refl Hm').
Qed.
Print Assumptions C07_add_unused_mapping_declaration.

(* example: Parameters {Env: {Type: String, Default: prod}}, Mappings {M: {a: {b: c}}}, Conditions {IsProd: Equals [Ref Env, prod]},
   Resources {R: {Type: T, Condition: IsProd, Properties: {N: If [IsProd, FindInMap [M, a, b], Ref AWS::Region]}}}.
   The model reads parameter Env, condition IsProd, mapping M -- and not AWS::Region (the branch not taken).  Declaring
   ZzUnused changes nothing. *)
Definition s_Env : str := [69;110;118].
Definition s_prod : str := [112;114;111;100].
Definition s_String : str := [83;116;114;105;110;103].
Definition s_IsProd : str := [73;115;80;114;111;100].
Definition s_Properties : str := [80;114;111;112;101;114;116;105;101;115].
Definition s_Zz : str := [90;122;85;110;117;115;101;100].
Definition ex_pseudo : list (str * value) := [(REGION, VStr [101;117])].
Definition ex_decls : list (str * value) := [(s_Env, VDict [(K_Type, VStr s_String); (K_Default, VStr s_prod)])].
Definition ex_maps : list (str * value) := [([77], VDict [([97], VDict [([98], VStr [99])])])].
Definition ex_cdecl : list (str * value) := [(s_IsProd, VDict [(K_Equals, VList [VDict [(K_Ref, VStr s_Env)]; VStr s_prod])])].
Definition ex_rs : list (str * value) :=
  [([82], VDict [(K_Type, VStr [84]); (K_Condition, VStr s_IsProd);
                 (s_Properties, VDict [([78], VDict [(K_If, VList [VStr s_IsProd;
                                                                  VDict [(K_FindInMap, VList [VStr [77]; VStr [97]; VStr [98]])];
                                                                  VDict [(K_Ref, VStr REGION)]])])])])].
Definition ex_zz_decl : value := VDict [(K_Type, VStr s_String); (K_Default, VStr [117;110;117;115;101;100])].
Example C07_ex_model_trace :
  bind_params ex_pseudo ex_decls [] = Ok [(s_Env, VStr s_prod); (REGION, VStr [101;117])] /\
  model_trace [(s_Env, VStr s_prod); (REGION, VStr [101;117])] ex_maps ex_cdecl ex_rs = [AParam s_Env; ACond s_IsProd; AMap [77]] /\
  ref_value ex_zz_decl (supplied s_Zz []) = Ok (Some (VStr [117;110;117;115;101;100])).
Proof. vm_compute. repeat split; reflexivity. Qed.
Example C07_ex_model_unused_declaration :
  resolve_model ex_pseudo ((s_Zz, ex_zz_decl) :: ex_decls) [] ex_maps ex_cdecl ex_rs = resolve_model ex_pseudo ex_decls [] ex_maps ex_cdecl ex_rs /\
  resolve_model ex_pseudo ex_decls [] ex_maps ex_cdecl ex_rs =
    Ok (VDict [(K_Conditions, VDict [(s_IsProd, VBool true)]);
               (K_Resources, VDict [([82], VDict [(K_Type, VStr [84]); (K_Condition, VStr s_IsProd);
                                                  (s_Properties, VDict [([78], VStr [99])])])])]).
Proof. vm_compute. split; reflexivity. Qed.
