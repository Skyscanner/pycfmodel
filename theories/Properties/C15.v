(* C15 -- Serialise / validate round trip is lossless.
   "For every model obtained from parse, resolve or expand_actions, dumping it to plain data and validating that data again
    yields an equal model: the re-validation never fails and no field changes value, type or model class.  Both
    transformations are built on this round trip, so whatever it loses or rejects is lost or rejected by them."
   The theorems of the property, each proved from the lemmas of Typed/RoundtripFacts.v (the interpreter), Typed/RoundtripTable.v
   (the live table), Typed/UnionStable.v (union stability) and Typed/Leaves.v (pycfmodel's own validators).

   Vocabulary (Typed/Schema.v, Typed/Roundtrip.v, Typed/Leaves.v):
     ftype      field types of the generated schema table (gen/Schema.v, rewritten from the live pydantic classes on every run)
     tval       validated values: XLeaf v (a scalar / opaque leaf, carried as what model_dump() returns for it; None = XLeaf VNull),
                XList, XDict (Dict[str, T]), XModel cls fields extra (an INSTANCE OF CLASS cls: equality of tvals is equality of
                values, leaf types and model classes)
     dump x     model_dump() in python mode (every declared field, then the extra fields)
     validate S modelled strict leafv n t v : res tval
                the schema interpreter: pydantic validating v against annotation t -- declared fields, defaults, extra mode,
                Optional / List / Dict, left-to-right unions (first accepting member), smart unions (unambiguous cases only),
                Resolvable[t], the C14 resource union, pycfmodel's own validator
                hooks (Effect, Tag.Value, GenericResource.Type, remove_colon); leaves by [leafv]; n bounds class nesting
     leaf_validate core   pycfmodel's own leaf validators MODELLED (SemiStrictBool, LooseIPv4/6Network, validate_binary,
                Tag's number coercion, Literal, FunctionDict, Any/Dict/List); pydantic-core's str / int / PositiveInt / bool / date /
                datetime validators and class Generic are the ORACLE [core]
     stable_for vf (smart, ts)   union stability for the union ts under the validator vf.  Left-to-right mode (smart = false):
                whenever the members BEFORE t refuse v and t accepts v with result x, those members also refuse dump x ("the branch
                that produced x is again the first to accept dump x").  Smart mode (smart = true; the model speaks only when exactly
                one member accepts): whenever ALL other members refuse v, they also refuse dump x
     unions_of t / unions_of_table S   the unions written in t / in the field types of S, each with its mode flag (Resolvable[...]
                wrappers need no assumption: FunctionDict hands its input back unchanged) *)
From Coq Require Import List Bool NArith ZArith.
From PV Require Import Base.Str Base.Value Net.Arith Net.IPv4 Net.IPv6 Policy.Policy.
From PV Require Import Typed.Schema Typed.Dispatch Typed.Leaves Typed.Roundtrip Typed.RoundtripFacts Typed.RoundtripTable
                       Typed.UnionStable Typed.RoundtripRun Typed.RoundtripExamples Typed.SchemaTable Typed.SchemaChecks.
From PVGen Require Import Schema.
Import ListNotations.

(* THE ROUND TRIP, for ANY class table S, ANY (Type, class) table and ANY leaf validators, in strict mode.
   ASSUMED (and nothing else): the table is well formed (decidable; proved for the live table below); every leaf validator
   accepts its own output unchanged; str keeps a str and yields a str; the str-with-number-coercion leaf yields a str;
   FunctionDict and Literal hand back what they were given; Dict accepts a dict; and union stability for the unions of the
   table and of t.  CONCLUDED: whatever validate produced, validating its dump produces it again -- same values, same leaf
   types, same model classes, no error. *)
Theorem C15_roundtrip :
  forall (S : list cschema) (modelled : list (str * str)) (leafv : leaf -> value -> res value),
    table_wf S = true ->
    modelled_wf S modelled = true ->
    (forall k v w, leafv k v = Ok w -> leafv k w = Ok w) ->                         (* leaf_accepts_own_output *)
    (forall s, leafv LStr (VStr s) = Ok (VStr s)) ->
    (forall v w, leafv LStr v = Ok w -> exists s, w = VStr s) ->
    (forall v w, leafv LStrNum v = Ok w -> exists s, w = VStr s) ->
    (forall v w, leafv LFn v = Ok w -> w = v /\ exists d, v = VDict d) ->
    (forall s v w, leafv (LLit s) v = Ok w -> w = VStr s) ->
    (forall d, leafv LDictAny (VDict d) = Ok (VDict d)) ->
    (forall ts, In ts (unions_of_table S) -> forall n, stable_for (validate S modelled true leafv n) ts) ->   (* union stability *)
    forall n t v x,
      (forall ts, In ts (unions_of t) -> forall m, stable_for (validate S modelled true leafv m) ts) ->
      validate S modelled true leafv n t v = Ok x ->
      validate S modelled true leafv n t (dump x) = Ok x.
Proof. exact roundtrip. Qed.
Print Assumptions C15_roundtrip.

(* ... for the LIVE class table and pycfmodel's own leaf validators as modelled: what remains assumed is exactly
   (1) pydantic-core's scalar validators and class Generic accept their own output, (2) str keeps / yields a str,
   (3) union stability for the unions of the live classes.  Everything about pycfmodel's own validators
   (SemiStrictBool, the network types, validate_binary, Tag, Effect, remove_colon, check_type) is PROVED. *)
Theorem C15_roundtrip_live_schema :
  forall (core : leaf -> value -> res value),
    (forall k v w, is_core k = true -> core k v = Ok w -> core k w = Ok w) ->
    (forall s, core LStr (VStr s) = Ok (VStr s)) ->
    (forall v w, core LStr v = Ok w -> exists s, w = VStr s) ->
    (forall ts, In ts (unions_of_table CLASSES) ->
                forall n, stable_for (validate CLASSES RESOURCE_MODELS true (leaf_validate core) n) ts) ->
    forall n t v x,
      (forall ts, In ts (unions_of t) -> forall m, stable_for (validate CLASSES RESOURCE_MODELS true (leaf_validate core) m) ts) ->
      validate CLASSES RESOURCE_MODELS true (leaf_validate core) n t v = Ok x ->
      validate CLASSES RESOURCE_MODELS true (leaf_validate core) n t (dump x) = Ok x.
Proof. exact table_roundtrip. Qed.
Print Assumptions C15_roundtrip_live_schema.

(* a whole template:  CFModel(m.model_dump()) = m      (CFMODEL = TModel "CFModel", the class of the table) *)
Theorem C15_roundtrip_template :
  forall (core : leaf -> value -> res value),
    (forall k v w, is_core k = true -> core k v = Ok w -> core k w = Ok w) ->
    (forall s, core LStr (VStr s) = Ok (VStr s)) ->
    (forall v w, core LStr v = Ok w -> exists s, w = VStr s) ->
    (forall ts, In ts (unions_of_table CLASSES) ->
                forall n, stable_for (validate CLASSES RESOURCE_MODELS true (leaf_validate core) n) ts) ->
    forall n v x,
      validate CLASSES RESOURCE_MODELS true (leaf_validate core) n CFMODEL v = Ok x ->
      validate CLASSES RESOURCE_MODELS true (leaf_validate core) n CFMODEL (dump x) = Ok x.
Proof. exact table_roundtrip_template. Qed.
Print Assumptions C15_roundtrip_template.

(* the decidable side conditions, re-proved for the live table on every run *)
Theorem C15_finite_schema_facts :
  table_wf CLASSES = true /\ modelled_wf CLASSES RESOURCE_MODELS = true /\
  (List.length TABLE_UNIONS <= List.length (unions_of_table CLASSES))%nat /\ (1 <= List.length TABLE_UNIONS)%nat.
Proof. exact (conj Schema_table_wf (conj Schema_modelled_wf Schema_unions_count)). Qed.
Print Assumptions C15_finite_schema_facts.

(* UNION STABILITY ON THE LIVE TABLE, PROVED (Typed/UnionStable.v).  Vocabulary:
     IPNET       = ResolvableIPNetwork         left-to-right [Resolvable[IPv4], Resolvable[IPv6]]
     IP_OR_LIST  = ResolvableIPOrList          left-to-right [IPNET, List[IPNET]]
     STR_OR_LIST = InstanceOrListOf[Resolvable[str]]
     U_IP_OR_STR  = (left-to-right, [IP_OR_LIST; STR_OR_LIST])   ResolvableIPOrStrOrList
     U_INT_STR_FN = (left-to-right, [int; str; FunctionDict])    Resolvable[Union[int, str]]
     holds_bytes v   v is bytes, or a list with a bytes member
     union_ok u      the syntactic classifier: the outputs of every member of u have a SHAPE (str / bool / bytes / list /
                     dump of a class with >= 2 fields / IPv4 network / IPv6 network, or the input handed back) that every
                     member which must refuse it does refuse -- or u is one of U_INT_STR_FN, U_IP_OR_STR
   REMAINING PREMISES, in plain words.  About pydantic-core's validators in lax python mode (each TRUE of pydantic 2.7 and
   CHECKED on every generated model by harness/props/c15.py:leaf_violations):
     (1) a scalar validator accepts its own output unchanged          (2) str keeps a str          (3) str yields a str
     (4) str accepts nothing but str and bytes-like input             (5) str, int, datetime refuse a list
     (6) str refuses a dict
   and two RESIDUAL, per-union premises that speak only about bytes-like input where a text is expected (never the case for
   JSON / YAML data; with facts true of pydantic both unions are UNSTABLE there: see the two theorems further down):
     (7) union_int_str_fn_on_bytes: if str decodes some bytes to s and int refuses those bytes, int refuses s
         [pydantic: false for bytearray(b"7")]
     (8) union_ip_or_str_on_bytes: if IP_OR_LIST refuses v (holding bytes) and STR_OR_LIST accepts it with result x, IP_OR_LIST
         refuses dump x   [pydantic: false for b"10.0.0.0/8"]
   (7) and (8) FOLLOW from "the oracle never accepts bytes for str" (C15_bytes_residuals_are_a_domain_restriction): the oracle
   may decline such input (EUndefined), as the runner's instance does. *)
Theorem C15_union_stability_live_schema :
  forall (core : leaf -> value -> res value),
    (forall s, core LStr (VStr s) = Ok (VStr s)) ->
    (forall v w, core LStr v = Ok w -> exists s, w = VStr s) ->
    (forall v w, core LStr v = Ok w -> (exists s, v = VStr s) \/ (exists b, v = VBytes b)) ->
    (forall l, core LStr (VList l) = Err EValidation) ->
    (forall l, core LInt (VList l) = Err EValidation) ->
    (forall l, core LDatetime (VList l) = Err EValidation) ->
    (forall d, core LStr (VDict d) = Err EValidation) ->
    (forall b s e, core LStr (VBytes b) = Ok (VStr s) -> core LInt (VBytes b) = Err e -> is_hard e = false ->
                   exists e', core LInt (VStr s) = Err e' /\ is_hard e' = false) ->                       (* U_INT_STR_FN, bytes *)
    (forall n v x, holds_bytes v ->
                   soft_err (validate CLASSES RESOURCE_MODELS true (leaf_validate core) n IP_OR_LIST v) ->
                   validate CLASSES RESOURCE_MODELS true (leaf_validate core) n STR_OR_LIST v = Ok x ->
                   soft_err (validate CLASSES RESOURCE_MODELS true (leaf_validate core) n IP_OR_LIST (dump x))) ->   (* U_IP_OR_STR, bytes *)
    forall u, In u (unions_of_table CLASSES) ->
    forall n, stable_for (validate CLASSES RESOURCE_MODELS true (leaf_validate core) n) u.
Proof. exact union_stability_live. Qed.
Print Assumptions C15_union_stability_live_schema.

(* the classifier is sound (any union it accepts is stable at every depth), and it accepts the 15 distinct unions of the live
   table -- 13 by the shape argument alone, U_INT_STR_FN and U_IP_OR_STR by their own lemmas; every union written in the live
   classes is one of the 15.  The last three facts are re-proved against the regenerated table on every run. *)
Theorem C15_union_classifier_sound :
  forall (core : leaf -> value -> res value),
    (forall s, core LStr (VStr s) = Ok (VStr s)) ->
    (forall v w, core LStr v = Ok w -> exists s, w = VStr s) ->
    (forall v w, core LStr v = Ok w -> (exists s, v = VStr s) \/ (exists b, v = VBytes b)) ->
    (forall l, core LStr (VList l) = Err EValidation) ->
    (forall l, core LInt (VList l) = Err EValidation) ->
    (forall l, core LDatetime (VList l) = Err EValidation) ->
    (forall d, core LStr (VDict d) = Err EValidation) ->
    (forall b s e, core LStr (VBytes b) = Ok (VStr s) -> core LInt (VBytes b) = Err e -> is_hard e = false ->
                   exists e', core LInt (VStr s) = Err e' /\ is_hard e' = false) ->
    (forall n v x, holds_bytes v ->
                   soft_err (validate CLASSES RESOURCE_MODELS true (leaf_validate core) n IP_OR_LIST v) ->
                   validate CLASSES RESOURCE_MODELS true (leaf_validate core) n STR_OR_LIST v = Ok x ->
                   soft_err (validate CLASSES RESOURCE_MODELS true (leaf_validate core) n IP_OR_LIST (dump x))) ->
    forall u, union_ok u = true ->
    forall n, stable_for (validate CLASSES RESOURCE_MODELS true (leaf_validate core) n) u.
Proof. exact union_ok_sound. Qed.
Print Assumptions C15_union_classifier_sound.
Theorem C15_unions_of_live_table_covered :
  forallb union_ok TABLE_UNIONS = true /\
  List.length TABLE_UNIONS = (List.length (filter (generic_ok CLASSES) TABLE_UNIONS) + 2)%nat /\
  filter (fun u => negb (generic_ok CLASSES u)) TABLE_UNIONS = [U_INT_STR_FN; U_IP_OR_STR] /\
  (forall u, In u (unions_of_table CLASSES) -> In u TABLE_UNIONS).
Proof. exact (conj TABLE_UNIONS_ok (conj (proj1 TABLE_UNIONS_classified) (conj (proj2 TABLE_UNIONS_classified) table_unions_complete))). Qed.
Print Assumptions C15_unions_of_live_table_covered.

(* The round trip on the live table with premises (1)-(8) in place of the union-stability hypothesis of C15_roundtrip_live_schema:
   that hypothesis is the one the name says is absent.  The premise on [unions_of t] is of another kind: a decidable check of
   the unions of the top annotation t, which says nothing when t is a class of the table. *)
Theorem C15_roundtrip_live_schema_no_union_hypothesis :
  forall (core : leaf -> value -> res value),
    (forall k v w, is_core k = true -> core k v = Ok w -> core k w = Ok w) ->
    (forall s, core LStr (VStr s) = Ok (VStr s)) ->
    (forall v w, core LStr v = Ok w -> exists s, w = VStr s) ->
    (forall v w, core LStr v = Ok w -> (exists s, v = VStr s) \/ (exists b, v = VBytes b)) ->
    (forall l, core LStr (VList l) = Err EValidation) ->
    (forall l, core LInt (VList l) = Err EValidation) ->
    (forall l, core LDatetime (VList l) = Err EValidation) ->
    (forall d, core LStr (VDict d) = Err EValidation) ->
    (forall b s e, core LStr (VBytes b) = Ok (VStr s) -> core LInt (VBytes b) = Err e -> is_hard e = false ->
                   exists e', core LInt (VStr s) = Err e' /\ is_hard e' = false) ->
    (forall n v x, holds_bytes v ->
                   soft_err (validate CLASSES RESOURCE_MODELS true (leaf_validate core) n IP_OR_LIST v) ->
                   validate CLASSES RESOURCE_MODELS true (leaf_validate core) n STR_OR_LIST v = Ok x ->
                   soft_err (validate CLASSES RESOURCE_MODELS true (leaf_validate core) n IP_OR_LIST (dump x))) ->
    forall n t v x,
      (forall u, In u (unions_of t) -> union_ok u = true) ->         (* decidable; no condition when t is a class of the table *)
      validate CLASSES RESOURCE_MODELS true (leaf_validate core) n t v = Ok x ->
      validate CLASSES RESOURCE_MODELS true (leaf_validate core) n t (dump x) = Ok x.
Proof. exact table_roundtrip_live. Qed.
Print Assumptions C15_roundtrip_live_schema_no_union_hypothesis.

(* a whole template:  CFModel(m.model_dump()) = m *)
Theorem C15_roundtrip_template_no_union_hypothesis :
  forall (core : leaf -> value -> res value),
    (forall k v w, is_core k = true -> core k v = Ok w -> core k w = Ok w) ->
    (forall s, core LStr (VStr s) = Ok (VStr s)) ->
    (forall v w, core LStr v = Ok w -> exists s, w = VStr s) ->
    (forall v w, core LStr v = Ok w -> (exists s, v = VStr s) \/ (exists b, v = VBytes b)) ->
    (forall l, core LStr (VList l) = Err EValidation) ->
    (forall l, core LInt (VList l) = Err EValidation) ->
    (forall l, core LDatetime (VList l) = Err EValidation) ->
    (forall d, core LStr (VDict d) = Err EValidation) ->
    (forall b s e, core LStr (VBytes b) = Ok (VStr s) -> core LInt (VBytes b) = Err e -> is_hard e = false ->
                   exists e', core LInt (VStr s) = Err e' /\ is_hard e' = false) ->
    (forall n v x, holds_bytes v ->
                   soft_err (validate CLASSES RESOURCE_MODELS true (leaf_validate core) n IP_OR_LIST v) ->
                   validate CLASSES RESOURCE_MODELS true (leaf_validate core) n STR_OR_LIST v = Ok x ->
                   soft_err (validate CLASSES RESOURCE_MODELS true (leaf_validate core) n IP_OR_LIST (dump x))) ->
    forall n v x,
      validate CLASSES RESOURCE_MODELS true (leaf_validate core) n CFMODEL v = Ok x ->
      validate CLASSES RESOURCE_MODELS true (leaf_validate core) n CFMODEL (dump x) = Ok x.
Proof. exact table_roundtrip_template_live. Qed.
Print Assumptions C15_roundtrip_template_no_union_hypothesis.

(* the same with the domain restriction spelled out instead of (4), (7), (8): the oracle accepts only a str for str (bytes-like
   input is declined or refused).  No premise mentions a union. *)
Theorem C15_roundtrip_template_text_only :
  forall (core : leaf -> value -> res value),
    (forall k v w, is_core k = true -> core k v = Ok w -> core k w = Ok w) ->
    (forall s, core LStr (VStr s) = Ok (VStr s)) ->
    (forall v w, core LStr v = Ok w -> exists s, w = VStr s) ->
    (forall v w, core LStr v = Ok w -> exists s, v = VStr s) ->
    (forall l, core LStr (VList l) = Err EValidation) ->
    (forall l, core LInt (VList l) = Err EValidation) ->
    (forall l, core LDatetime (VList l) = Err EValidation) ->
    (forall d, core LStr (VDict d) = Err EValidation) ->
    forall n v x,
      validate CLASSES RESOURCE_MODELS true (leaf_validate core) n CFMODEL v = Ok x ->
      validate CLASSES RESOURCE_MODELS true (leaf_validate core) n CFMODEL (dump x) = Ok x.
Proof. exact table_roundtrip_template_live_text. Qed.
Print Assumptions C15_roundtrip_template_text_only.
Theorem C15_bytes_residuals_are_a_domain_restriction :
  forall (core : leaf -> value -> res value),
    (forall l, core LStr (VList l) = Err EValidation) ->
    (forall b w, core LStr (VBytes b) <> Ok w) ->
    (forall b s e, core LStr (VBytes b) = Ok (VStr s) -> core LInt (VBytes b) = Err e -> is_hard e = false ->
                   exists e', core LInt (VStr s) = Err e' /\ is_hard e' = false) /\
    (forall n v x, holds_bytes v ->
                   soft_err (validate CLASSES RESOURCE_MODELS true (leaf_validate core) n IP_OR_LIST v) ->
                   validate CLASSES RESOURCE_MODELS true (leaf_validate core) n STR_OR_LIST v = Ok x ->
                   soft_err (validate CLASSES RESOURCE_MODELS true (leaf_validate core) n IP_OR_LIST (dump x))).
Proof. exact residuals_of_text_only. Qed.
Print Assumptions C15_bytes_residuals_are_a_domain_restriction.

(* ... and the restriction is needed: with facts that are TRUE of pydantic 2.7 the two unions are NOT stable.
   B_7 = b"7" / "7" (the input is a bytearray: int refuses it, str decodes it, int takes the text);
   B_NET = b"10.0.0.0/8" / "10.0.0.0/8" (no network type takes the ten bytes, str decodes them, the text is an IPv4 network).
   In pycfmodel: SecurityGroupIngressProp(IpProtocol=bytearray(b"6")) and StatementCondition(IpAddress={"aws:SourceIp":
   b"10.0.0.0/8"}) differ from their own re-validated dumps.  Bytes never come out of a JSON / YAML template. *)
Theorem C15_int_str_fn_unstable_on_bytes :
  forall (core : leaf -> value -> res value) n,
    core LStr (VBytes B_7) = Ok (VStr B_7) -> core LInt (VBytes B_7) = Err EValidation -> core LInt (VStr B_7) = Ok (VInt 7) ->
    ~ stable_for (validate CLASSES RESOURCE_MODELS true (leaf_validate core) n) U_INT_STR_FN.
Proof. intros core n. rewrite validate_as_step. apply int_str_fn_unstable_on_bytes_step. Qed.
Print Assumptions C15_int_str_fn_unstable_on_bytes.
Theorem C15_ip_or_str_unstable_on_bytes :
  forall (core : leaf -> value -> res value) n,
    core LStr (VBytes B_NET) = Ok (VStr B_NET) ->
    ~ stable_for (validate CLASSES RESOURCE_MODELS true (leaf_validate core) n) U_IP_OR_STR.
Proof. intros core n. rewrite validate_as_step. apply ip_or_str_unstable_on_bytes_step. Qed.
Print Assumptions C15_ip_or_str_unstable_on_bytes.

(* THE LEAF HYPOTHESES, DISCHARGED against the models of pycfmodel's own validators *)

(* all modelled leaves at once; what is left is the oracle's share *)
Theorem C15_leaf_accepts_own_output :
  forall (core : leaf -> value -> res value),
    (forall k v w, is_core k = true -> core k v = Ok w -> core k w = Ok w) ->
    forall k v w, leaf_validate core k v = Ok w -> leaf_validate core k w = Ok w.
Proof. exact leaf_accepts_own_output. Qed.
Print Assumptions C15_leaf_accepts_own_output.

(* SemiStrictBool: whatever it accepts it turns into a bool, and a bool it takes back as it is *)
Theorem C15_semistrictbool :
  forall v w, semi_strict_bool v = Ok w -> (exists b, w = VBool b) /\ semi_strict_bool w = Ok w.
Proof. exact (fun v w H => conj (semi_strict_bool_out v w H) (semi_strict_bool_own v w H)). Qed.
Print Assumptions C15_semistrictbool.

(* LooseIPv4Network / LooseIPv6Network: every well-formed network is accepted back, from the dumped OBJECT (python mode) and
   from its TEXT (json mode) alike -- by C17's  parse4 (print4 n) = Ok n  /  parse6 (print6_full n) = Ok n *)
Theorem C15_ipv4network :
  forall n, wf W4 n -> loose_net4 (net4_text n) = Ok (net4_text n) /\ loose_net4 (VStr (print4 n)) = Ok (net4_text n).
Proof. exact loose_net4_text. Qed.
Print Assumptions C15_ipv4network.
Theorem C15_ipv6network :
  forall n, wf W6 n -> loose_net6 (net6_text n) = Ok (net6_text n) /\ loose_net6 (VStr (print6_full n)) = Ok (net6_text n).
Proof. exact loose_net6_text. Qed.
Print Assumptions C15_ipv6network.
(* and whatever the validators accept -- text in any spelling, an integer, packed bytes -- is such a network *)
Theorem C15_ipnetwork_outputs :
  (forall v w, loose_net4 v = Ok w -> exists n, wf W4 n /\ w = net4_text n) /\
  (forall v w, loose_net6 v = Ok w -> exists n, wf W6 n /\ w = net6_text n).
Proof. exact (conj loose_net4_out loose_net6_out). Qed.
Print Assumptions C15_ipnetwork_outputs.

(* validate_binary after the repair: the dump of a binary value (bytes) is accepted back unchanged *)
Theorem C15_binary : forall b, validate_binary (VBytes b) = Ok (VBytes b).
Proof. reflexivity. Qed.
Print Assumptions C15_binary.
Theorem C15_binary_own : forall v w, validate_binary v = Ok w -> validate_binary w = Ok w.
Proof. exact validate_binary_own. Qed.
Print Assumptions C15_binary_own.
(* the validator as it was before the repair (finding F11, repaired by commit a48b8e2): it does NOT accept its own output *)
Theorem C15_binary_before_repair_refuted : exists b, validate_binary_old (VBytes b) <> Ok (VBytes b).
Proof. exact Binary_refuted. Qed.
Print Assumptions C15_binary_before_repair_refuted.

(* Tag.Value: bools become "True" / "False", numbers their text; the dump (a str) is taken back unchanged *)
Theorem C15_tag_value : forall v w, str_num (tag_value_hook v) = Ok w -> (exists s, w = VStr s) /\ str_num (tag_value_hook w) = Ok w.
Proof. exact (fun v w H => conj (str_num_out _ w H) (tag_value_stable v w H)). Qed.
Print Assumptions C15_tag_value.

(* Statement.Effect: capitalisation is idempotent on what it lets through *)
Theorem C15_effect : forall w w', effect_hook w = Ok w' -> effect_hook w' = Ok w'.
Proof.
  intros w w'. destruct w; simpl; try (intros H; inv H; reflexivity).
  intros H. bind_inv. inv H.
  simpl. rewrite (PolicyFacts.effect_store_idem s _ E). reflexivity.
Qed.
Print Assumptions C15_effect.

(* StatementCondition.remove_colon is idempotent (the dumped keys are the field names, which have no colon) *)
Theorem C15_colon_stable : forall d, remove_colon (remove_colon d) = remove_colon d.
Proof. exact remove_colon_idem. Qed.
Print Assumptions C15_colon_stable.

(* StatementCondition.__eq__ compares the dumped FIELDS only: the lazily built evaluator cache takes no part *)
Theorem C15_eq_ignores_cache : forall f c1 c2 g, cond_eq (f, c1) (g, c2) = cond_eq (f, None) (g, None).
Proof. reflexivity. Qed.
Print Assumptions C15_eq_ignores_cache.
(* ... and it is the only class with private state; pydantic's default __eq__ would compare it (generated table) *)
Theorem C15_private_state_has_own_eq : forall c, In c CLASSES -> c_private c <> [] -> c_custom_eq c = true.
Proof. exact Schema_private_eq. Qed.
Print Assumptions C15_private_state_has_own_eq.

(* non-vacuity: the leaf hypotheses are satisfiable (the instance the runner uses satisfies them), and on a concrete template
   -- S3 bucket with numeric / boolean tag values and a "TRUE" flag, an IAM policy whose condition holds base64 text, IPv4 and
   IPv6 networks with host bits, a colon-qualified operator and a boolean, a security-group rule, an unmodelled resource --
   validation succeeds and the round trip is an equality *)
Example C15_ex_core_hypotheses_satisfiable :
  (forall k v w, core_dumped k v = Ok w -> core_dumped k w = Ok w) /\
  (forall s, core_dumped LStr (VStr s) = Ok (VStr s)) /\
  (forall v w, core_dumped LStr v = Ok w -> exists s, w = VStr s).
Proof. exact (conj core_dumped_own (conj core_dumped_str core_dumped_str_out)). Qed.
(* ... the shape premises too: the runner's instance meets every premise of C15_roundtrip_template_text_only *)
Example C15_ex_shape_hypotheses_satisfiable :
  (forall v w, core_dumped LStr v = Ok w -> exists s, v = VStr s) /\
  (forall l, core_dumped LStr (VList l) = Err EValidation) /\
  (forall l, core_dumped LInt (VList l) = Err EValidation) /\
  (forall l, core_dumped LDatetime (VList l) = Err EValidation) /\
  (forall d, core_dumped LStr (VDict d) = Err EValidation).
Proof. exact core_dumped_shapes. Qed.
Example C15_ex_template_roundtrip :
  exists x, run_template EX_RAW = Ok x /\ run_template (dump x) = Ok x.
Proof.
  unfold run_template.
  assert (Hok : is_ok (val_dumped true CFMODEL EX_RAW) = true) by (vm_compute; reflexivity).
  destruct (val_dumped true CFMODEL EX_RAW) as [x|] eqn:E; [|discriminate Hok].
  exists x. split; [reflexivity | exact (val_dumped_roundtrip_template EX_RAW x E)].
Qed.

Local Open Scope N_scope.
(* leaf witnesses: "TRUE" -> true -> true; 10.1.2.3/8 -> 10.0.0.0/8 (object and text); "aGVsbG8=" -> b"hello" -> b"hello";
   the pre-repair validator on b"hello": refused;  True -> "True" -> "True";  "aLLoW" -> "Allow" -> "Allow" *)
Example C15_ex_leaves :
  semi_strict_bool (VStr [84;82;85;69]) = Ok (VBool true) /\ semi_strict_bool (VBool true) = Ok (VBool true) /\
  semi_strict_bool (VStr [121;101;115]) = Err EValidation /\
  loose_net4 (VStr [49;48;46;49;46;50;46;51;47;56]) = Ok (VTyped KNet4 [49;48;46;48;46;48;46;48;47;56]) /\
  loose_net4 (VTyped KNet4 [49;48;46;48;46;48;46;48;47;56]) = Ok (VTyped KNet4 [49;48;46;48;46;48;46;48;47;56]) /\
  validate_binary (VStr [97;71;86;115;98;71;56;61]) = Ok (VBytes [104;101;108;108;111]) /\
  validate_binary (VBytes [104;101;108;108;111]) = Ok (VBytes [104;101;108;108;111]) /\
  validate_binary_old (VBytes [104;101;108;108;111]) = Err EValidation /\
  str_num (tag_value_hook (VBool true)) = Ok (VStr [84;114;117;101]) /\
  effect_hook (VStr [97;76;76;111;87]) = Ok (VStr [65;108;108;111;119]) /\
  effect_hook (VStr [65;108;108;111;119]) = Ok (VStr [65;108;108;111;119]).
Proof. vm_compute. repeat split. Qed.
