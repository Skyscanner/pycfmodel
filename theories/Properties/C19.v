(* C19 -- Malformed templates are rejected cleanly.
   "For every JSON value handed to parse - however malformed - the call either returns a model or raises the
   library's validation error; it never raises any other exception type ..."

   pydantic runs pycfmodel's custom validators on RAW input and converts only ValueError / AssertionError into
   its ValidationError; every other exception leaves pycfmodel.parse as it is (C19_pydantic_contract,
   C19_other_exceptions_escape).  The statements below are therefore about every value whatsoever (the type
   [value] holds every JSON value; object keys are strings, as in JSON).  What is proved is the logic of
   pycfmodel's own validators (Robust/Validators.v, tied to the code by harness/props/c19.py stream (a));
   pydantic-core's internals, the interpreter's recursion limit (known finding F17), time and memory are
   runtime, tied by the sandboxed fuzzer of stream (b): partial.

   WHOLE parse (from C19_parse_clean on) is the schema interpreter of Typed/Roundtrip.v -- pydantic validating plain
   data against the class table generated from the live classes -- composed with its leaf validators: for every table
   and every value the outcome is a model, ValidationError, "declined" or the nesting limit, PROVIDED every leaf validator
   is clean (no structure, union, default, extra-mode or hook adds an exception kind); the leaves of the interpreter ARE
   the validators of the first half; the number of steps is at most weight(table, annotation, fuel) * nodes, whatever
   the magnitudes in the value.

   The theorems are proved here from the lemmas of Robust/ValidatorsFacts.v and Robust/ValidatorLaws.v (the validators),
   Typed/ParseClean.v and Typed/ParseCost.v (whole parse). *)
From Coq Require Import List Bool NArith ZArith Lia.
From PV Require Import Base.Str Base.Value Resolver.Consts Resolver.Resolve Robust.RConsts Robust.Validators Robust.ValidatorsFacts.
From PV Require Import Base.WireFacts.
(* the interpreter and its vocabulary are used under qualified names (Roundtrip.validate, Typed.Schema.ftype, Leaves.validate_binary
   ...): several of its leaves bear the names of the validators above *)
From PV Require Typed.Schema Typed.Leaves Typed.Roundtrip Typed.RoundtripRun Typed.RoundtripExamples.
From PV Require Import Typed.ParseClean Typed.ParseCost.
From PV Require Resolver.Text.
From PV Require Import Robust.ValidatorLaws.
From PVGen Require Schema.
Import ListNotations.
Local Open Scope N_scope.

(* Every custom validator, on EVERY value, returns or raises ValueError -- never TypeError, AttributeError,
   KeyError, IndexError ... *)
Theorem C19_validators_clean :
  forall (strict : bool) (modelled : list str) (cast : value -> value) (loads : str -> option value) (float_ok : str -> bool)
         (exp : bool -> list str -> list str) (not_action : bool) (v : value),
    clean (check_type strict modelled v) /\
    clean (validate_binary v) /\
    clean (semi_strict_bool v) /\
    clean (check_fn_dict v) /\
    clean (generic_casting cast v) /\
    clean (json_prepass loads v) /\
    clean (remove_colon v) /\
    clean (effect_validator v) /\
    clean (tag_coerce v) /\
    clean (not_from_numbers float_ok v) /\
    clean (not_from_booleans v) /\
    clean (expand_acts exp not_action v).
Proof.
  intros. repeat split.
  - apply check_type_clean.
  - apply validate_binary_clean.
  - apply semi_strict_bool_clean.
  - apply check_fn_dict_clean.
  - apply generic_casting_clean.
  - apply json_prepass_clean.
  - apply never_raises_clean, remove_colon_total.
  - apply effect_validator_clean.
  - apply never_raises_clean, tag_coerce_total.
  - apply not_from_numbers_clean.
  - apply not_from_booleans_clean.
  - exact (veu_clean _ _ (expand_acts_spec exp not_action v)).
Qed.
Print Assumptions C19_validators_clean.

(* two of the hooks cannot fail at all; the JSON pre-pass refuses exactly the empty object (whatever json.loads does) *)
Theorem C19_hooks_never_raise : forall (v : value), never_raises (remove_colon v) /\ never_raises (tag_coerce v).
Proof. intros. split; [apply remove_colon_total | apply tag_coerce_total]. Qed.
Print Assumptions C19_hooks_never_raise.
Theorem C19_json_prepass_refuses_only_empty : forall (loads : str -> option value) (v : value) (e : err),
  json_prepass loads v = Err e -> e = EValue /\ (v = VDict [] \/ exists s, v = VStr s /\ loads s = Some (VDict [])).
Proof.
  intros loads v e. unfold json_prepass. destruct v; try discriminate.
  - destruct (loads s) as [j|] eqn:L; [|discriminate]. destruct j as [| | | | | | |[|? ?]]; try discriminate.
    intros H; inv H. split; [reflexivity | right; eauto].
  - destruct d as [|? ?]; [|discriminate]. intros H; inv H. split; [reflexivity | left; reflexivity].
Qed.
Print Assumptions C19_json_prepass_refuses_only_empty.
(* Finding F29 (DESIGN.md 7.3; repaired in pycfmodel by 4e7f8be): the pre-pass maps text to the SAME text or to a non-text value, never to
   other text; validating its own textual output again therefore changes nothing (before that repair each re-validation peeled
   one layer of quotes off "\"\\\"x\\\"\"") *)
Theorem C19_json_prepass_text_to_text : forall (loads : str -> option value) (s t : str),
  json_prepass loads (VStr s) = Ok (VStr t) -> t = s /\ json_prepass loads (VStr t) = Ok (VStr t).
Proof. intros loads s t H. split; [exact (json_prepass_text_to_text loads s t H) | exact (json_prepass_idem loads _ _ H)]. Qed.
Print Assumptions C19_json_prepass_text_to_text.

(* pydantic's contract: a clean validator can only make parse return or raise ValidationError ... *)
Theorem C19_pydantic_contract : forall (A : Type) (r : res A), clean r -> parse_clean (pydantic_wrap r).
Proof. intros A r. apply wrap_clean. Qed.
Print Assumptions C19_pydantic_contract.
(* ... and an unclean one shows through: cleanliness of every validator is necessary, not only sufficient *)
Theorem C19_other_exceptions_escape : forall (A : Type) (r : res A) (e : err),
  r = Err e -> e <> EValue -> pydantic_wrap r = Err e.
Proof. intros A r e -> H. destruct e; simpl; congruence. Qed.
Print Assumptions C19_other_exceptions_escape.

(* the annotated fields that carry a custom validator: model or ValidationError, for every value *)
Theorem C19_fields_clean :
  forall (strict : bool) (modelled : list str) (cast : value -> value) (v : value),
    parse_clean (type_field strict modelled v) /\
    parse_clean (binary_field v) /\
    parse_clean (bool_field v) /\
    parse_clean (effect_field v) /\
    parse_clean (tag_value_field v) /\
    parse_clean (fn_dict_field v) /\
    parse_clean (generic_field cast v).
Proof.
  intros. repeat split.
  - apply type_field_clean.
  - apply binary_field_clean.
  - apply bool_field_clean.
  - apply effect_field_clean.
  - apply tag_value_field_clean.
  - apply fn_dict_field_clean.
  - apply generic_field_clean.
Qed.
Print Assumptions C19_fields_clean.

(* a typed date / datetime field (repair of F26): whatever pydantic's own parser lets through -- a result, a ValidationError or
   the plain ValueError of a year-0 date -- the field yields a model or a ValidationError *)
Theorem C19_date_fields_clean : forall (std : value -> res value) (v : value),
  clean (std v) \/ std v = Err EValidation -> parse_clean (safe_date std v).
Proof. intros std v. unfold safe_date. intros [H | ->]; [apply wrap_clean; assumption | exact I]. Qed.
Print Assumptions C19_date_fields_clean.

(* the witnesses of findings F11 and F13 give ValueError, i.e. ValidationError from parse (the models of the library before its
   repairs, and their refutations, are in Findings/F11F13.v) *)
Definition s_a : str := [97].
Example C19_type_list : type_field true [] (VList [VStr s_a]) = Err EValidation.
Proof. reflexivity. Qed.
Example C19_type_object : type_field true [] (VDict [(s_a, VInt 1)]) = Err EValidation.
Proof. reflexivity. Qed.
Example C19_type_number_bool_null :
  type_field true [] (VInt 5) = Err EValidation /\ type_field true [] (VBool true) = Err EValidation /\
  type_field true [] VNull = Ok VNull.
Proof. repeat split; reflexivity. Qed.
Example C19_type_modelled_strict : type_field true [s_a] (VStr s_a) = Err EValidation /\ type_field false [s_a] (VStr s_a) = Ok (VStr s_a).
Proof. split; reflexivity. Qed.
Example C19_binary_number : binary_field (VInt 5) = Err EValidation.
Proof. reflexivity. Qed.
Example C19_binary_null_list_object :
  binary_field VNull = Err EValidation /\ binary_field (VList [VInt 1]) = Err EValidation /\ binary_field (VDict []) = Err EValidation.
Proof. repeat split; reflexivity. Qed.
(* "YQ==" is accepted, alone or in a list; "Y" (one data character) and non-ASCII text are not *)
Example C19_binary_text :
  binary_field (VStr [89; 81; 61; 61]) = Ok (VBytes [97]) /\
  binary_field (VList [VStr [89; 81; 61; 61]; VStr []]) = Ok (VList [VBytes [97]; VBytes []]) /\
  binary_field (VStr [89]) = Err EValidation /\ binary_field (VStr [233]) = Err EValidation.
Proof. repeat split; reflexivity. Qed.
Example C19_effect : effect_field (VStr [97; 76; 76; 79; 87]) = Ok (VStr S_Allow) /\ effect_field (VStr s_a) = Err EValidation /\
  effect_field (VInt 1) = Err EValidation /\ effect_field (VDict [(K_Ref, VStr s_a)]) = Ok (VDict [(K_Ref, VStr s_a)]).
Proof. repeat split; reflexivity. Qed.
Example C19_fn_dict_keys : fn_dict_field (VDict []) = Err EValidation /\ fn_dict_field (VDict [(K_Ref, VNull)]) = Ok (VDict [(K_Ref, VNull)]) /\
  fn_dict_field (VDict [(K_Ref, VNull); (K_Sub, VNull)]) = Err EValidation /\ fn_dict_field (VList []) = Err EValidation.
Proof. repeat split; reflexivity. Qed.
Example C19_remove_colon_collapses :
  remove_colon (VDict [([97; 58; 98], VInt 1); ([97; 98], VInt 2)]) = Ok (VDict [([97; 98], VInt 2)]) /\
  remove_colon (VList []) = Ok (VList []).
Proof. split; reflexivity. Qed.

(* WHOLE parse: the schema interpreter composed with its leaf validators.
   [Roundtrip.validate tbl modelled strict leafv n t v]: the class table, the (Type string, class) list of the resource union,
   GenericResource._strict, the leaf validators, the fuel (how deep model classes may nest), the annotation, the data. *)
Local Close Scope N_scope.

(* If every leaf validator answers -- on every value -- with a value, with ValidationError, or is declined by the model, then
   for EVERY class table and EVERY value (wrong container kinds, numbers where objects are expected, unknown or repeated keys,
   anything) parse answers with a model, ValidationError, "declined", or the nesting limit. *)
Theorem C19_parse_clean :
  forall (tbl : list Typed.Schema.cschema) (modelled : list (str * str)) (strict : bool)
         (leafv : Typed.Schema.leaf -> value -> res value),
    (forall k v, (exists w, leafv k v = Ok w) \/ leafv k v = Err EValidation \/ leafv k v = Err EUndefined) ->
    forall (n : nat) (t : Typed.Schema.ftype) (v : value),
      (exists x, Roundtrip.validate tbl modelled strict leafv n t v = Ok x) \/
      Roundtrip.validate tbl modelled strict leafv n t v = Err EValidation \/
      Roundtrip.validate tbl modelled strict leafv n t v = Err EUndefined \/
      Roundtrip.validate tbl modelled strict leafv n t v = Err ERecursion.
Proof. exact validate_clean. Qed.
Print Assumptions C19_parse_clean.
(* ... never TypeError, ValueError, AttributeError, IndexError, KeyError *)
Theorem C19_parse_never_other_exception :
  forall tbl modelled strict leafv,
    (forall k v, (exists w, leafv k v = Ok w) \/ leafv k v = Err EValidation \/ leafv k v = Err EUndefined) ->
    forall n t v e, Roundtrip.validate tbl modelled strict leafv n t v = Err e ->
      e <> EType /\ e <> EValue /\ e <> EAttr /\ e <> EIndex /\ e <> EKey.
Proof.
  intros tbl modelled strict leafv Hl n t v e H.
  destruct (validate_clean tbl modelled strict leafv Hl n t v) as [[x E] | [E | [E | E]]]; rewrite E in H; inv H;
    repeat split; discriminate.
Qed.
Print Assumptions C19_parse_never_other_exception.
(* the nesting limit is reached only by a value nested deeper than the fuel (whatever the table, cyclic ones included):
   below it the answer is a model, ValidationError, or declined *)
Theorem C19_parse_clean_depth :
  forall tbl modelled strict leafv,
    (forall k v, (exists w, leafv k v = Ok w) \/ leafv k v = Err EValidation \/ leafv k v = Err EUndefined) ->
    forall n t v, (vdepth v <= n)%nat ->
      (exists x, Roundtrip.validate tbl modelled strict leafv n t v = Ok x) \/
      Roundtrip.validate tbl modelled strict leafv n t v = Err EValidation \/
      Roundtrip.validate tbl modelled strict leafv n t v = Err EUndefined.
Proof. exact validate_clean_depth. Qed.
Print Assumptions C19_parse_clean_depth.
(* more fuel never changes a model or a ValidationError into anything else (no hypothesis at all) *)
Theorem C19_parse_fuel_monotone :
  forall tbl modelled strict leafv (n m : nat) t v r, (n <= m)%nat ->
    Roundtrip.validate tbl modelled strict leafv n t v = r -> (exists x, r = Ok x) \/ r = Err EValidation ->
    Roundtrip.validate tbl modelled strict leafv m t v = r.
Proof.
  intros tbl modelled strict leafv n m t v r Hnm H Hr. pose proof (fuel_mono tbl modelled strict leafv n m Hnm t v) as M.
  rewrite H in M. apply M. destruct Hr as [[x ->] | ->]; [exact I | reflexivity].
Qed.
Print Assumptions C19_parse_fuel_monotone.
(* the converse: what a leaf validator raises leaves parse as it is -- cleanliness of the leaves is necessary *)
Theorem C19_leaf_exception_escapes :
  forall tbl modelled strict leafv n k v e,
    leafv k v = Err e -> Roundtrip.validate tbl modelled strict leafv n (Typed.Schema.TLeaf k) v = Err e.
Proof. intros tbl modelled strict leafv n k v e H. destruct n; cbn [Roundtrip.validate Roundtrip.validate_step]; rewrite H; reflexivity. Qed.
Print Assumptions C19_leaf_exception_escapes.

(* On the class table generated from the live classes, with the leaf validators the runner uses (Leaves.leaf_validate):
   pycfmodel's own leaf validators are models and PROVED clean; [core] stands for the validators of pydantic-core and class
   Generic, whose cleanliness is the hypothesis (it is what the sandboxed fuzzer observes; F26 was a violation of it). *)
Theorem C19_parse_clean_live_schema :
  forall (core : Typed.Schema.leaf -> value -> res value),
    (forall k v, Leaves.is_core k = true ->
       (exists w, core k v = Ok w) \/ core k v = Err EValidation \/ core k v = Err EUndefined) ->
    forall strict n t v,
      let r := Roundtrip.validate PVGen.Schema.CLASSES PVGen.Schema.RESOURCE_MODELS strict (Leaves.leaf_validate core) n t v in
      ((exists x, r = Ok x) \/ r = Err EValidation \/ r = Err EUndefined \/ r = Err ERecursion) /\
      ((vdepth v <= n)%nat -> (exists x, r = Ok x) \/ r = Err EValidation \/ r = Err EUndefined).
Proof. exact validate_clean_live. Qed.
Print Assumptions C19_parse_clean_live_schema.
(* the executable instance (RoundtripRun.val_dumped: the same table, fuel 64, the runner's oracle): nothing is assumed *)
Theorem C19_parse_clean_runner :
  forall strict t v,
    let r := RoundtripRun.val_dumped strict t v in
    ((exists x, r = Ok x) \/ r = Err EValidation \/ r = Err EUndefined \/ r = Err ERecursion) /\
    ((vdepth v <= 64)%nat -> (exists x, r = Ok x) \/ r = Err EValidation \/ r = Err EUndefined).
Proof. intros strict t v. exact (validate_clean_live _ core_dumped_clean strict _ t v). Qed.
Print Assumptions C19_parse_clean_runner.
(* the leaves and hooks of the interpreter are the custom validators of the first half under pydantic's contract (remove_colon is
   not in the list: the interpreter keeps colliding keys and DECLINES such objects, Robust/Validators.v collapses them) *)
Theorem C19_interpreter_leaves_are_the_validators :
  (forall v, Leaves.semi_strict_bool v = pydantic_wrap (semi_strict_bool v)) /\
  (forall v, Leaves.validate_binary v = pydantic_wrap (validate_binary v)) /\
  (forall v, Leaves.function_dict v = pydantic_wrap (check_fn_dict v)) /\
  (forall modelled strict v, Roundtrip.check_type modelled strict v = pydantic_wrap (check_type strict (keys modelled) v)) /\
  (forall w, Leaves.effect_hook w = pydantic_wrap (effect_validator w)) /\
  (forall v, Ok (Leaves.tag_value_hook v) = tag_coerce v).
Proof.
  repeat split.
  - intros v. destruct v; try reflexivity. cbn [Leaves.semi_strict_bool Validators.semi_strict_bool].
    destruct (str_eqb (lower s) S_true); [reflexivity|]. destruct (str_eqb (lower s) S_false); reflexivity.
  - intros v. destruct v; try reflexivity. cbn [Leaves.validate_binary Validators.validate_binary]. unfold Validators.b64decode, Leaves.b64decode.
    destruct (forallb (fun c => (c <? 128)%N) s); [|reflexivity]. rewrite b64_go_same. destruct (Validators.b64dec_go s 0 0 0 []); reflexivity.
  - intros v. unfold Leaves.function_dict, Validators.check_fn_dict, Validators.is_resolvable_dict, Resolve.is_fn_dict, Resolve.is_fn.
    destruct v as [ | | | | | | |d]; try reflexivity. destruct d as [|[k b] [|? ?]]; try reflexivity.
    destruct (mem_str k MODEL_FUNCTIONS); reflexivity.
  - intros modelled strict v. destruct v; try reflexivity. cbn [Roundtrip.check_type Validators.check_type]. rewrite is_modelled_keys.
    destruct strict; destruct (mem_str s (keys modelled)); reflexivity.
  - intros w. destruct w; try reflexivity. unfold Leaves.effect_hook, Policy.effect_store, Policy.effect_norm, Validators.effect_validator.
    change (Validators.capitalize s) with (Policy.capitalize s).
    change RConsts.S_Allow with (Policy.name Policy.Allow). change RConsts.S_Deny with (Policy.name Policy.Deny).
    destruct (str_eqb (Policy.capitalize s) (Policy.name Policy.Allow)) eqn:E1.
    + apply str_eqb_spec in E1. rewrite E1. reflexivity.
    + destruct (str_eqb (Policy.capitalize s) (Policy.name Policy.Deny)) eqn:E2; [|reflexivity]. apply str_eqb_spec in E2. rewrite E2. reflexivity.
  - intros v. destruct v; reflexivity.
Qed.
Print Assumptions C19_interpreter_leaves_are_the_validators.

(* the cost of whole parse: [validate_c] = the same interpreter with a step counter (one step per node of the input
   visited, per union alternative that visits it; a leaf costs 1 whatever is in it) *)
Theorem C19_cost_same_result :
  forall tbl modelled strict leafv n t v,
    fst (validate_c tbl modelled strict leafv n t v) = Roundtrip.validate tbl modelled strict leafv n t v.
Proof. intros tbl modelled strict leafv n t v. apply validate_c_costs. Qed.
Print Assumptions C19_cost_same_result.
(* steps <= weight * number of nodes, for every table, annotation, value, fuel and leaf validators; [weight] is computed
   from the table, the annotation and the fuel: it never sees the value, so neither numeric magnitudes nor the width of
   address ranges nor the length of texts can matter *)
Theorem C19_cost_bound :
  forall tbl modelled strict leafv n t v,
    (snd (validate_c tbl modelled strict leafv n t v) <= weight tbl modelled n t * vsize v)%nat.
Proof. exact cost_bound. Qed.
Print Assumptions C19_cost_bound.
(* in closed form: (alternatives of the annotation) * (largest number of alternatives of one field of the table) ^ fuel *)
Theorem C19_cost_bound_closed_form :
  forall tbl modelled strict leafv n t v,
    (snd (validate_c tbl modelled strict leafv n t v) <= fwidth modelled t * table_width tbl modelled ^ n * vsize v)%nat.
Proof. exact cost_bound_pow. Qed.
Print Assumptions C19_cost_bound_closed_form.
(* no unions (Optional, List, Dict, classes and leaves only; field names distinct): linear with constant 1 *)
Theorem C19_cost_linear_union_free :
  forall tbl modelled strict leafv n t v,
    plain_table tbl = true -> plain t = true -> (snd (validate_c tbl modelled strict leafv n t v) <= vsize v)%nat.
Proof.
  intros tbl modelled strict leafv n t v Ht Hp. etransitivity; [apply cost_bound_pow|].
  rewrite (plain_fwidth modelled t Hp), (plain_table_width tbl modelled Ht), Nat.pow_1_l. lia.
Qed.
Print Assumptions C19_cost_linear_union_free.
(* the live classes: linear in the size of the template (the table is acyclic; the kernel computes its weight).  The fuel 64 is
   RoundtripRun.DEPTH, the factor 64 is ParseCost.LIVE_K: a bound on the weight with head-room, equal to the fuel by accident *)
Theorem C19_cost_bound_live_schema :
  forall strict leafv v,
    (snd (validate_c PVGen.Schema.CLASSES PVGen.Schema.RESOURCE_MODELS strict leafv 64 CFMODEL_T v) <= 64 * vsize v)%nat.
Proof. intros strict leafv v. etransitivity; [apply cost_bound|]. apply Nat.mul_le_mono_r. exact live_weight. Qed.
Print Assumptions C19_cost_bound_live_schema.

Definition k_Resources : str := [82;101;115;111;117;114;99;101;115]%N.
Definition k_Type : str := [84;121;112;101]%N.
Definition k_r : str := [114]%N.
Definition parse_live (v : value) : res Roundtrip.tval := RoundtripRun.val_dumped true CFMODEL_T v.
(* garbage against the live table: a number, a list, Resources a list, a resource a number, Type a list, an unknown section:
   ValidationError; a repeated key (not JSON): declined *)
Example C19_ex_parse_garbage :
  parse_live (VInt 5) = Err EValidation /\
  parse_live (VList []) = Err EValidation /\
  parse_live (VDict [(k_Resources, VList [])]) = Err EValidation /\
  parse_live (VDict [(k_Resources, VDict [(k_r, VInt 5)])]) = Err EValidation /\
  parse_live (VDict [(k_Resources, VDict [(k_r, VDict [(k_Type, VList [VStr s_a])])])]) = Err EValidation /\
  parse_live (VDict [(s_a, VInt 1)]) = Err EValidation /\
  parse_live (VDict [(k_Resources, VDict []); (k_Resources, VDict [])]) = Err EUndefined.
Proof. vm_compute. repeat split. Qed.
(* a valid template: accepted, at most 2 steps per node for 54 nodes (the bound of C19_cost_bound_live_schema is 64 * 54) *)
Example C19_ex_parse_template :
  (exists x, fst (validate_c PVGen.Schema.CLASSES PVGen.Schema.RESOURCE_MODELS true (Leaves.leaf_validate RoundtripRun.core_dumped)
                    64 CFMODEL_T RoundtripExamples.EX_RAW) = Ok x) /\
  vsize RoundtripExamples.EX_RAW = 54%nat /\ vdepth RoundtripExamples.EX_RAW = 11%nat /\
  (snd (validate_c PVGen.Schema.CLASSES PVGen.Schema.RESOURCE_MODELS true (Leaves.leaf_validate RoundtripRun.core_dumped)
          64 CFMODEL_T RoundtripExamples.EX_RAW) <= 2 * 54)%nat.
Proof.
  (* one evaluation of the interpreter gives both the outcome and the step count; the model itself stays out of the proof *)
  set (r := validate_c _ _ _ _ _ _ _).
  assert (H : is_ok (fst r) && Nat.leb (snd r) (2 * 54) = true) by (vm_compute; reflexivity).
  clearbody r. destruct r as [[x|e] n]; [|discriminate].
  split; [exists x; reflexivity|]. split; [reflexivity|]. split; [reflexivity|]. apply Nat.leb_le. exact H.
Qed.
(* the leaf hypothesis is not idle: the pre-repair validate_binary (finding F11) lets TypeError out of the interpreter *)
Example C19_ex_unclean_leaf_escapes :
  Roundtrip.validate [] [] true (fun _ v => Leaves.validate_binary_old v) 0 (Typed.Schema.TLeaf Typed.Schema.LBinary) (VInt 5) = Err EType /\
  Roundtrip.validate [] [] true (fun _ v => Leaves.validate_binary v) 0 (Typed.Schema.TLeaf Typed.Schema.LBinary) (VInt 5) = Err EValidation.
Proof. split; reflexivity. Qed.
(* the nesting limit: six levels need fuel 6 (table T_REC: a class that reaches itself through a union) *)
Example C19_ex_depth :
  vdepth (chain 5) = 6%nat /\
  Roundtrip.validate T_REC [] true (Leaves.leaf_validate RoundtripRun.core_dumped) 5 (Typed.Schema.TModel [78%N]) (chain 5) = Err ERecursion /\
  Roundtrip.validate T_REC [] true (Leaves.leaf_validate RoundtripRun.core_dumped) 6 (Typed.Schema.TModel [78%N]) (chain 5) = Err EValidation /\
  Roundtrip.validate T_REC [] true (Leaves.leaf_validate RoundtripRun.core_dumped) 64 (Typed.Schema.TModel [78%N]) (chain 5) = Err EValidation.
Proof. vm_compute. repeat split. Qed.
(* a class that reaches itself through a union of width 2: 2^(k+1) - 1 steps for k+1 nodes (exponential in the depth is
   inherent); bound at fuel 8: weight 2^8 per node *)
Example C19_ex_cost_exponential :
  map (fun k => snd (validate_c T_REC [] true (Leaves.leaf_validate RoundtripRun.core_dumped) 8 (Typed.Schema.TModel [78%N]) (chain k)))
      [0; 1; 2; 3; 4; 5]%nat = [1; 3; 7; 15; 31; 63]%nat /\
  map (fun k => vsize (chain k)) [0; 1; 2; 3; 4; 5]%nat = [1; 2; 3; 4; 5; 6]%nat /\
  weight T_REC [] 8 (Typed.Schema.TModel [78%N]) = 256%nat /\ table_width T_REC [] = 2%nat.
Proof. vm_compute. repeat split. Qed.
(* a union-free table: every node once; and garbage costs no more *)
Example C19_ex_cost_linear :
  plain_table T_PLAIN = true /\ vsize plain_value = 8%nat /\
  (exists x, validate_c T_PLAIN [] true (Leaves.leaf_validate RoundtripRun.core_dumped) 8 (Typed.Schema.TModel [80%N]) plain_value = (Ok x, 8%nat)) /\
  validate_c T_PLAIN [] true (Leaves.leaf_validate RoundtripRun.core_dumped) 8 (Typed.Schema.TModel [80%N])
             (VDict [([97%N], VInt 7); ([98%N], VList [VList []])]) = (Err EValidation, 3%nat).
Proof. split; [vm_compute; reflexivity|]. split; [vm_compute; reflexivity|]. split; [eexists; vm_compute; reflexivity | vm_compute; reflexivity]. Qed.
(* a leaf costs one step whatever is in it: 10^30 like 1; 0.0.0.0/0 (2^32 addresses) like 10.0.0.0/8 *)
Example C19_ex_cost_magnitude_free :
  snd (validate_c [] [] true (Leaves.leaf_validate RoundtripRun.core_dumped) 0 (Typed.Schema.TLeaf Typed.Schema.LInt) (VInt (10 ^ 30))) = 1%nat /\
  snd (validate_c [] [] true (Leaves.leaf_validate RoundtripRun.core_dumped) 0 (Typed.Schema.TLeaf Typed.Schema.LInt) (VInt 1)) = 1%nat /\
  validate_c [] [] true (Leaves.leaf_validate RoundtripRun.core_dumped) 0 (Typed.Schema.TList (Typed.Schema.TLeaf Typed.Schema.LNet4))
             (VList [VStr [48;46;48;46;48;46;48;47;48]%N; VStr [49;48;46;48;46;48;46;48;47;56]%N]) =
    (Ok (Roundtrip.XList [Roundtrip.XLeaf (VTyped KNet4 [48;46;48;46;48;46;48;47;48]%N);
                          Roundtrip.XLeaf (VTyped KNet4 [49;48;46;48;46;48;46;48;47;56]%N)]), 3%nat).
Proof. vm_compute. repeat split. Qed.

(* algebraic laws of the custom validators *)
Definition k_FAV_colon : str := [70;111;114;65;108;108;86;97;108;117;101;115;58;83;116;114;105;110;103;76;105;107;101]%N. (* ForAllValues:StringLike *)
Definition k_FAV : str := [70;111;114;65;108;108;86;97;108;117;101;115;83;116;114;105;110;103;76;105;107;101]%N.             (* ForAllValuesStringLike *)
Definition k_StringEquals : str := [83;116;114;105;110;103;69;113;117;97;108;115]%N.

(* every refusal of every custom validator is a ValueError (the per-validator reading of C19_validators_clean);
   remove_colon and the tag coercion refuse nothing *)
Theorem C19_validators_refuse_with_value_error :
  forall (strict : bool) (modelled : list str) (cast : value -> value) (loads : str -> option value) (float_ok : str -> bool)
         (v : value) (e : err),
    (check_type strict modelled v = Err e -> e = EValue) /\
    (validate_binary v = Err e -> e = EValue) /\
    (semi_strict_bool v = Err e -> e = EValue) /\
    (check_fn_dict v = Err e -> e = EValue) /\
    (generic_casting cast v = Err e -> e = EValue) /\
    (json_prepass loads v = Err e -> e = EValue) /\
    (not_from_numbers float_ok v = Err e -> e = EValue) /\
    (not_from_booleans v = Err e -> e = EValue) /\
    (effect_validator v = Err e -> e = EValue) /\
    remove_colon v <> Err e /\
    tag_coerce v <> Err e.
Proof.
  intros strict modelled cast loads float_ok v e.
  split; [apply clean_err, check_type_clean|]. split; [apply clean_err, validate_binary_clean|].
  split; [apply clean_err, semi_strict_bool_clean|]. split; [apply clean_err, check_fn_dict_clean|].
  split; [apply clean_err, generic_casting_clean|]. split; [apply clean_err, json_prepass_clean|].
  split; [apply clean_err, not_from_numbers_clean|]. split; [apply clean_err, not_from_booleans_clean|].
  split; [apply clean_err, effect_validator_clean|].
  split; [apply never_raises_no_err, remove_colon_total | apply never_raises_no_err, tag_coerce_total].
Qed.
Print Assumptions C19_validators_refuse_with_value_error.
Example C19_ex_refusals :
  check_type true [k_Type] (VStr k_Type) = Err EValue /\ validate_binary (VInt 5) = Err EValue /\
  semi_strict_bool (VInt 1) = Err EValue /\ check_fn_dict (VDict []) = Err EValue /\
  generic_casting (fun x => x) (VList []) = Err EValue /\ json_prepass (fun _ => None) (VDict []) = Err EValue /\
  not_from_numbers (fun _ => false) (VInt 3) = Err EValue /\ not_from_booleans (VList [VBool true]) = Err EValue /\
  effect_validator (VStr k_Type) = Err EValue.
Proof. repeat split; reflexivity. Qed.

(* each validator ACCEPTS, UNCHANGED, WHAT IT PRODUCED -- unconditionally for all of them; the generic casting under the
   hypothesis that [cast] is idempotent, and not without it (C19_generic_casting_needs_idempotent_cast) *)
Theorem C19_validators_accept_own_output :
  forall (strict : bool) (modelled : list str) (cast : value -> value) (loads : str -> option value) (float_ok : str -> bool)
         (v w : value),
    (semi_strict_bool v = Ok w -> semi_strict_bool w = Ok w) /\
    (validate_binary v = Ok w -> validate_binary w = Ok w) /\
    (remove_colon v = Ok w -> remove_colon w = Ok w) /\
    (tag_coerce v = Ok w -> tag_coerce w = Ok w) /\
    (effect_validator v = Ok w -> effect_validator w = Ok w) /\
    (json_prepass loads v = Ok w -> json_prepass loads w = Ok w) /\
    ((forall x, cast (cast x) = cast x) -> generic_casting cast v = Ok w -> generic_casting cast w = Ok w) /\
    (check_type strict modelled v = Ok w -> w = v) /\ (check_fn_dict v = Ok w -> w = v) /\
    (not_from_numbers float_ok v = Ok w -> w = v) /\ (not_from_booleans v = Ok w -> w = v).
Proof.
  intros strict modelled cast loads float_ok v w.
  split; [apply semi_strict_bool_idem|]. split; [apply validate_binary_idem|]. split; [apply remove_colon_idem|].
  split; [apply tag_coerce_idem|]. split; [apply effect_validator_idem|]. split; [apply json_prepass_idem|].
  split; [apply generic_casting_idem|]. apply judges_return_argument.
Qed.
Print Assumptions C19_validators_accept_own_output.
Theorem C19_generic_casting_needs_idempotent_cast :
  exists cast v w, generic_casting cast v = Ok w /\ generic_casting cast w <> Ok w.
Proof.
  (* a cast that wraps *)
  exists (fun x => VList [x]), (VDict [(s_a, VNull)]), (VDict [(s_a, VList [VNull])]).
  split; [reflexivity | discriminate].
Qed.
Print Assumptions C19_generic_casting_needs_idempotent_cast.
(* the hypotheses are satisfiable non-trivially: text that decodes to a LIST CONTAINING JSON TEXT -- the pre-pass yields the list,
   and on the list it yields the list again, the inner text still text; "TRUE" -> true -> true; "aLLOW" -> "Allow" -> "Allow";
   a colon key -> stripped -> the same *)
Example C19_ex_accept_own_output :
  let loads := fun s : str => if str_eqb s [91;93]%N then Some (VList [VStr [123;125]%N]) else
                               if str_eqb s [123;125]%N then Some (VDict []) else None in
  json_prepass loads (VStr [91;93]%N) = Ok (VList [VStr [123;125]%N]) /\
  json_prepass loads (VList [VStr [123;125]%N]) = Ok (VList [VStr [123;125]%N]) /\
  json_prepass loads (VStr [123;125]%N) = Err EValue /\
  semi_strict_bool (VStr [84;82;85;69]%N) = Ok (VBool true) /\ semi_strict_bool (VBool true) = Ok (VBool true) /\
  effect_validator (VStr [97;76;76;79;87]%N) = Ok (VStr S_Allow) /\ effect_validator (VStr S_Allow) = Ok (VStr S_Allow) /\
  tag_coerce (VBool true) = Ok (VStr S_True) /\ tag_coerce (VStr S_True) = Ok (VStr S_True) /\
  remove_colon (VDict [(k_FAV_colon, VInt 1)]) = Ok (VDict [(k_FAV, VInt 1)]) /\
  remove_colon (VDict [(k_FAV, VInt 1)]) = Ok (VDict [(k_FAV, VInt 1)]).
Proof. vm_compute. repeat split. Qed.

(* remove_colon: the result has no ':' in a key and no key twice (always); the value under a key is that of the LAST input entry
   whose key, colons removed, is that key, at the POSITION of the first; appending an entry changes no other key; identity on an
   object with distinct colon-free keys *)
Theorem C19_remove_colon_laws :
  (forall d, NoDup (keys (rc_dict d)) /\ keys_colon_free (rc_dict d) = true) /\
  (forall d, remove_colon (VDict d) = Ok (VDict (rc_dict d))) /\
  (forall d k, lookup k (rc_dict d) = lookup k (rev (stripped d))) /\
  (forall d k x,
     rc_dict (d ++ [(k, x)]) = dset (strip_colons k) x (rc_dict d) /\
     keys (rc_dict (d ++ [(k, x)])) =
       (if mem_str (strip_colons k) (keys (rc_dict d)) then keys (rc_dict d) else keys (rc_dict d) ++ [strip_colons k]) /\
     lookup (strip_colons k) (rc_dict (d ++ [(k, x)])) = Some x /\
     (forall k', k' <> strip_colons k -> lookup k' (rc_dict (d ++ [(k, x)])) = lookup k' (rc_dict d))) /\
  (forall d, NoDup (keys d) -> keys_colon_free d = true -> remove_colon (VDict d) = Ok (VDict d)) /\
  (forall v, (forall d, v <> VDict d) -> remove_colon v = Ok v).
Proof.
  split; [exact rc_dict_keys|]. split; [exact remove_colon_dict|]. split; [exact rc_dict_lookup|].
  split; [|split; [exact remove_colon_identity | exact remove_colon_non_dict]].
  intros d k x. rewrite rc_dict_snoc. split; [reflexivity|]. split; [apply dset_keys|].
  split; [rewrite lookup_dset, str_eqb_refl; reflexivity | intros k' N; rewrite lookup_dset, (proj2 (str_eqb_neq _ _) N); reflexivity].
Qed.
Print Assumptions C19_remove_colon_laws.
Theorem C19_remove_colon_identity_needs_distinct_keys :
  exists d, keys_colon_free d = true /\ remove_colon (VDict d) <> Ok (VDict d).
Proof. exists [(s_a, VNull); (s_a, VBool true)]. split; [reflexivity | discriminate]. Qed.
Print Assumptions C19_remove_colon_identity_needs_distinct_keys.
(* "ForAllValues:StringLike" and "ForAllValuesStringLike" both present: ONE key, in the place of the first, with the value of the
   second -- whichever the order; StringEquals beside them is untouched *)
Example C19_ex_remove_colon_collision :
  remove_colon (VDict [(k_FAV_colon, VInt 1); (k_StringEquals, VInt 3); (k_FAV, VInt 2)]) =
    Ok (VDict [(k_FAV, VInt 2); (k_StringEquals, VInt 3)]) /\
  remove_colon (VDict [(k_FAV, VInt 2); (k_StringEquals, VInt 3); (k_FAV_colon, VInt 1)]) =
    Ok (VDict [(k_FAV, VInt 1); (k_StringEquals, VInt 3)]) /\
  NoDup (keys [(k_FAV, VInt 2); (k_StringEquals, VInt 3)]) /\ keys_colon_free [(k_FAV, VInt 2); (k_StringEquals, VInt 3)] = true.
Proof.
  split; [vm_compute; reflexivity|]. split; [vm_compute; reflexivity|]. split; [|reflexivity].
  constructor; [intros [C | []]; discriminate | constructor; [intros [] | constructor]].
Qed.

(* semi_strict_bool: exactly the booleans and the ASCII-case-insensitive texts true / false; the result is a boolean *)
Theorem C19_semi_strict_bool_exact :
  forall v w, semi_strict_bool v = Ok w <->
    (exists b, v = VBool b /\ w = VBool b) \/
    (exists s, v = VStr s /\ ((lower s = S_true /\ w = VBool true) \/ (lower s = S_false /\ w = VBool false))).
Proof. exact semi_strict_bool_exact. Qed.
Print Assumptions C19_semi_strict_bool_exact.
(* "False" accepted; 0, 1, "yes", null and "falſe" (long s, U+017F: Python's lower() leaves it, so does the model) refused *)
Example C19_ex_semi_strict_bool :
  semi_strict_bool (VStr [70;97;108;115;101]%N) = Ok (VBool false) /\
  semi_strict_bool (VInt 0) = Err EValue /\ semi_strict_bool (VInt 1) = Err EValue /\
  semi_strict_bool (VStr [121;101;115]%N) = Err EValue /\ semi_strict_bool VNull = Err EValue /\
  semi_strict_bool (VStr [102;97;108;383;101]%N) = Err EValue /\ semi_strict_bool (VStr [70;65;76;383;69]%N) = Err EValue.
Proof. vm_compute. repeat split. Qed.

(* the effect validator: exactly the case-insensitive spellings of allow / deny, answered capitalised; other values untouched *)
Theorem C19_effect_exact :
  (forall s w, effect_validator (VStr s) = Ok w <->
     (lower s = S_allow_l /\ w = VStr S_Allow) \/ (lower s = S_deny_l /\ w = VStr S_Deny)) /\
  (forall v, (forall s, v <> VStr s) -> effect_validator v = Ok v).
Proof. split; [exact effect_validator_exact | exact effect_validator_non_text]. Qed.
Print Assumptions C19_effect_exact.
Example C19_ex_effect :
  effect_validator (VStr [68;69;78;89]%N) = Ok (VStr S_Deny) /\ lower [68;69;78;89]%N = S_deny_l /\
  effect_validator (VStr [65;108;108;111;119;101;100]%N) = Err EValue /\                 (* "Allowed" *)
  effect_validator (VStr [256;108;108;111;119]%N) = Err EValue /\                        (* A-macron + "llow" *)
  effect_validator (VDict [(k_r, VInt 1)]) = Ok (VDict [(k_r, VInt 1)]).
Proof. vm_compute. repeat split. Qed.

(* check_type: refuses exactly (a) a modelled type string when strict and (b) anything that is neither text nor null -- the
   number 18, a list of modelled strings; never changes the value; with strict off every text passes *)
Theorem C19_check_type_exact :
  (forall strict modelled v e, check_type strict modelled v = Err e <->
     e = EValue /\ ((exists s, v = VStr s /\ mem_str s modelled = true /\ strict = true) \/
                    (v <> VNull /\ forall s, v <> VStr s))) /\
  (forall strict modelled v w, check_type strict modelled v = Ok w -> w = v) /\
  (forall modelled s, check_type false modelled (VStr s) = Ok (VStr s)).
Proof. split; [exact check_type_exact|]. split; [exact check_type_unchanged | exact check_type_lax_accepts]. Qed.
Print Assumptions C19_check_type_exact.
Example C19_ex_check_type :
  check_type true [k_Type] (VStr k_Type) = Err EValue /\ check_type false [k_Type] (VStr k_Type) = Ok (VStr k_Type) /\
  check_type true [k_Type] (VStr k_r) = Ok (VStr k_r) /\ check_type true [k_Type] VNull = Ok VNull /\
  check_type false [k_Type] (VInt 18) = Err EValue /\ check_type false [k_Type] (VList [VStr k_Type]) = Err EValue.
Proof. repeat split; reflexivity. Qed.

(* Binary: decoding inverts the encoder (Resolver/FnAlgebra.b64_roundtrip, the C01 law); text of alphabet characters only
   decodes exactly when its length is a multiple of four, so length 4k+1 is refused *)
Theorem C19_binary_roundtrip :
  (forall bs, Forall (fun b : N => (b < 256)%N) bs -> validate_binary (VStr (Resolver.Text.b64encode bs)) = Ok (VBytes bs)) /\
  (forall s, b64_plain s = true ->
     ((exists bs, validate_binary (VStr s) = Ok (VBytes bs)) <-> exists n : N, N.of_nat (length s) = (4 * n)%N)) /\
  (forall (s : str) (k : N), b64_plain s = true -> N.of_nat (length s) = (4 * k + 1)%N -> validate_binary (VStr s) = Err EValue).
Proof. split; [exact validate_binary_roundtrip|]. split; [exact validate_binary_plain_iff | exact validate_binary_plain_len1_refused]. Qed.
Print Assumptions C19_binary_roundtrip.
(* "QUJD" = ABC; an embedded blank is discarded ("QU JD"); missing padding is refused ("QUI", "QQ") and complete padding accepted
   ("QUI=", "QQ=="); one data character ("A") and five ("QUJDR") are refused; a complete pad ENDS the input ("QQ==QUJD" = A);
   a stray '=' before two data characters is skipped ("Q=UJD" = ABC); non-ASCII text is refused; bytes pass as they are *)
Example C19_ex_binary :
  validate_binary (VStr [81;85;74;68]%N) = Ok (VBytes [65;66;67]%N) /\ Resolver.Text.b64encode [65;66;67]%N = [81;85;74;68]%N /\
  validate_binary (VStr [81;85;32;74;68]%N) = Ok (VBytes [65;66;67]%N) /\
  validate_binary (VStr [81;85;73]%N) = Err EValue /\ validate_binary (VStr [81;81]%N) = Err EValue /\
  validate_binary (VStr [81;85;73;61]%N) = Ok (VBytes [65;66]%N) /\ validate_binary (VStr [81;81;61;61]%N) = Ok (VBytes [65]%N) /\
  validate_binary (VStr [65]%N) = Err EValue /\ b64_plain [65]%N = true /\
  validate_binary (VStr [81;85;74;68;82]%N) = Err EValue /\
  validate_binary (VStr [81;81;61;61;81;85;74;68]%N) = Ok (VBytes [65]%N) /\
  validate_binary (VStr [81;61;85;74;68]%N) = Ok (VBytes [65;66;67]%N) /\
  validate_binary (VStr [81;85;74;68;233]%N) = Err EValue /\
  validate_binary (VBytes [1;2]%N) = Ok (VBytes [1;2]%N).
Proof. vm_compute. repeat split. Qed.

(* what Binary decodes are BYTES (< 256), hence the text form of its own output -- the base64 of the decoded bytes, which is what a
   dumped Binary is -- is accepted and decodes to the same bytes, whatever blanks, strays or trailing text the original had *)
Theorem C19_binary_reencode :
  (forall s bs, b64decode s = Some bs -> Forall (fun b : N => (b < 256)%N) bs) /\
  (forall v bs, (forall bs', v <> VBytes bs') ->
     validate_binary v = Ok (VBytes bs) -> validate_binary (VStr (Resolver.Text.b64encode bs)) = Ok (VBytes bs)).
Proof. split; [exact b64decode_bytes | exact validate_binary_reencode]. Qed.
Print Assumptions C19_binary_reencode.
(* "QQ==QUJD" decodes to A; A encodes to "QQ==": the text changes, the bytes do not *)
Example C19_ex_binary_reencode :
  validate_binary (VStr [81;81;61;61;81;85;74;68]%N) = Ok (VBytes [65]%N) /\
  Resolver.Text.b64encode [65]%N = [81;81;61;61]%N /\ validate_binary (VStr [81;81;61;61]%N) = Ok (VBytes [65]%N).
Proof. vm_compute. repeat split. Qed.
