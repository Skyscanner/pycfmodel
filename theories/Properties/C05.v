(* C05 -- The pipeline never fails on a valid, fully resolvable template; bounded resources.
   "For every well-formed CloudFormation template in the supported subset whose references all have values of the
   right type, parse, resolve, expand_actions and the policy queries ... complete without raising, in time and memory
   bounded by the size of the template and not by the magnitude of the values it mentions ..."

   PROVED here, for ALL inputs, about the hand-written models of CFModel.resolve (Resolver/Template.v resolve_model) and of
   expand_actions() (Robust/Validators.v expand_tree): a template satisfying the BOOLEAN predicate [valid_template]
   (Robust/WellFormed.v -- a type system over expressions; evaluated by the runner on every generated template) resolves
   without any error; the action walk fails exactly on a non-textual Action value (never once the C10 guard is present);
   the resolver has no unsupported leaf; the instrumented walk is linear in the number of nodes with a typed atom
   (network, date, bytes) costing one step whatever its magnitude; the RESOLVER instrumented with a step counter
   (Robust/ResolveCost.v: resolve_c, cost rules next to the Python lines) computes the same result and its cost is at
   most tsize v + refs v * psize e <= tsize v * (1 + psize e) -- sizes in nodes and characters, no magnitudes -- for the
   walk cost of EVERY expression and for the full cost of expressions without Fn::Join / Fn::Split / Fn::Base64 /
   Fn::Sub-with-variables; for those four the full cost includes the length of an intermediate text, which grows
   geometrically with nesting (C05_resolve_full_cost_not_polynomial), so no polynomial bound exists and none is claimed;
   the condition table is not costed.
   NOT provable and not claimed: wall time, memory, the interpreter, pydantic-core's validation (re-validation after
   resolve / expand) and the query methods -- those are executed in a resource-limited sandbox on every generated
   template and in a CIDR-width sweep (harness/props/c05.py): partial. *)
From Coq Require Import List Bool NArith ZArith Lia.
From PV Require Import Base.Str Base.Value Resolver.Consts Resolver.Text Resolver.Resolve Resolver.Spec Resolver.Template.
From PV Require Import Robust.RConsts Robust.Validators Robust.ValidatorsFacts Robust.WellFormed Robust.NoError Robust.Cost Robust.ResolveCost Robust.ExampleTemplate.
Import ListNotations.
Local Open Scope N_scope.

Theorem C05_no_error : forall pseudo decls extra maps cdecl rs : list (str * value),
  valid_template pseudo decls extra maps cdecl rs = true ->
  exists r, resolve_model pseudo decls extra maps cdecl rs = Ok r.
Proof.
  intros pseudo decls extra maps cdecl rs H. unfold valid_template, resolve_model in H |- *. apply andb_true_iff in H. destruct H as [Hd H].
  destruct (bind_params pseudo decls extra) as [ps|]; [|discriminate]. simpl.
  apply andb_true_iff in H. destruct H as [H Hr]. apply andb_true_iff in H. destruct H as [Hm Hc].
  destruct (cond_all_total ps maps cdecl (keys cdecl) Hm Hc) as [resolved ->]. simpl.
  destruct (resolve_resources_total {| params := ps; mappings := maps; conds := conds_fun resolved |} resolved rs) as [l ->]; simpl; eauto.
  intros n. unfold conds_fun. eauto.
Qed.
Print Assumptions C05_no_error.

(* the expression-level statement it rests on: a well-typed expression resolves, to a value of the shape its type announces,
   in EVERY environment with these parameters and mappings whose condition references have values *)
Theorem C05_wf_expr_resolves : forall (e : env) (v : value) (t : ty),
  wf_maps (mappings e) = true -> (forall n, exists b, conds e n = Ok b) ->
  ty_of (params e) (mappings e) v = Some t ->
  exists r, resolve e v = Ok r /\ shape t r = true.
Proof. intros e v t Hm Hc Ht. exact (wf_resolves e v Hm Hc t Ht). Qed.
Print Assumptions C05_wf_expr_resolves.

(* parameters: a declared parameter without any value, list-typed or not, never makes binding fail *)
Theorem C05_parameters_bind : forall pseudo decls extra : list (str * value),
  wf_decls decls extra = true -> exists ps, bind_params pseudo decls extra = Ok ps.
Proof. exact wf_bind_params. Qed.
Print Assumptions C05_parameters_bind.
Theorem C05_valueless_parameter : forall d : value,
  field K_Default d = None -> exists o, ref_value d None = Ok o.
Proof.
  intros d H. apply wf_decl_ok. unfold wf_decl. rewrite H. apply orb_true_r.
Qed.
Print Assumptions C05_valueless_parameter.

(* conditions: on-demand evaluation of well-typed condition declarations always yields a boolean (no fuel exhaustion,
   whatever the reference graph: cycles, self references, undeclared names) *)
Theorem C05_conditions_total : forall (ps maps decl : list (str * value)) (n : str),
  wf_maps maps = true -> forallb (fun kb => wf_cond ps maps (snd kb)) decl = true ->
  exists b, cond_root ps maps decl n = Ok b.
Proof.
  intros ps maps decl n Hm Hd. unfold cond_root. apply cond_val_total; [assumption | | unfold keys; rewrite map_length; lia].
  intros m body L. exact (lookup_forallb (wf_cond ps maps) m decl body Hd L).
Qed.
Print Assumptions C05_conditions_total.

(* the resolver renders every kind of leaf (bytes, dates, networks, numbers, booleans, null): no "Not supported type" *)
Theorem C05_leaf_total : forall (e : env) (v : value), is_leaf v = true ->
  resolve e v = Ok VNull \/ exists s, resolve e v = Ok (VStr s).
Proof. intros e v. destruct v; simpl; try discriminate; intros _; eauto. Qed.
Print Assumptions C05_leaf_total.

(* expand_actions(): without the C10 guard the walk succeeds exactly when every non-null Action / NotAction value is text or a list of text;
   with the guard it always succeeds *)
Theorem C05_expand_fails_iff : forall (guard : bool) (exp : bool -> list str -> list str) (v : value),
  is_ok (expand_tree guard exp v) = guard || actions_textual v.
Proof. intros guard exp v. exact (veu_is_ok _ _ (expand_tree_spec guard exp v)). Qed.
Print Assumptions C05_expand_fails_iff.
Theorem C05_expand_no_error : forall (exp : bool -> list str -> list str) (v : value),
  actions_textual v = true -> exists r, expand_tree false exp v = Ok r.
Proof. exact (expand_tree_total false). Qed.
Print Assumptions C05_expand_no_error.
Theorem C05_expand_guarded_total : forall (exp : bool -> list str -> list str) (v : value),
  exists r, expand_tree true exp v = Ok r.
Proof. intros exp v. exact (expand_tree_total true exp v eq_refl). Qed.
Print Assumptions C05_expand_guarded_total.
Theorem C05_expand_only_value_error : forall (guard : bool) (exp : bool -> list str -> list str) (v : value),
  clean (expand_tree guard exp v).
Proof. intros guard exp v. exact (veu_clean _ _ (expand_tree_spec guard exp v)). Qed.
Print Assumptions C05_expand_only_value_error.

(* cost of the modelled walk: linear in the number of nodes, a typed atom is one node *)
Theorem C05_cost_same_result : forall (guard : bool) (exp : bool -> list str -> list str) (K : nat) (v : value),
  fst (expand_tree_c guard exp K v) = expand_tree guard exp v.
Proof. intros guard exp K v. apply expand_tree_c_spec. Qed.
Print Assumptions C05_cost_same_result.
Theorem C05_cost_linear : forall (guard : bool) (exp : bool -> list str -> list str) (K : nat) (v : value),
  (snd (expand_tree_c guard exp K v) <= (K + 1) * vsize v)%nat.
Proof. intros guard exp K v. apply expand_tree_c_spec. Qed.
Print Assumptions C05_cost_linear.
Theorem C05_typed_atom_unit_cost : forall guard exp K (k : tkind) (text : str),
  snd (expand_tree_c guard exp K (VTyped k text)) = 1%nat /\ vsize (VTyped k text) = 1%nat.
Proof. intros. split; reflexivity. Qed.
Print Assumptions C05_typed_atom_unit_cost.

(* cost of the modelled resolver (Robust/ResolveCost.v).
   [resolve_c w e v]: [resolve e v] with a step counter.  1 step per node visited (a number, date or IP network is ONE
   step), [vsize] of a parameter value / mapping leaf per Ref, Fn::ImportValue, Fn::FindInMap, Fn::Sub placeholder that
   copies it, 1 + the key's characters per entry that Fn::FindInMap's case-blind fallback scans when a key "true" / "false" is
   not in a mapping level as written (library `_mapping_get`, repair of F31; at most the keys of the two levels, so the bounds
   below stand unchanged), the length of an Fn::Sub text for its scan, and, times the weight [w], the size of the intermediate text
   that Fn::Join produces / Fn::Split consumes / Fn::Base64 encodes / an Fn::Sub variable inserts.
   [w = 1]: full cost.  [w = 0]: walk cost.  [tsize]: nodes + characters of the expression; [psize e]: nodes + characters
   of all parameter values and mappings; [refs v]: the places of v that can copy a parameter value. *)
Theorem C05_resolve_cost_same_result : forall (w : nat) (e : env) (v : value),
  fst (resolve_c w e v) = resolve e v.
Proof. exact resolve_c_result. Qed.
Print Assumptions C05_resolve_cost_same_result.
(* the charge of one Fn::FindInMap: the scan(s) of the fallback plus the copy of the leaf -- never more than the environment *)
Theorem C05_find_in_map_cost_le : forall (e : env) (m k1 k2 : value), (do_find_in_map_cost e m k1 k2 <= 1 + psize e)%nat.
Proof. exact do_find_in_map_cost_le. Qed.
Print Assumptions C05_find_in_map_cost_le.
(* Mappings {"M": {"a": {}, "True": {"k": "yes"}}}: the key "true" is not there as written, the scan visits "a" (2) and "True" (5) *)
Example C05_ex_find_in_map_scan_cost :
  let e := {| params := []; mappings := [([77], VDict [([97], VDict []); ([84;114;117;101], VDict [([107], VStr [121;101;115])])])];
              conds := fun _ => Ok false |} in
  do_find_in_map e (VStr [77]) (VStr S_true) (VStr [107]) = Ok (VStr [121;101;115]) /\
  do_find_in_map_cost e (VStr [77]) (VStr S_true) (VStr [107]) = 8%nat /\
  do_find_in_map_cost e (VStr [77]) (VStr [97]) (VStr [107]) = 1%nat /\ psize e = 16%nat.
Proof. vm_compute. repeat split. Qed.
(* multiplicative because every Ref / placeholder may copy a whole parameter value (C05_example_cost_multiplicative) *)
Theorem C05_resolve_cost_bound : forall (w : nat) (e : env) (v : value),
  w = 0%nat \/ light v = true ->
  (snd (resolve_c w e v) <= tsize v * (1 + psize e))%nat.
Proof. exact resolve_c_bound. Qed.
Print Assumptions C05_resolve_cost_bound.
Theorem C05_resolve_cost_bound_refs : forall (w : nat) (e : env) (v : value),
  w = 0%nat \/ light v = true ->
  (snd (resolve_c w e v) <= tsize v + refs v * psize e)%nat.
Proof. exact resolve_c_bound_refs. Qed.
Print Assumptions C05_resolve_cost_bound_refs.
(* the two readings of the hypothesis *)
Theorem C05_resolve_walk_cost_bound : forall (e : env) (v : value),
  (snd (resolve_c 0 e v) <= tsize v * (1 + psize e))%nat.
Proof. intros e v. apply resolve_c_bound. left. reflexivity. Qed.
Print Assumptions C05_resolve_walk_cost_bound.
Theorem C05_resolve_full_cost_bound_light : forall (e : env) (v : value), light v = true ->
  (snd (resolve_c 1 e v) <= tsize v * (1 + psize e))%nat.
Proof. intros e v H. apply resolve_c_bound. right. exact H. Qed.
Print Assumptions C05_resolve_full_cost_bound_light.
Theorem C05_resolve_atom_unit_cost : forall (w : nat) (e : env) (k : tkind) (text : str) (z : Z),
  snd (resolve_c w e (VTyped k text)) = 1%nat /\ snd (resolve_c w e (VInt z)) = 1%nat.
Proof. intros. split; reflexivity. Qed.
Print Assumptions C05_resolve_atom_unit_cost.
(* the resources of a template: the sum *)
Theorem C05_resources_cost_same_result : forall (w : nat) (e : env) (resolved : list (str * bool)) (rs : list (str * value)),
  fst (resolve_resources_c w e resolved rs) = resolve_resources e resolved rs.
Proof.
  intros w e resolved rs.
  induction rs as [|[id r] rest IH]; [reflexivity|].
  cbn [resolve_resources_c resolve_resources]. apply fst_cbind; [reflexivity|]. intros [|]; [|exact IH].
  apply fst_cbind; [|intros r'; apply fst_cbind; [exact IH | reflexivity]].
  apply fst_cbind; [apply resolve_c_result | reflexivity].
Qed.
Print Assumptions C05_resources_cost_same_result.
Theorem C05_resources_cost_bound : forall (w : nat) (e : env) (resolved : list (str * bool)) (rs : list (str * value)),
  w = 0%nat \/ forallb (fun kv => light (snd kv)) rs = true ->
  (snd (resolve_resources_c w e resolved rs) <= tsize (VDict rs) * (1 + psize e))%nat.
Proof.
  intros w e resolved rs Hw.
  pose proof (resolve_resources_c_bound w e resolved rs Hw). pose proof (bnd_dict e rs) as Hb.
  pose proof (refs_le_tsize (VDict rs)). unfold bnd in Hb. nia.
Qed.
Print Assumptions C05_resources_cost_bound.
(* why the full cost of nested Fn::Join has NO polynomial bound: S = "ab", L = ["a","b","c"],
   jn 0 = {"Ref":"S"}, jn (d+1) = {"Fn::Join": [jn d, {"Ref":"L"}]}: 18 characters more per level, at least twice the steps *)
Theorem C05_resolve_full_cost_not_polynomial : forall d : nat,
  tsize (cx_jn d) = (7 + 18 * d)%nat /\ (2 ^ d <= snd (resolve_c 1 cx_env2 (cx_jn d)))%nat.
Proof. intros d. split; [apply cx_jn_tsize|]. destruct (cx_jn_run d) as (s & c & E & _ & Hc). rewrite E. exact Hc. Qed.
Print Assumptions C05_resolve_full_cost_not_polynomial.
(* a concrete expression (two Refs to a 20-element list, a /8 network, a number, an Fn::Sub with two placeholders):
   66 steps; bound 60 + 4 * 52 = 268 *)
Example C05_example_cost_not_vacuous :
  light (cx_expr cx_net8) = true /\ is_ok (fst (resolve_c 1 cx_env (cx_expr cx_net8))) = true /\
  snd (resolve_c 1 cx_env (cx_expr cx_net8)) = 66%nat /\
  tsize (cx_expr cx_net8) = 60%nat /\ refs (cx_expr cx_net8) = 4%nat /\ psize cx_env = 52%nat.
Proof. exact cx_bound_not_vacuous. Qed.
(* 10.0.0.0/8 (16 777 216 addresses) costs what 10.0.0.0/32 costs *)
Example C05_example_cost_network_width :
  snd (resolve_c 1 cx_env (cx_expr cx_net8)) = snd (resolve_c 1 cx_env (cx_expr cx_net32)).
Proof. exact cx_network_width_irrelevant. Qed.
(* ten Refs copy the list ten times: 231 steps > tsize + psize = 71 + 52; bound 71 + 10 * 52 *)
Example C05_example_cost_multiplicative :
  snd (resolve_c 1 cx_env cx_tenrefs) = 231%nat /\ tsize cx_tenrefs = 71%nat /\ refs cx_tenrefs = 10%nat /\
  light cx_tenrefs = true.
Proof. exact cx_multiplicative. Qed.
(* depth 8 of the nested Fn::Join: full cost above tsize * (1 + psize), walk cost 59 *)
Example C05_example_join_blowup :
  Nat.ltb (tsize (cx_jn 8) * (1 + psize cx_env2)) (snd (resolve_c 1 cx_env2 (cx_jn 8))) = true /\
  snd (resolve_c 0 cx_env2 (cx_jn 8)) = 59%nat.
Proof. exact cx_join_blowup_8. Qed.
Example C05_example_sub_blowup :
  Nat.ltb (tsize (cx_jdbl 12) * (1 + psize cx_env2)) (snd (resolve_c 1 cx_env2 (cx_jdbl 12))) = true /\
  snd (resolve_c 0 cx_env2 (cx_jdbl 12)) = 136%nat.
Proof. exact cx_sub_blowup_12. Qed.

(* the hypotheses are satisfiable: the template of corpus/C05.json (see Robust/ExampleTemplate.v) *)
Definition dict_of (v : value) : list (str * value) := match v with VDict d => d | _ => [] end.
Example C05_example_valid :
  valid_template (dict_of ex_pseudo) (dict_of ex_decls) (dict_of ex_extra) (dict_of ex_maps) (dict_of ex_conds) (dict_of ex_resources) = true.
Proof. vm_compute. reflexivity. Qed.
Example C05_example_resolves :
  is_ok (resolve_model (dict_of ex_pseudo) (dict_of ex_decls) (dict_of ex_extra) (dict_of ex_maps) (dict_of ex_conds) (dict_of ex_resources)) = true.
Proof. vm_compute. reflexivity. Qed.
(* typed atoms of the example: a /4 network resolves to its text like any other leaf *)
Example C05_example_wide_network :
  resolve {| params := []; mappings := []; conds := fun _ => Ok false |} (VTyped KNet4 [49; 48; 46; 48; 46; 48; 46; 48; 47; 52])
  = Ok (VStr [49; 48; 46; 48; 46; 48; 46; 48; 47; 52]).
Proof. reflexivity. Qed.
(* what the predicate rejects, and why it must: the resolver model fails on each *)
Definition e0 : env := {| params := []; mappings := []; conds := fun _ => Ok false |}.
Example C05_reject_join_of_object :
  wf_expr [] [] (VDict [(K_Join, VList [VStr []; VList [VDict []]])]) = false /\
  is_ok (resolve e0 (VDict [(K_Join, VList [VStr []; VList [VDict []]])])) = false.
Proof. split; reflexivity. Qed.
Example C05_reject_condition_object :
  wf_expr [] [] (VDict [(K_Condition, VDict [])]) = false /\ is_ok (resolve e0 (VDict [(K_Condition, VDict [])])) = false.
Proof. split; reflexivity. Qed.
Example C05_reject_split_empty_delimiter :
  wf_expr [] [] (VDict [(K_Split, VList [VStr []; VStr [97]])]) = false /\
  resolve e0 (VDict [(K_Split, VList [VStr []; VStr [97]])]) = Err EValue.
Proof. split; reflexivity. Qed.
Example C05_object_action :
  actions_textual (VDict [(K_Action, VDict [([66], VDict [])])]) = false /\
  expand_tree false (fun _ l => l) (VDict [(K_Action, VDict [([66], VDict [])])]) = Err EValue /\
  is_ok (expand_tree true (fun _ l => l) (VDict [(K_Action, VDict [([66], VDict [])])])) = true.
Proof. repeat split; reflexivity. Qed.
