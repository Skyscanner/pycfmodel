(* C18 -- Generic property casting preserves values.
   The theorems of the property, each proved from the lemmas of Typed/CastFacts.v, Typed/CastOk.v and Typed/CastShape.v.
   Model: Typed/Cast.v ([cast], the algorithm of pycfmodel/model/generic.py; [spec_cfg] = the specified algorithm,
   [orig_cfg] = the code as found before fix-float-datetime / fix-bool-int-list / fix-empty-object).  Spec: [cast_ok] in
   Typed/CastOk.v.
   Oracle hypotheses: [all_confirmed g] -- the leaf annotations of g (answers of pydantic / ipaddress computed in isolation
   by the harness) are confirmed by the Gallina checkers of Typed/Literals.v. *)
From Coq Require Import List Bool NArith ZArith Lia.
From PV Require Import Typed.CastFacts.
From PV Require Import Base.Str Base.Value Typed.GValue Typed.Cast Typed.Literals Typed.Collect Typed.CastOk Typed.Witness.
From PV Require Import Typed.CastShape.
Import ListNotations.

(* For every JSON value used as a property of an unmodelled resource: what the specified casting presents is an allowed
   presentation of the value -- bool only from true/false (any case) or a JSON boolean, int only from an integer literal or
   a whole number, numbers stay numbers, date/timestamp/network only from text the checker confirms, JSON text may become
   what it encodes, every other string unchanged, containers keep keys, order, length and members. *)
Theorem C18_preserves :
  forall (funcs : list str) (g : gvalue),
    all_confirmed g = true -> cast_ok (spec_cfg funcs) g (cast (spec_cfg funcs) g) = true.
Proof. exact cast_preserves. Qed.
Print Assumptions C18_preserves.

(* Text becomes a boolean only when it is true/false in some letter case, or JSON text of a boolean, or JSON text of such
   a string.  Holds for EVERY configuration and for arbitrary annotations: SemiStrictBool is modelled, not an oracle. *)
Theorem C18_not_bool :
  forall (c : cfg) (s : str) (j : option gvalue) (a : sann) (b : bool),
    cast c (GStr s j a) = TBool b ->
    bool_literal s = Some b
    \/ (exists a', j = Some (GBool b a'))
    \/ (exists s' j' a', j = Some (GStr s' j' a') /\ bool_literal s' = Some b).
Proof.
  intros c s j a b. destruct j as [j|]; cbn [cast].
  - destruct (choose c j) as [|r|t|b0|] eqn:E; cbn [finish]; try discriminate.
    intros ->. apply choose_bool in E. destruct j; simpl in E; try discriminate.
    + inversion E; subst. right; left. eexists; reflexivity.
    + destruct (bool_literal s0) eqn:B; [|discriminate]. inversion E; subst. right; right. do 3 eexists. split; eauto.
  - destruct (choose c (GStr s None a)) as [|r|t|b0|] eqn:E; cbn [finish]; try discriminate.
    intros ->. apply choose_bool in E. simpl in E. destruct (bool_literal s) eqn:B; [|discriminate]. inversion E; subst. left; reflexivity.
Qed.
Print Assumptions C18_not_bool.

Theorem C18_not_bool_plain :
  forall (c : cfg) (s : str) (a : sann), bool_literal s = None -> forall b, cast c (GStr s None a) <> TBool b.
Proof. intros c s a N b H. apply C18_not_bool in H. destruct H as [H|[[a' H]|(s' & j' & a' & H & _)]]; congruence. Qed.
Print Assumptions C18_not_bool_plain.

Theorem C18_not_bool_json :
  forall (c : cfg) (s : str) (j : option gvalue) (a : sann),
    bool_literal s = None -> (forall b a', j <> Some (GBool b a')) -> (forall s' j' a', j <> Some (GStr s' j' a')) ->
    forall b, cast c (GStr s j a) <> TBool b.
Proof.
  intros c s j a N J1 J2 b H. apply C18_not_bool in H.
  destruct H as [H|[[a' H]|(s' & j' & a' & H & _)]]; [congruence|eapply J1; eauto|eapply J2; eauto].
Qed.
Print Assumptions C18_not_bool_json.

(* a string no alternative reads stays the same string *)
Theorem C18_other_string_id :
  forall (c : cfg) (s : str) (a : sann), no_reading s a -> cast c (GStr s None a) = TStr s.
Proof.
  intros c s a (B & I & D & T & N & _). pose proof (choose_leaf c (GStr s None a) eq_refl) as K.
  pose proof (choose_spec c (GStr s None a)) as S. cbn [cast].
  destruct (choose c _) as [| |t| |]; try contradiction; [|reflexivity]. destruct S as (b & _ & S).
  destruct b; cbn in S; rewrite ?B, ?I, ?D, ?T, ?N in S; inversion S; reflexivity.
Qed.
Print Assumptions C18_other_string_id.

(* ... and so does JSON text whose decoded value no alternative accepts *)
Theorem C18_rejected_json_text_id :
  forall (c : cfg) (s : str) (j : gvalue) (a : sann), choose c j = CNone -> cast c (GStr s (Some j) a) = TStr s.
Proof. exact rejected_json_text_same. Qed.
Print Assumptions C18_rejected_json_text_id.

Theorem C18_shape_list :
  forall (c : cfg) (l : list gvalue), exists ts, cast c (GList l) = TList ts /\ length ts = length l.
Proof. intros c l. destruct (cast_list_cases c l) as [[_ ->]|(b & _ & _ & ->)]; eexists; (split; [reflexivity|apply map_length]). Qed.
Print Assumptions C18_shape_list.

(* an object stays an object with the same keys in the same order, or is a function call kept as written, or -- never when
   empty, under the specified algorithm -- an instance of the property model the recogniser names *)
Theorem C18_shape_object :
  forall (c : cfg) (d : list (str * gvalue)) (r : option recog),
    (exists d', cast c (GDict d r) = TGeneric d' /\ map fst d' = map fst d)
    \/ (cast c (GDict d r) = TFn (strip (GDict d r)) /\ fnb c (GDict d r) = true)
    \/ (exists r', cast c (GDict d r) = TProp r' /\ r = Some r' /\ (c_empty_plain c = true -> d <> [])).
Proof.
  intros c d r. pose proof (choose_spec c (GDict d r)) as S. pose proof (choose_dict_shape c d r) as Sh. cbn [cast].
  destruct (choose c (GDict d r)) as [|r'| | |]; try contradiction; cbn [finish].
  - right; left. split; [reflexivity|exact S].
  - right; right. destruct S as (d' & E & D). inversion E; subst. exists r'. auto.
  - left. eexists; split; [reflexivity|]. rewrite map_map. apply map_ext. intros [k x]; reflexivity.
Qed.
Print Assumptions C18_shape_object.

Theorem C18_empty_object :
  forall (funcs : list str) (r : option recog), cast (spec_cfg funcs) (GDict [] r) = TGeneric [].
Proof. reflexivity. Qed.
Print Assumptions C18_empty_object.

(* structural theorems: every value, every depth and width *)

(* nth-wise: the i-th member of the cast array is the cast of the i-th member, or -- in a typed list -- what the list's
   alternative reads that member as *)
Theorem C18_shape_list_nth :
  forall (c : cfg) (l : list gvalue) (i : nat) (x : gvalue),
    nth_error l i = Some x ->
    exists ts t, cast c (GList l) = TList ts /\ length ts = length l /\ nth_error ts i = Some t /\
      (t = cast c x \/
       exists b, b <> BStr /\ choose c (GList l) = CList b /\ guard_item c b x = true /\ member c b x = Some t).
Proof.
  intros c l i x N. destruct (cast_list_cases c l) as [[_ ->]|(b & Hb & E & ->)]; eexists; eexists;
    (split; [reflexivity|]); (split; [apply map_length|]).
  - split; [apply (map_nth_error (cast c) i l N)|left; reflexivity].
  - split; [apply (map_nth_error (fun y => recast_with c b y (cast c y)) i l N)|].
    destruct (typed_member c l b x E Hb (nth_error_In l i N)) as [[G Sc]|[_ R]]; [right|left; exact R].
    exists b. repeat split; auto. unfold member. rewrite Sc. reflexivity.
Qed.
Print Assumptions C18_shape_list_nth.
(* an object that is not recognised: the same keys in the same order, the i-th value the cast of the i-th value *)
Theorem C18_shape_object_nth :
  forall (c : cfg) (d : list (str * gvalue)) (r : option recog) (i : nat) (k : str) (x : gvalue),
    choose c (GDict d r) = CNone -> nth_error d i = Some (k, x) ->
    exists d', cast c (GDict d r) = TGeneric d' /\ map fst d' = map fst d /\ nth_error d' i = Some (k, cast c x).
Proof.
  intros c d r i k x E N. rewrite (cast_dict_plain c d r E). exists (cast_props c d). split; [reflexivity|].
  split; [|apply nth_error_cast_props; exact N].
  unfold cast_props. rewrite map_map. apply map_ext. intros [k' y]. reflexivity.
Qed.
Print Assumptions C18_shape_object_nth.
(* nested paths: below containers the cast goes through member by member, the node at a path of the cast is the cast of the
   node at that path -- it depends on that node only, not on siblings, position or depth *)
Theorem C18_cast_at :
  forall (c : cfg) (p : path) (g x : gvalue),
    along (transparent c) g p = true -> gat g p = Some x -> tat (cast c g) p = Some (cast c x).
Proof.
  intros c. induction p as [|s p IH]; intros g x A H.
  - inversion H. reflexivity.
  - cbn [along gat tat] in *. apply andb_prop in A. destruct A as [T A].
    destruct (gchild g s) as [y|] eqn:C; [|discriminate].
    rewrite (cast_child c g s y T C). apply IH; assumption.
Qed.
Print Assumptions C18_cast_at.
(* ... through typed lists as well when the node at the end is local ([local_value], Typed/CastShape.v) *)
Theorem C18_cast_at_local :
  forall (c : cfg) (p : path) (g x : gvalue),
    along (passable c) g p = true -> gat g p = Some x -> local_value c x -> tat (cast c g) p = Some (cast c x).
Proof.
  intros c. induction p as [|s p IH]; intros g x A H L.
  - inversion H. reflexivity.
  - cbn [along gat tat] in *. apply andb_prop in A. destruct A as [P A].
    destruct (gchild g s) as [y|] eqn:C; [|discriminate].
    destruct (transparent c g) eqn:T; [rewrite (cast_child c g s y T C); apply IH; assumption|].
    (* a typed list: a member is a function call, cast as on its own, or a scalar: the end of the path *)
    destruct g as [| | | | |l|d r]; try discriminate; [|unfold transparent in T; unfold passable in P; congruence].
    destruct s as [i| |]; try discriminate. cbn [gchild] in C.
    destruct (cast_list_cases c l) as [[E _]|(b & Hb & E & ->)].
    { unfold transparent in T. destruct E as [E|E]; rewrite E in T; discriminate. }
    cbn [tchild]. rewrite (map_nth_error (fun y => recast_with c b y (cast c y)) i l C).
    destruct (typed_member c l b y E Hb (nth_error_In l i C)) as [[G Sc]|[_ ->]]; [|apply IH; assumption].
    destruct p as [|s' p'].
    + inversion H; subst y. cbn [tat]. f_equal. apply (L b _ Hb G). unfold member. rewrite Sc. reflexivity.
    + apply scalar_inv in Sc. destruct Sc as [Sc _]. cbn [along] in A. destruct y; discriminate.
Qed.
Print Assumptions C18_cast_at_local.
(* where nothing is recognised the whole skeleton -- array lengths, object keys in order, nesting -- is preserved, hence the
   same nodes at the same paths in the same order, in particular the same paths to scalar leaves *)
Theorem C18_skeleton :
  forall (c : cfg) (g : gvalue), shape_plain c g = true -> tskel (cast c g) = gskel g.
Proof. exact skel_preserved. Qed.
Print Assumptions C18_skeleton.
Theorem C18_paths :
  forall (c : cfg) (g : gvalue), shape_plain c g = true -> tpaths (cast c g) = gpaths g.
Proof. intros c g H. unfold tpaths, gpaths. rewrite (skel_preserved c g H). reflexivity. Qed.
Print Assumptions C18_paths.
Theorem C18_leaf_paths :
  forall (c : cfg) (g : gvalue), shape_plain c g = true -> leaf_paths (tpaths (cast c g)) = leaf_paths (gpaths g).
Proof. intros c g H. rewrite (C18_paths c g H). reflexivity. Qed.
Print Assumptions C18_leaf_paths.

(* what the enumerations enumerate: exactly the paths of the value that do not enter JSON text (resp. the paths of its
   cast), each with the kind of node it leads to -- so the theorem above says: a path leads to a scalar leaf / an array / an
   object of the value iff it leads to one of its cast *)
Theorem C18_gpaths_spec :
  forall (g : gvalue) (p : path) (k : nkind),
    In (p, k) (gpaths g) <-> json_free p = true /\ exists x, gat g p = Some x /\ gkind x = k.
Proof.
  intros g p k. unfold gpaths. rewrite spaths_spec. split.
  - intros (sk' & H & K). pose proof (sat_json_free p _ _ H) as J. split; [exact J|].
    rewrite (sat_gskel p g J) in H. destruct (gat g p) as [x|]; [|discriminate]. inversion H; subst sk'.
    exists x. rewrite <- skind_gskel. auto.
  - intros (J & x & H & K). exists (gskel x). rewrite (sat_gskel p g J), H, skind_gskel. auto.
Qed.
Print Assumptions C18_gpaths_spec.
Theorem C18_tpaths_spec :
  forall (t : tval) (p : path) (k : nkind), In (p, k) (tpaths t) <-> exists x, tat t p = Some x /\ tkind_of x = k.
Proof.
  intros t p k. unfold tpaths. rewrite spaths_spec. split.
  - intros (sk' & H & K). rewrite sat_tskel in H. destruct (tat t p) as [x|]; [|discriminate]. inversion H; subst sk'.
    exists x. rewrite <- skind_tskel. auto.
  - intros (x & H & K). exists (tskel x). rewrite sat_tskel, H, skind_tskel. auto.
Qed.
Print Assumptions C18_tpaths_spec.
Theorem C18_same_paths :
  forall (c : cfg) (g : gvalue) (p : path) (k : nkind),
    shape_plain c g = true -> json_free p = true ->
    ((exists x, gat g p = Some x /\ gkind x = k) <-> (exists y, tat (cast c g) p = Some y /\ tkind_of y = k)).
Proof. intros c g p k SP J. rewrite <- C18_tpaths_spec. rewrite (C18_paths c g SP). rewrite C18_gpaths_spec. tauto. Qed.
Print Assumptions C18_same_paths.

(* a member that every alternative reads as the cast reads it on its own ([local_value]) is cast to the same thing wherever
   it stands in an array ... *)
Theorem C18_list_locality :
  forall (c : cfg) (l1 : list gvalue) (v : gvalue) (l2 : list gvalue),
    local_value c v -> tat (cast c (GList (l1 ++ v :: l2))) [Idx (length l1)] = Some (cast c v).
Proof.
  intros c l1 v l2 L. apply C18_cast_at_local; [|apply gat_middle|exact L].
  pose proof (gat_middle l1 v l2) as G. cbn [gat] in G. cbn [along passable andb].
  destruct (gchild (GList (l1 ++ v :: l2)) (Idx (length l1))); [reflexivity|discriminate].
Qed.
Print Assumptions C18_list_locality.
(* ... every member is, in an array no alternative reads as a typed list ... *)
Theorem C18_list_locality_untyped :
  forall (c : cfg) (l1 : list gvalue) (v : gvalue) (l2 : list gvalue),
    transparent c (GList (l1 ++ v :: l2)) = true ->
    cast c (GList (l1 ++ v :: l2)) = TList (map (cast c) l1 ++ cast c v :: map (cast c) l2).
Proof. intros c l1 v l2 T. rewrite (cast_list_untyped c _ T). rewrite map_app. reflexivity. Qed.
Print Assumptions C18_list_locality_untyped.
(* ... and every member of an object that is not recognised; whether it is recognised depends on keys and recogniser only *)
Theorem C18_object_locality :
  forall (c : cfg) (d1 : list (str * gvalue)) (k : str) (v : gvalue) (d2 : list (str * gvalue)) (r : option recog),
    choose c (GDict (d1 ++ (k, v) :: d2) r) = CNone ->
    cast c (GDict (d1 ++ (k, v) :: d2) r) = TGeneric (cast_props c d1 ++ (k, cast c v) :: cast_props c d2).
Proof. intros c d1 k v d2 r E. rewrite (cast_dict_plain c _ r E). unfold cast_props. rewrite map_app. reflexivity. Qed.
Print Assumptions C18_object_locality.
Theorem C18_object_recognition_keys_only :
  forall (c : cfg) (d d' : list (str * gvalue)) (r : option recog),
    map fst d = map fst d' -> choose c (GDict d r) = choose c (GDict d' r).
Proof. exact choose_dict_keys_only. Qed.
Print Assumptions C18_object_recognition_keys_only.
(* which values are local: arrays, objects, null always; numbers and booleans under the guards of the specified algorithm;
   text no alternative reads; any scalar the decidable check [localb] accepts *)
Theorem C18_local_nonscalar : forall (c : cfg) (g : gvalue), is_scalar g = false -> local_value c g.
Proof. exact local_nonscalar. Qed.
Print Assumptions C18_local_nonscalar.
Theorem C18_local_int : forall (c : cfg) (z : Z) (a : sann), c_guard_num c = true -> local_value c (GInt z a).
Proof.
  intros c z a G b t Hb Gi M. rewrite int_stays. unfold member in M.
  destruct b; cbn in Gi, M; try rewrite G in Gi; try discriminate; try congruence.
Qed.
Print Assumptions C18_local_int.
Theorem C18_local_bool :
  forall (c : cfg) (b : bool) (a : sann), c_guard_num c = true -> c_guard_bool c = true -> local_value c (GBool b a).
Proof.
  intros c x a G G' b t Hb Gi M. rewrite bool_stays. unfold member in M.
  destruct b; cbn in Gi, M; try rewrite G in Gi; try rewrite G' in Gi; try discriminate; try congruence.
Qed.
Print Assumptions C18_local_bool.
Theorem C18_local_float : forall (c : cfg) (x : str) (a : sann), c_guard_num c = true -> local_value c (GFloat x a).
Proof.
  intros c x a G b t Hb Gi M. rewrite (float_stays c x a G). unfold member in M.
  destruct b; cbn in Gi, M; try rewrite G in Gi; try discriminate; try congruence.
  destruct (a_int a); cbn in M; congruence.
Qed.
Print Assumptions C18_local_float.
Theorem C18_local_plain_text :
  forall (c : cfg) (s : str) (j : option gvalue) (a : sann), no_reading s a -> local_value c (GStr s j a).
Proof.
  intros c s j a (B & I & D & T & N & _) b t Hb _ M. unfold member in M.
  destruct b; cbn in M; rewrite ?B, ?I, ?D, ?T, ?N in M; cbn in M; try discriminate. congruence.
Qed.
Print Assumptions C18_local_plain_text.
Theorem C18_localb_sound : forall (c : cfg) (v : gvalue), localb c v = true -> local_value c v.
Proof.
  intros c v. unfold localb. destruct (is_scalar v) eqn:S; [|intros _; apply local_nonscalar; exact S].
  cbn [negb orb]. intros H b t Hb Gi M. rewrite forallb_forall in H. specialize (H b (in_branches b)).
  unfold member in M. destruct (scalar b v) as [t'|] eqn:E.
  - inversion M; subst t'. rewrite Gi in H. cbn [negb orb] in H. destruct b; try congruence; apply teqb_eq; exact H.
  - destruct (fnb c v) eqn:F; [|discriminate]. destruct (fnb_dict c v F) as (k & x & r & ->). discriminate.
Qed.
Print Assumptions C18_localb_sound.
(* REFUTED without the hypothesis, for the specified algorithm and confirmed annotations: date-only text next to a timestamp
   becomes a timestamp (midnight), on its own a date.  pycfmodel does the same:
   ["2020-01-01", "2020-01-01T10:00:00"] -> [datetime(2020,1,1,0,0), datetime(2020,1,1,10,0)],  "2020-01-01" -> date(2020,1,1) *)
Theorem C18_list_locality_refuted :
  exists c l1 v l2, all_confirmed (GList (l1 ++ v :: l2)) = true /\
    tat (cast c (GList (l1 ++ v :: l2))) [Idx (length l1)] <> Some (cast c v).
Proof. exists SPEC, [], g_date_only, [g_timestamp]. split; [vm_compute; reflexivity|vm_compute; discriminate]. Qed.
Print Assumptions C18_list_locality_refuted.

(* every configuration (the code as found included), every annotation *)
Theorem C18_null_stays : forall c : cfg, cast c GNull = TNull.
Proof. reflexivity. Qed.
Print Assumptions C18_null_stays.
Theorem C18_bool_stays : forall (c : cfg) (b : bool) (a : sann), cast c (GBool b a) = TBool b.
Proof. exact bool_stays. Qed.
Print Assumptions C18_bool_stays.
Theorem C18_int_stays : forall (c : cfg) (z : Z) (a : sann), cast c (GInt z a) = TInt z.
Proof. exact int_stays. Qed.
Print Assumptions C18_int_stays.
(* a float stays that float, or -- a whole number -- becomes the integer the integer parser reads; under the numbers guard *)
Theorem C18_float_stays :
  forall (c : cfg) (x : str) (a : sann),
    c_guard_num c = true -> cast c (GFloat x a) = match a_int a with Some z => TInt z | None => TFloat x end.
Proof. exact float_stays. Qed.
Print Assumptions C18_float_stays.
Theorem C18_number_stays_number :
  forall (c : cfg) (g : gvalue),
    c_guard_num c = true -> leaf_confirmed g = true -> is_json_number g = true -> number_kept g (cast c g) = true.
Proof.
  intros c g G L N. destruct g as [| |z a|x a| | |]; try discriminate.
  - rewrite int_stays. simpl. apply Z.eqb_refl.
  - rewrite (float_stays c x a G). simpl in L. destruct (a_int a) as [z|]; simpl in *; [exact L|apply str_eqb_refl].
Qed.
Print Assumptions C18_number_stays_number.
(* at every path: through plain objects and ALL arrays (typed or not) under the guards ... *)
Theorem C18_null_at_path :
  forall (c : cfg) (g : gvalue) (p : path),
    along (passable c) g p = true -> gat g p = Some GNull -> tat (cast c g) p = Some TNull.
Proof. intros c g p A H. apply (C18_cast_at_local c p g GNull A H). apply local_null. Qed.
Print Assumptions C18_null_at_path.
Theorem C18_int_at_path :
  forall (c : cfg) (g : gvalue) (p : path) (z : Z) (a : sann),
    c_guard_num c = true -> along (passable c) g p = true -> gat g p = Some (GInt z a) -> tat (cast c g) p = Some (TInt z).
Proof. intros c g p z a G A H. rewrite <- (int_stays c z a). apply (C18_cast_at_local c p g _ A H). apply C18_local_int. exact G. Qed.
Print Assumptions C18_int_at_path.
Theorem C18_bool_at_path :
  forall (c : cfg) (g : gvalue) (p : path) (b : bool) (a : sann),
    c_guard_num c = true -> c_guard_bool c = true ->
    along (passable c) g p = true -> gat g p = Some (GBool b a) -> tat (cast c g) p = Some (TBool b).
Proof. intros c g p b a G G' A H. rewrite <- (bool_stays c b a). apply (C18_cast_at_local c p g _ A H). apply C18_local_bool; assumption. Qed.
Print Assumptions C18_bool_at_path.
Theorem C18_float_at_path :
  forall (c : cfg) (g : gvalue) (p : path) (x : str) (a : sann),
    c_guard_num c = true -> along (passable c) g p = true -> gat g p = Some (GFloat x a) ->
    tat (cast c g) p = Some (match a_int a with Some z => TInt z | None => TFloat x end).
Proof. intros c g p x a G A H. rewrite <- (float_stays c x a G). apply (C18_cast_at_local c p g _ A H). apply C18_local_float. exact G. Qed.
Print Assumptions C18_float_at_path.
(* ... and for every configuration at every path that crosses no typed list *)
Theorem C18_int_at_open_path :
  forall (c : cfg) (g : gvalue) (p : path) (z : Z) (a : sann),
    along (transparent c) g p = true -> gat g p = Some (GInt z a) -> tat (cast c g) p = Some (TInt z).
Proof. intros c g p z a A H. rewrite <- (int_stays c z a). apply (C18_cast_at c p g _ A H). Qed.
Print Assumptions C18_int_at_open_path.
Theorem C18_bool_at_open_path :
  forall (c : cfg) (g : gvalue) (p : path) (b : bool) (a : sann),
    along (transparent c) g p = true -> gat g p = Some (GBool b a) -> tat (cast c g) p = Some (TBool b).
Proof. intros c g p b a A H. rewrite <- (bool_stays c b a). apply (C18_cast_at c p g _ A H). Qed.
Print Assumptions C18_bool_at_open_path.

(* plain text: the classifier is a total function of the text's own readings and decides what the text becomes *)
Theorem C18_plain_text_classified :
  forall (c : cfg) (s : str) (a : sann), cast c (GStr s None a) = fam_result s a (classify c s a).
Proof. exact plain_text_classified. Qed.
Print Assumptions C18_plain_text_classified.
(* the families, each by its own defining condition, are exactly the classes of the classifier: exhaustive and exclusive *)
Theorem C18_family_partition :
  forall (c : cfg) (s : str) (a : sann) (f : fam), in_fam c s a f <-> classify c s a = f.
Proof. exact in_fam_iff. Qed.
Print Assumptions C18_family_partition.
Theorem C18_family_exhaustive : forall (c : cfg) (s : str) (a : sann), exists f, in_fam c s a f.
Proof. intros c s a. exists (classify c s a). apply in_fam_iff. reflexivity. Qed.
Print Assumptions C18_family_exhaustive.
Theorem C18_family_exclusive :
  forall (c : cfg) (s : str) (a : sann) (f1 f2 : fam), in_fam c s a f1 -> in_fam c s a f2 -> f1 = f2.
Proof. intros c s a f1 f2 H1 H2. apply in_fam_iff in H1. apply in_fam_iff in H2. congruence. Qed.
Print Assumptions C18_family_exclusive.
Theorem C18_family_decides :
  forall (c : cfg) (s : str) (a : sann) (f : fam), in_fam c s a f -> cast c (GStr s None a) = fam_result s a f.
Proof. intros c s a f H. apply in_fam_iff in H. subst f. apply plain_text_classified. Qed.
Print Assumptions C18_family_decides.
(* a string in no converting family is returned unchanged; in a converting family it is no string any more *)
Theorem C18_kept_family_unchanged :
  forall (c : cfg) (s : str) (a : sann), fam_kept (classify c s a) = true -> cast c (GStr s None a) = TStr s.
Proof. intros c s a H. rewrite plain_text_classified. destruct (classify c s a); try discriminate; reflexivity. Qed.
Print Assumptions C18_kept_family_unchanged.
Theorem C18_converting_family_converts :
  forall (c : cfg) (s : str) (a : sann), fam_kept (classify c s a) = false -> forall s', cast c (GStr s None a) <> TStr s'.
Proof.
  intros c s a H s'. rewrite plain_text_classified. pose proof (proj2 (in_fam_iff c s a _) eq_refl) as F.
  destruct (classify c s a); try discriminate; cbn [fam_result in_fam] in *; unfold reads_text in F.
  - destruct (bool_literal s); [discriminate|congruence].
  - destruct F as [_ F]. destruct (a_int a); [discriminate|congruence].
  - destruct F as (_ & _ & F). destruct (a_date a); [discriminate|congruence].
  - destruct F as (_ & _ & _ & _ & F). destruct (a_datetime a); [discriminate|congruence].
  - destruct F as (_ & _ & _ & _ & _ & F). destruct (a_net a); [discriminate|congruence].
Qed.
Print Assumptions C18_converting_family_converts.
Theorem C18_no_reading_kept :
  forall (c : cfg) (s : str) (a : sann), no_reading s a -> fam_kept (classify c s a) = true.
Proof.
  intros c s a (B & I & D & T & N & A1 & A2). unfold classify. rewrite B, I, D, T, N, A1, A2.
  destruct (c_guard_num c && a_float a); reflexivity.
Qed.
Print Assumptions C18_no_reading_kept.
(* of the configuration only the numbers guard takes part *)
Theorem C18_plain_text_cfg :
  forall (c c' : cfg) (s : str) (a : sann),
    c_guard_num c = c_guard_num c' -> cast c (GStr s None a) = cast c' (GStr s None a).
Proof. intros c c' s a H. rewrite !plain_text_classified. rewrite (classify_cfg c c' s a H). reflexivity. Qed.
Print Assumptions C18_plain_text_cfg.
(* JSON text: stays the text when the union rejects what it encodes, otherwise becomes the cast of what it encodes (text inside
   JSON text is not decoded a second time); every string leaf falls in one of the three cases *)
Theorem C18_json_text_is_decoded_value :
  forall (c : cfg) (s : str) (j : gvalue) (a : sann),
    choose c j <> CNone -> cast c (GStr s (Some j) a) = cast c (unjson j).
Proof. intros c s j a H. rewrite cast_json. destruct (choose c j); try reflexivity. congruence. Qed.
Print Assumptions C18_json_text_is_decoded_value.
Theorem C18_string_leaf_total :
  forall (c : cfg) (s : str) (j : option gvalue) (a : sann),
    (j = None /\ cast c (GStr s j a) = fam_result s a (classify c s a))
    \/ (exists j', j = Some j' /\ choose c j' = CNone /\ cast c (GStr s j a) = TStr s)
    \/ (exists j', j = Some j' /\ choose c j' <> CNone /\ cast c (GStr s j a) = cast c (unjson j')).
Proof.
  intros c s j a. destruct j as [j'|].
  - right. destruct (is_cnone (choose c j')) eqn:E.
    + left. exists j'. destruct (choose c j') eqn:E'; try discriminate. repeat split. apply rejected_json_text_same. exact E'.
    + right. exists j'. assert (choose c j' <> CNone) as NN by (intros E'; rewrite E' in E; discriminate).
      repeat split; [exact NN|]. apply C18_json_text_is_decoded_value. exact NN.
  - left. split; [reflexivity|]. apply plain_text_classified.
Qed.
Print Assumptions C18_string_leaf_total.

(* the number half of C18_not_bool: plain text becomes an integer only when the integer parser reads it -- and the checker
   then confirms the text denotes that integer; plain text never becomes a float *)
Theorem C18_int_only_from_int_reading :
  forall (c : cfg) (s : str) (a : sann) (z : Z),
    cast c (GStr s None a) = TInt z -> bool_literal s = None /\ a_int a = Some z.
Proof.
  intros c s a z. rewrite plain_text_classified. pose proof (proj2 (in_fam_iff c s a _) eq_refl) as F.
  destruct (classify c s a); cbn [fam_result in_fam] in *; unfold reads_text in F; intros H.
  - destruct (bool_literal s); discriminate.
  - destruct F as [B _]. destruct (a_int a); [inversion H; auto|discriminate].
  - discriminate.
  - discriminate.
  - destruct (a_date a); discriminate.
  - destruct (a_datetime a); discriminate.
  - destruct (a_net a); discriminate.
  - discriminate.
Qed.
Print Assumptions C18_int_only_from_int_reading.
Theorem C18_int_from_text_confirmed :
  forall (c : cfg) (s : str) (a : sann) (z : Z),
    leaf_confirmed (GStr s None a) = true -> cast c (GStr s None a) = TInt z -> denotes_int s z = true.
Proof.
  intros c s a z L H. apply C18_int_only_from_int_reading in H. destruct H as [_ I]. cbn [leaf_confirmed] in L. rewrite I in L.
  cbn [opt_ok] in L. apply andb_prop in L. tauto.
Qed.
Print Assumptions C18_int_from_text_confirmed.
Theorem C18_text_never_float : forall (c : cfg) (s : str) (a : sann) (x : str), cast c (GStr s None a) <> TFloat x.
Proof.
  intros c s a x. rewrite plain_text_classified. destruct (classify c s a); cbn [fam_result];
    repeat match goal with |- context [match ?o with Some _ => _ | None => _ end] => destruct o end; discriminate.
Qed.
Print Assumptions C18_text_never_float.

(* a value in which the oracles see nothing to convert is cast to itself, and its dump is the JSON it came from *)
Theorem C18_cast_inert : forall (c : cfg) (g : gvalue), inert c g = true -> cast c g = inj g.
Proof.
  intros c. induction g as [g L|s j a IHj|l IHl|d r IHd] using gvalue_ind'; intros I.
  - exact (cast_leaf_inert c g L I).
  - cbn [inert] in I. apply andb_prop in I. destruct I as [_ I].
    destruct (choose c j) eqn:E; try discriminate. apply rejected_json_text_same. exact E.
  - cbn [inert inj] in *. rewrite forallb_forall in I. rewrite Forall_forall in IHl.
    destruct (cast_list_cases c l) as [[_ ->]|(b & Hb & E & ->)]; f_equal; apply map_ext_in; intros x Hx.
    + apply IHl; auto.
    + destruct (typed_member c l b x E Hb Hx) as [[G Sc]|[_ ->]]; [|apply IHl; auto].
      exact (leaf_inert_reading c x b _ (inert_leaf c x (I x Hx) (proj1 (scalar_inv _ _ _ Sc))) G Sc).
  - cbn [inert inj] in *. apply andb_prop in I. destruct I as [C I].
    destruct (choose c (GDict d r)) eqn:E; try discriminate.
    rewrite (cast_dict_plain c d r E). f_equal. unfold cast_props.
    rewrite forallb_forall in I. rewrite Forall_forall in IHd.
    apply map_ext_in. intros [k x] Hx. f_equal. apply (IHd (k, x) Hx). apply (I (k, x) Hx).
Qed.
Print Assumptions C18_cast_inert.
Theorem C18_dump_cast_inert : forall (c : cfg) (g : gvalue), inert c g = true -> tdump (cast c g) = strip g.
Proof. intros c g H. rewrite (C18_cast_inert c g H). apply dump_inj. Qed.
Print Assumptions C18_dump_cast_inert.
(* casting the dump of a value with kept leaves only (t = cast c g in particular) gives the value back, whenever the oracles,
   asked about the leaves of the dump, see nothing to convert: the instance for class Generic of the hypothesis
   "a validator accepts its own output" of C15 (Typed/Leaves.v leaf_accepts_own_output, leaf LGeneric) *)
Theorem C18_idempotent_on_kept :
  forall (c : cfg) (t : tval) (g' : gvalue),
    kept t = true -> strip g' = tdump t -> inert c g' = true -> cast c g' = t.
Proof. intros c t g' K H I. rewrite (C18_cast_inert c g' I). apply inj_of_dump; assumption. Qed.
Print Assumptions C18_idempotent_on_kept.
(* REFUTED without [inert] WHEN a string may carry a JSON reading that is text again: JSON text of JSON text is then decoded once
   per cast.  On pycfmodel this was finding F29 ("\"\\\"x\\\"\"" parsed to the text "\"x\"", whose
   model_dump(), validated again, gave x: the C15 round trip lost a layer of quotes per validation); repaired in /repo commit 4e7f8be
   (a JSON string literal is kept as written).  Since then the oracle that supplies the JSON readings (harness/generic_oracle.py
   annotate) gives a string literal NO reading, so the witness below is outside what the correspondence can produce; the theorem
   stays as the reason why the pre-pass must not decode text to text. *)
Theorem C18_idempotence_refuted :
  exists c g g', kept (cast c g) = true /\ all_confirmed g = true /\ all_confirmed g' = true /\
    strip g' = tdump (cast c g) /\ cast c g' <> cast c g.
Proof. exists SPEC, g_json_twice, g_str_json_str. vm_compute. repeat split; try reflexivity. discriminate. Qed.
Print Assumptions C18_idempotence_refuted.

(* non-vacuity: the hypotheses are satisfiable on an input that exercises every kind of conversion *)
From Coq Require Import String.
Local Open Scope string_scope.
Example C18_ex_confirmed : all_confirmed g_mixed = true.
Proof. vm_compute. reflexivity. Qed.
Example C18_ex_mixed :
  cast SPEC g_mixed =
  TGeneric [(s "Flags", TList [TBool true; TStr (s "yes")]); (s "Count", TInt 1000); (s "When", TDate (s "2019-12-04"));
            (s "At", TDatetime (s "2011-11-04T00:05:23+00:00")); (s "Cidr", TNet KNet4 (s "10.0.0.0/24")); (s "Name", TStr (s "potato"));
            (s "Nested", TGeneric [(s "Ratio", TFloat (s "1.5")); (s "Empty", TGeneric [])]);
            (s "Ref", TFn (VDict [(s "Ref", VStr (s "AWS::Region"))]))].
Proof. vm_compute. reflexivity. Qed.
(* never 1, 0, yes, on *)
Example C18_ex_never_bool :
  cast SPEC g_str_1 = TInt 1 /\ cast SPEC g_str_0 = TInt 0 /\ cast SPEC g_str_yes = TStr (s "yes") /\ cast SPEC g_str_on = TStr (s "on")
  /\ cast ORIG g_str_1 = TInt 1 /\ cast ORIG g_str_yes = TStr (s "yes") /\ cast SPEC g_str_TRUE = TBool true.
Proof. vm_compute. repeat split; reflexivity. Qed.
(* liberal literals pydantic accepts, confirmed by the checker: same number *)
Example C18_ex_liberal_int :
  cast SPEC g_str_1e3 = TInt 1000 /\ cast SPEC g_str_1_000 = TInt 1000 /\ all_confirmed g_str_1e3 = true /\ all_confirmed g_str_1_000 = true
  /\ cast SPEC g_float_whole = TInt 1577836800 /\ cast SPEC g_str_midnight = TDate (s "2020-01-01") /\ all_confirmed g_str_midnight = true.
Proof. vm_compute. repeat split; reflexivity. Qed.
(* an impossible date and a JSON object literal stay as written; the third witness carries a JSON reading that is TEXT (which
   the oracle never supplies, see C18_idempotence_refuted) and is decoded to it *)
Example C18_ex_strings_kept :
  cast SPEC g_str_bad_date = TStr (s "2020-02-30") /\ cast SPEC g_str_json_obj = TStr (s "{""a"":1}") /\ cast SPEC g_str_json_str = TStr (s "x").
Proof. vm_compute. repeat split; reflexivity. Qed.
(* a parser that raises aborts the union: the value stays as written (before fix-year-zero the whole template was rejected) *)
Example C18_ex_year_zero :
  cast SPEC g_str_year0 = TStr (s "0000-01-01") /\ cast SPEC g_str_json_year0 = TStr (s """0000-01-01""")
  /\ cast SPEC (GList [g_str_year0; g_str_date]) = TList [TStr (s "0000-01-01"); TDate (s "2019-12-04")].
Proof. vm_compute. repeat split; reflexivity. Qed.
(* with fix-float-datetime and fix-bool-int-list: numbers stay numbers *)
Example C18_ex_numbers_stay :
  cast SPEC g_float_1_5 = TFloat (s "1.5") /\ cast SPEC g_str_1_5 = TStr (s "1.5") /\ cast SPEC g_float_epoch = TFloat (s "1577836800.5")
  /\ cast SPEC g_str_5dot = TStr (s "5.") /\ cast SPEC g_list_int_bool = TList [TInt 1; TBool true]
  /\ cast SPEC g_list_int_ip = TList [TInt 1; TNet KNet4 (s "10.0.0.1/32")].
Proof. vm_compute. repeat split; reflexivity. Qed.

(* [orig_cfg] violates the property (the witnesses are run on pycfmodel through corpus/C18.json) *)
(* finding 15: a float falls through int and date to the datetime alternative, which reads numbers as epoch seconds *)
Example C18_float_datetime_refuted :
  exists g, all_confirmed g = true /\ cast_ok ORIG g (cast ORIG g) = false.
Proof. exists g_float_1_5. vm_compute. split; reflexivity. Qed.
Example C18_float_datetime_witnesses :
  cast ORIG g_float_1_5 = TDatetime (s "1970-01-01T00:00:01.500000+00:00")
  /\ cast ORIG g_str_1_5 = TDatetime (s "1970-01-01T00:00:01.500000+00:00")
  /\ cast ORIG g_float_epoch = TDatetime (s "2020-01-01T00:00:00.500000+00:00")
  /\ cast ORIG g_str_5dot = TDatetime (s "1970-01-01T00:00:05+00:00")
  /\ cast_ok ORIG g_str_1_5 (cast ORIG g_str_1_5) = false /\ cast_ok ORIG g_float_epoch (cast ORIG g_float_epoch) = false
  /\ cast_ok ORIG g_str_5dot (cast ORIG g_str_5dot) = false.
Proof. vm_compute. repeat split; reflexivity. Qed.
(* finding 19: every field of StatementCondition is optional, so {} anywhere became a condition block *)
Example C18_empty_object_refuted :
  exists g, all_confirmed g = true /\ cast_ok ORIG g (cast ORIG g) = false.
Proof. exists g_waf_block. vm_compute. split; reflexivity. Qed.
Example C18_empty_object_witness :
  cast ORIG g_waf_block = TGeneric [(s "Block", TProp cond_recog)] /\ cast SPEC g_waf_block = TGeneric [(s "Block", TGeneric [])].
Proof. vm_compute. split; reflexivity. Qed.
(* inside a list the int alternative read JSON true as 1, and the network alternative read 1 as 0.0.0.1/32 *)
Example C18_bool_in_int_list_refuted :
  cast ORIG g_list_int_bool = TList [TInt 1; TInt 1] /\ cast_ok ORIG g_list_int_bool (cast ORIG g_list_int_bool) = false.
Proof. vm_compute. split; reflexivity. Qed.
Example C18_number_as_network_refuted :
  cast ORIG g_list_int_ip = TList [TNet KNet4 (s "0.0.0.1/32"); TNet KNet4 (s "10.0.0.1/32")]
  /\ cast_ok ORIG g_list_int_ip (cast ORIG g_list_int_ip) = false.
Proof. vm_compute. split; reflexivity. Qed.

(* non-vacuity of the structural theorems *)
(* a nested value in which nothing is recognised: skeleton and paths preserved (16 nodes, 9 scalar leaves) *)
Example C18_ex_shape :
  shape_plain SPEC g_plain = true /\ tskel (cast SPEC g_plain) = gskel g_plain
  /\ List.length (gpaths g_plain) = 16%nat /\ List.length (leaf_paths (gpaths g_plain)) = 9%nat
  /\ shape_plain SPEC g_mixed = false.
Proof. vm_compute. repeat split; reflexivity. Qed.
(* $.Nested.Deep[0][1] is reached through plain objects and untyped arrays; $.Nums[1] through a typed array *)
Example C18_ex_paths :
  along (transparent SPEC) g_plain [Mem 4 (s "Nested"); Mem 2 (s "Deep"); Idx 0; Idx 1] = true
  /\ gat g_plain [Mem 4 (s "Nested"); Mem 2 (s "Deep"); Idx 0; Idx 1] = Some g_true
  /\ tat (cast SPEC g_plain) [Mem 4 (s "Nested"); Mem 2 (s "Deep"); Idx 0; Idx 1] = Some (TBool true)
  /\ along (transparent SPEC) g_plain [Mem 3 (s "Nums"); Idx 1] = false
  /\ along (passable SPEC) g_plain [Mem 3 (s "Nums"); Idx 1] = true
  /\ tat (cast SPEC g_plain) [Mem 3 (s "Nums"); Idx 1] = Some (TInt 2)
  /\ choose SPEC (GList [g_int_1; g_int_1]) = CList BInt /\ choose SPEC g_plain = CNone.
Proof. vm_compute. repeat split; reflexivity. Qed.
(* which witnesses are local: everything but text that is both a date and a timestamp; without the guards numbers are not *)
Example C18_ex_local :
  map (localb SPEC) [g_int_1; g_true; g_float_1_5; g_str_1; g_str_time; g_str_net; g_str_potato] = [true; true; true; true; true; true; true]
  /\ map (localb SPEC) [g_str_date; g_str_midnight; g_date_only] = [false; false; false]
  /\ map (localb ORIG) [g_int_1; g_true; g_str_1] = [false; false; false]
  /\ no_reading (s "potato") no_ann.
Proof. split; [vm_compute; reflexivity|]. split; [vm_compute; reflexivity|]. split; [vm_compute; reflexivity|]. vm_compute. repeat split; reflexivity. Qed.
Example C18_ex_locality_witness :
  cast SPEC g_date_only = TDate (s "2020-01-01")
  /\ cast SPEC (GList [g_date_only; g_timestamp]) = TList [TDatetime (s "2020-01-01T00:00:00"); TDatetime (s "2020-01-01T10:00:00")]
  /\ cast SPEC (GList [g_date_only; text "x"]) = TList [TDate (s "2020-01-01"); TStr (s "x")]
  /\ cast_ok SPEC (GList [g_date_only; g_timestamp]) (cast SPEC (GList [g_date_only; g_timestamp])) = true.
Proof. vm_compute. repeat split; reflexivity. Qed.
(* numbers: confirmed annotations, the same number *)
Example C18_ex_numbers :
  leaf_confirmed g_float_whole = true /\ number_kept g_float_whole (cast SPEC g_float_whole) = true
  /\ cast SPEC g_float_whole = TInt 1577836800 /\ cast ORIG g_int_1 = TInt 1 /\ cast ORIG g_true = TBool true.
Proof. vm_compute. repeat split; reflexivity. Qed.
(* one witness per family *)
Example C18_ex_families :
  classify SPEC (s "TRUE") no_ann = FamBool
  /\ classify SPEC (s "1_000") (ann_of g_str_1_000) = FamInt
  /\ classify SPEC (s "5.") (ann_of g_str_5dot) = FamNumText /\ classify ORIG (s "5.") (ann_of g_str_5dot) = FamDatetime
  /\ classify SPEC (s "0000-01-01") ann_year0 = FamAborted
  /\ classify SPEC (s "2019-12-04") (ann_of g_str_date) = FamDate
  /\ classify SPEC (s "2011-11-04 00:05:23Z") (ann_of g_str_time) = FamDatetime
  /\ classify SPEC (s "10.0.0.7/24") (ann_of g_str_net) = FamNet
  /\ classify SPEC (s "potato") no_ann = FamKept /\ classify SPEC (s "yes") no_ann = FamKept.
Proof. vm_compute. repeat split; reflexivity. Qed.
Example C18_ex_int_from_text :
  leaf_confirmed g_str_1_000 = true /\ cast SPEC g_str_1_000 = TInt 1000 /\ denotes_int (s "1_000") 1000 = true.
Proof. vm_compute. repeat split; reflexivity. Qed.
Example C18_ex_json_text :
  choose SPEC g_int_1 <> CNone /\ cast SPEC g_str_1 = cast SPEC g_int_1
  /\ choose SPEC (GDict [(s "a", g_int_1)] None) = CNone /\ cast SPEC g_str_json_obj = TStr (s "{""a"":1}").
Proof. split; [vm_compute; discriminate|]. vm_compute. repeat split; reflexivity. Qed.
(* a nested inert value is a fixed point and its dump is the JSON it came from; 1000 (from "1e3") is cast to itself *)
Example C18_ex_inert :
  inert SPEC g_inert = true /\ cast SPEC g_inert = inj g_inert /\ tdump (cast SPEC g_inert) = strip g_inert
  /\ kept (cast SPEC g_inert) = true /\ inert ORIG g_inert = false
  /\ cast SPEC g_str_1e3 = TInt 1000 /\ strip g_int_1000 = tdump (cast SPEC g_str_1e3) /\ inert SPEC g_int_1000 = true
  /\ cast SPEC g_int_1000 = cast SPEC g_str_1e3.
Proof. vm_compute. repeat split; reflexivity. Qed.
Example C18_ex_idempotence_witness :
  cast SPEC g_json_twice = TStr (s """x""") /\ cast SPEC g_str_json_str = TStr (s "x") /\ inert SPEC g_str_json_str = false.
Proof. vm_compute. repeat split; reflexivity. Qed.
