(* C06 -- Transformations are pure and repeatable.
   States the theorems of property C06; each is proved here from the one-call specification of Purity/Facts.v (step_spec)
   and the history lemmas of Purity/HistoryLaws.v (run_grows, run_spec, edit_point).

   The model (Purity/Heap.v, Purity/Api.v) makes the implementation's MUTABLE objects explicit: a heap of dict
   objects (caller's template / extra_params / context dicts, model objects, the class-level defaults at the
   reserved ids PSEUDO_ID, CATALOGUE_ID, STRICT_ID, and every per-call temporary) plus the private _eval cache
   of condition objects ([ev]).  Each entry point is a state-passing function that performs the reads and writes
   of the code; the values computed are an arbitrary [sem], so every theorem below holds for ALL value semantics.
   REPAIRED = all three copies in place ( extra_params = dict(extra_params) ; replacements = dict(params) ;
   Fn::FindInMap returns a copy of the Mappings leaf ).
   NOT modelled: the CPython scheduler.  C06_commute / C06_interleaving say that every interleaving of the modelled
   atomic calls yields the sequential results; thread safety of the real code is therefore covered only PARTIALLY
   (sampled schedules in the harness). *)
From Coq Require Import List Bool NArith ZArith Lia Permutation.
From PV Require Import Base.Str Base.Value Resolver.Consts Purity.Heap Purity.Api Purity.Facts Purity.HistoryLaws Purity.Sym.
Import ListNotations.
Local Open Scope N_scope.

(* FRAME.  For every value semantics, every state and every call: each object that existed before the call --
   caller arguments, the receiver, other models, the class-level defaults -- is literally the same object
   afterwards; ids not yet in use stay unused below the old high-water mark; and the only cache entry that may
   change is the _eval cache of the condition the call evaluates. *)
Theorem C06_frame : forall (sm : sem) (s : state) (c : call),
  let s' := fst (api_step REPAIRED sm s c) in
  (forall o ob, h_get (hp s) o = Some ob -> h_get (hp s') o = Some ob) /\
  (forall o, o <= hi (hp s) -> h_get (hp s') o = h_get (hp s) o) /\
  (forall o, cache_owner c <> Some o -> e_get (ev s') o = e_get (ev s) o).
Proof.
  intros sm s c s'. pose proof (step_grows sm s c) as G.
  split; [intros o ob; apply (grows_keeps _ _ _ _ G) | split; [exact (proj1 G) | exact (step_cache sm s c)]].
Qed.
Print Assumptions C06_frame.

(* the same over whole histories, for objects and for deep snapshots of any depth *)
Theorem C06_frame_history : forall (sm : sem) (s : state) (cs : list call),
  let s' := fst (api_run REPAIRED sm s cs) in
  (forall o ob, h_get (hp s) o = Some ob -> h_get (hp s') o = Some ob) /\
  (forall n o, o <= hi (hp s) -> snap n (hp s') o = snap n (hp s) o).
Proof.
  intros sm s cs s'. pose proof (run_grows sm cs s) as G.
  split; [intros o ob; apply (grows_keeps _ _ _ _ G) | intros n o; apply (grows_snap n _ _ o G)].
Qed.
Print Assumptions C06_frame_history.

(* library-level defaults: pseudo parameters, action catalogue, GenericResource._strict *)
Theorem C06_defaults_unchanged : forall (sm : sem) (s : state) (cs : list call),
  let s' := fst (api_run REPAIRED sm s cs) in
  h_get (hp s') PSEUDO_ID = h_get (hp s) PSEUDO_ID /\
  h_get (hp s') CATALOGUE_ID = h_get (hp s) CATALOGUE_ID /\
  h_get (hp s') STRICT_ID = h_get (hp s) STRICT_ID.
Proof.
  intros sm s cs s'. destruct (run_grows sm cs s) as [G _]. destruct (defaults_le (hp s)) as (Dp & Dc & Ds).
  repeat split; apply G; assumption.
Qed.
Print Assumptions C06_defaults_unchanged.

(* NEW MODELS.  parse, resolve and expand_actions (and only they) return an object ... *)
Theorem C06_returns_model : forall (sm : sem) (s : state) (c : call),
  if returns_model c then exists r, rid (snd (api_step REPAIRED sm s c)) = Some r
  else rid (snd (api_step REPAIRED sm s c)) = None.
Proof.
  intros sm s c. destruct (step_spec sm s c) as (_ & _ & _ & R).
  destruct (returns_model c); [destruct R as (r & E & _); eauto | exact R].
Qed.
Print Assumptions C06_returns_model.

(* ... that did not exist before, none of whose (transitively) reachable objects existed before, and that shares
   no object with anything reachable -- before or after the call -- from any pre-existing object m
   (in particular from the receiver and from the arguments). *)
Theorem C06_fresh_result : forall (sm : sem) (s : state) (c : call) (r : oid),
  rid (snd (api_step REPAIRED sm s c)) = Some r ->
  let s' := fst (api_step REPAIRED sm s c) in
  h_get (hp s) r = None /\
  (forall o', reach (hp s') r o' -> h_get (hp s) o' = None) /\
  (forall m o', m <= hi (hp s) -> reach (hp s) m o' \/ reach (hp s') m o' -> ~ reach (hp s') r o').
Proof.
  intros sm s c r E s'. destruct (step_spec sm s c) as (G & _ & _ & R).
  destruct (returns_model c); [|rewrite R in E; discriminate]. destruct R as (r' & E' & L & Only). rewrite E' in E. inv E.
  split; [apply h_get_above, L | exact (new_disjoint _ _ _ G Only)].
Qed.
Print Assumptions C06_fresh_result.

(* model_dump as used by resolve / expand_actions / parse: a deep copy writes nothing that existed, every object
   of the copy is new, and the copy has the same deep snapshot *)
Theorem C06_deepcopy : forall (n : nat) (h : heap) (o : oid),
  let h' := fst (h_deepcopy n h o) in let o' := snd (h_deepcopy n h o) in
  (forall x, x <= hi h -> h_get h' x = h_get h x) /\
  (forall x, reach h' o' x -> hi h < x /\ h_get h x = None) /\
  (o <= hi h -> snap n h' o' = snap n h o).
Proof.
  intros n h o h' o'. destruct (h_deepcopy n h o) as [h1 o1] eqn:E. simpl in *.
  destruct (h_deepcopy_fresh _ _ _ _ _ E) as ([F _] & Ho & _ & C & S). split; [exact F|]. split; [|intros _; exact S].
  intros x R. pose proof (reach_above _ _ _ _ C Ho R) as H. split; [exact H | apply h_get_above; exact H].
Qed.
Print Assumptions C06_deepcopy.

(* HISTORY.  In every history over objects of the initial state, each call returns what the same call returns on
   the initial state -- no matter how many or which calls preceded it, on this or any other model.
   [within] = the call names objects in use (not ids a later allocation could hand out);
   [cache_ok] = a filled _eval cache holds the evaluator of the condition's own fields (true when no cache is filled). *)
Theorem C06_history : forall (sm : sem) (s : state) (cs : list call),
  cache_ok s -> Forall (within (hp s)) cs ->
  map rval (snd (api_run REPAIRED sm s cs)) = map (fun c => rval (snd (api_step REPAIRED sm s c))) cs.
Proof.
  intros sm s cs Hc Hw. change (run_vals sm s cs = map (fun c => rval (snd (api_step REPAIRED sm s c))) cs).
  rewrite (suffix_vals sm s cs Hc Hw). apply map_ext_in. intros c Hin. symmetry.
  apply step_val; [exact Hc | exact (proj1 (Forall_forall _ _) Hw c Hin)].
Qed.
Print Assumptions C06_history.

(* the same for one call after an arbitrary prefix; [s] may itself be the state reached by an earlier history, so
   this covers calls on models returned by earlier calls ( m.resolve(ep).expand_actions().resolve(ep) ) *)
Theorem C06_any_prefix : forall (sm : sem) (s : state) (pre : list call) (c : call),
  cache_ok s -> Forall (within (hp s)) pre -> within (hp s) c ->
  rval (snd (api_step REPAIRED sm (fst (api_run REPAIRED sm s pre)) c)) = rval (snd (api_step REPAIRED sm s c)).
Proof.
  intros sm s pre c Hc Hp Hw.
  pose proof (run_grows sm pre s) as G.
  destruct (run_spec sm (hp s) pre s (grows_refl _) Hc (within_valid sm _ _ Hp s (grows_refl _))) as (Hc' & _).
  rewrite !step_val by (try apply (within_grows _ _ _ G); assumption). apply pure_val_grows; assumption.
Qed.
Print Assumptions C06_any_prefix.

(* the invariant is established by any state without filled caches and kept by every call *)
Theorem C06_cache_invariant : forall (sm : sem) (s : state) (c : call),
  (forall h, cache_ok {| hp := h; ev := [] |}) /\
  (cache_ok s -> within (hp s) c -> cache_ok (fst (api_step REPAIRED sm s c))).
Proof. intros sm s c. split; [exact no_cache_ok | exact (step_cache_ok sm s c)]. Qed.
Print Assumptions C06_cache_invariant.

(* CACHE.  Evaluating a condition whose _eval cache is filled gives the same answer as evaluating it with the
   cache emptied: the cache is not observable. *)
Theorem C06_cache_transparent : forall (sm : sem) (s : state) (c ctx : oid),
  cache_ok s ->
  rval (snd (api_step REPAIRED sm s (CEval c ctx))) = rval (snd (api_step REPAIRED sm (clear_cache s c) (CEval c ctx))) /\
  cache_ok (clear_cache s c) /\ e_get (ev (clear_cache s c)) c = None.
Proof.
  intros sm s c ctx Hc. split; [|split; [exact (clear_cache_ok s c Hc) | apply e_get_clear]].
  rewrite !eval_val by (try apply clear_cache_ok; exact Hc). reflexivity.
Qed.
Print Assumptions C06_cache_transparent.

(* COMMUTATION.  Two calls give the same two results in either order, and leave every pre-existing object the same. *)
Theorem C06_commute : forall (sm : sem) (s : state) (c1 c2 : call),
  cache_ok s -> within (hp s) c1 -> within (hp s) c2 ->
  let v1 := rval (snd (api_step REPAIRED sm s c1)) in
  let v2 := rval (snd (api_step REPAIRED sm s c2)) in
  map rval (snd (api_run REPAIRED sm s [c1; c2])) = [v1; v2] /\
  map rval (snd (api_run REPAIRED sm s [c2; c1])) = [v2; v1] /\
  (forall o, o <= hi (hp s) ->
     h_get (hp (fst (api_run REPAIRED sm s [c1; c2]))) o = h_get (hp (fst (api_run REPAIRED sm s [c2; c1]))) o).
Proof.
  intros sm s c1 c2 Hc H1 H2 v1 v2.
  split; [apply (C06_history sm s [c1; c2] Hc); repeat constructor; assumption|].
  split; [apply (C06_history sm s [c2; c1] Hc); repeat constructor; assumption|].
  intros o Ho. transitivity (h_get (hp s) o); [|symmetry]; apply (run_grows sm _ s), Ho.
Qed.
Print Assumptions C06_commute.

(* every interleaving (permutation) of a set of calls yields, call by call, the stand-alone results.  The conclusion
   speaks of cs' alone ([cs] only says that its calls are on initial objects): two interleavings agree call by call
   because both give the stand-alone results *)
Theorem C06_interleaving : forall (sm : sem) (s : state) (cs cs' : list call),
  cache_ok s -> Forall (within (hp s)) cs -> Permutation cs cs' ->
  map rval (snd (api_run REPAIRED sm s cs')) = map (fun c => rval (snd (api_step REPAIRED sm s c))) cs'.
Proof. intros sm s cs cs' Hc Hw P. exact (C06_history sm s cs' Hc (Permutation_Forall P Hw)). Qed.
Print Assumptions C06_interleaving.

(* Witnesses, evaluated with the concrete semantics Sym.SYM (real parameter binding, Ref, Fn::Sub). *)
Definition obj_eqb_ex (a b : obj) : bool :=
  Nat.eqb (length a) (length b) &&
  forallb (fun kc => match snd kc, lookup (fst kc) b with
                     | CVal x, Some (CVal y) => vstrict_eqb x y
                     | CRef x, Some (CRef y) => N.eqb x y
                     | _, _ => false end) a.

Definition kS : str := [83].  Definition kOther : str := [79;116;104;101;114].  Definition kV : str := [86].
Definition kA : str := [65].  Definition kR1 : str := [82;49].  Definition kR2 : str := [82;50].  Definition kP : str := [80].
Definition sv : str := [118].  Definition so : str := [111].  Definition slocal : str := [108;111;99;97;108].
Definition sString : str := [83;116;114;105;110;103].  Definition sSubV : str := [36;123;86;125].  Definition s1 : str := [49].
Definition sUndefS : str := [85;78;68;69;70;73;78;69;68;95;80;65;82;65;77;95;83].  Definition sUndefV : str := [85;78;68;69;70;73;78;69;68;95;80;65;82;65;77;95;86].

(* model 4: Parameters {S: String}, Resources {R1: {P: {Ref: S}}};  extra_params 5 = {S: v, Other: o} *)
Definition ex_model : obj :=
  [(K_Parameters, CVal (VDict [(kS, VDict [(K_Type, VStr sString)])]));
   (K_Resources, CVal (VDict [(kR1, VDict [(kP, VDict [(K_Ref, VStr kS)])])]))].
Definition ex_ep : obj := [(kS, CVal (VStr sv)); (kOther, CVal (VStr so))].
Definition ex_state : state := {| hp := [(4, ex_model); (5, ex_ep)]; ev := [] |}.
Definition ex_twice : list call := [CResolve 4 (Some 5); CResolve 4 (Some 5)].
Definition F04 : flags := {| flag_copy_extra := false; flag_copy_sub := true; flag_copy_leaf := true |}.
Definition F01 : flags := {| flag_copy_extra := true; flag_copy_sub := false; flag_copy_leaf := true |}.
Definition FLEAF : flags := {| flag_copy_extra := true; flag_copy_sub := true; flag_copy_leaf := false |}.
Definition res_P (v : value) : value := vfield kP (vfield kR1 (vfield K_Resources v)).

(* non-vacuity of the hypotheses of C06_history / C06_commute *)
Example C06_ex_hypotheses : cache_ok ex_state /\ Forall (within (hp ex_state)) ex_twice.
Proof. split; [apply no_cache_ok | repeat constructor; vm_compute; discriminate]. Qed.

(* repaired code: the caller's dict is intact and both calls return the same model, with S bound to v *)
Example C06_ex_repaired :
  h_obj (hp (fst (api_run REPAIRED SYM ex_state ex_twice))) 5 = ex_ep /\
  map (fun x => res_P (rval x)) (snd (api_run REPAIRED SYM ex_state ex_twice)) = [VStr sv; VStr sv] /\
  (match map rval (snd (api_run REPAIRED SYM ex_state ex_twice)) with [a; b] => vstrict_eqb a b | _ => false end) = true.
Proof. vm_compute. repeat split. Qed.

(* Finding F04 (DESIGN.md 7.3; pycfmodel before f4b0474): the SAME definitions with flag_copy_extra off.  m.resolve(ep) twice with ep = {S: v, Other: o}
   leaves ep = {Other: o} and the second call returns UNDEFINED_PARAM_S where the first returned v:
   C06_frame and C06_history are both false for that code. *)
Example C06_F04_refuted :
  h_obj (hp (fst (api_run F04 SYM ex_state ex_twice))) 5 = [(kOther, CVal (VStr so))] /\
  map (fun x => res_P (rval x)) (snd (api_run F04 SYM ex_state ex_twice)) = [VStr sv; VStr sUndefS].
Proof. vm_compute. split; reflexivity. Qed.

(* Finding F01 (pycfmodel before 59d9dc0): with flag_copy_sub off the local variable map of an Fn::Sub is written into the params dict
   it was given: resolver.resolve([{"Fn::Sub": ["${V}", {"V": "local"}]}, {"Ref": "V"}], params) with params = {A: "1"}
   changes the caller's params and the later Ref sees the local value. *)
Definition ex_expr : value :=
  VList [VDict [(K_Sub, VList [VStr sSubV; VDict [(kV, VStr slocal)]])]; VDict [(K_Ref, VStr kV)]].
Definition ex_params : obj := [(kA, CVal (VStr s1))].
Definition ex_state2 : state := {| hp := [(4, ex_params)]; ev := [] |}.
Example C06_F01_refuted :
  h_obj (hp (fst (api_step F01 SYM ex_state2 (CExpr ex_expr 4)))) 4 = [(kV, CVal (VStr slocal)); (kA, CVal (VStr s1))] /\
  rval (snd (api_step F01 SYM ex_state2 (CExpr ex_expr 4))) = VList [VStr slocal; VStr slocal] /\
  h_obj (hp (fst (api_step REPAIRED SYM ex_state2 (CExpr ex_expr 4)))) 4 = ex_params /\
  rval (snd (api_step REPAIRED SYM ex_state2 (CExpr ex_expr 4))) = VList [VStr slocal; VStr sUndefV].
Proof. vm_compute. repeat split. Qed.

(* the same leak inside CFModel.resolve: resource R1 holds the Fn::Sub, the later resource R2 a Ref to the same name *)
Definition ex_model3 : obj :=
  [(K_Resources, CVal (VDict [(kR1, VDict [(kP, VDict [(K_Sub, VList [VStr sSubV; VDict [(kV, VStr slocal)]])])]);
                              (kR2, VDict [(kP, VDict [(K_Ref, VStr kV)])])]))].
Definition ex_state3 : state := {| hp := [(4, ex_model3)]; ev := [] |}.
Definition res2_P (v : value) : value := vfield kP (vfield kR2 (vfield K_Resources v)).
Example C06_F01_refuted_in_resolve :
  res2_P (rval (snd (api_step F01 SYM ex_state3 (CResolve 4 None)))) = VStr slocal /\
  res2_P (rval (snd (api_step REPAIRED SYM ex_state3 (CResolve 4 None)))) = VStr sUndefV.
Proof. vm_compute. split; reflexivity. Qed.

(* the _eval cache: the second evaluation runs with a filled cache and returns the same value; the cache is the only change *)
Definition ex_cond : obj := [(kA, CVal (VDict [(kP, VStr sv)]))].
Definition ex_ctx : obj := [(kP, CVal (VStr sv))].
Definition ex_state4 : state := {| hp := [(4, ex_cond); (5, ex_ctx)]; ev := [] |}.
Example C06_ex_cache :
  let r := api_run REPAIRED SYM ex_state4 [CEval 4 5; CEval 4 5] in
  e_get (ev (fst r)) 4 <> None /\ h_obj (hp (fst r)) 4 = ex_cond /\ h_obj (hp (fst r)) 5 = ex_ctx /\
  (match map rval (snd r) with [a; b] => vstrict_eqb a b | _ => false end) = true.
Proof. vm_compute. repeat split. discriminate. Qed.

(* FindInMap alias (pycfmodel at d8cc80f / c71460c): with flag_copy_leaf off the model
   returned by resolve holds the very list object that is the leaf of the receiver's Mappings -- C06_fresh_result is false
   for that code; with the copy the leaf of the result is a new object with the same content. *)
Definition kLeaf : str := [77;47;107;47;108].
Definition ex_leaf : obj := [([48], CVal (VStr [97]))].
Definition ex_model5 : obj := [(K_Mappings, CRef 5); (K_Resources, CVal (VDict []))].
Definition ex_state5 : state := {| hp := [(4, ex_model5); (5, [(kLeaf, CRef 6)]); (6, ex_leaf)]; ev := [] |}.
Example C06_leaf_alias_refuted :
  let s' := fst (api_step FLEAF SYM ex_state5 (CResolve 4 None)) in
  exists r, rid (snd (api_step FLEAF SYM ex_state5 (CResolve 4 None))) = Some r /\
            reach (hp s') r 6 /\ reach (hp ex_state5) 4 6 /\ h_get (hp ex_state5) 6 <> None.
Proof.
  vm_compute. eexists. split; [reflexivity|]. split; [|split; [|discriminate]].
  - eapply (reach_step _ _ kLeaf 6); [|apply reach_refl]. apply lookup_In. reflexivity.
  - eapply (reach_step _ 4 K_Mappings 5); [vm_compute; left; reflexivity|].
    eapply (reach_step _ 5 kLeaf 6); [vm_compute; left; reflexivity | apply reach_refl].
Qed.
Example C06_leaf_copy_ok :
  let x := api_step REPAIRED SYM ex_state5 (CResolve 4 None) in
  match rid (snd x) with
  | Some r => match lookup kLeaf (h_obj (hp (fst x)) r) with
              | Some (CRef l) => N.ltb 6 l && obj_eqb_ex (h_obj (hp (fst x)) l) ex_leaf
              | _ => false
              end
  | None => false
  end = true.
Proof. vm_compute. reflexivity. Qed.

(* Laws over whole histories.
   A history is a list of calls naming objects by CONCRETE id; [valid_run sm s cs] says that each call names objects
   that exist when it runs -- initial objects or the results of earlier calls ([run_state] / [run_vals] are the final
   state and the list of result values of api_run REPAIRED).  Ids are handed out deterministically (fresh = succ hi),
   so removing / repeating / moving a call shifts the id of every object allocated after it.  DELETION, DUPLICATION
   and PERMUTATION are therefore stated for an arbitrary valid prefix [pre] (its calls may use each other's results)
   followed by calls that name objects existing at the edit point (initial objects or results of the prefix):
   side condition  Forall (within (hp (run_state sm s pre))) post.  C06_delete_needs_side_condition shows that the law
   without it is false for id-named histories (an artefact of naming by id, not a behaviour of the library).
   The _eval cache needs NO side condition in any of the laws: [cache_ok] is an invariant of valid histories
   (C06_cache_invariant), a CEval call writes only [ev] and temporaries, and its value is that of the unfilled cache. *)

(* REPLAY.  In any valid history, the k-th call -- if its arguments are initial objects -- returns exactly what it
   returns when it is the only call ever made: [pure_val] on the initial heap.  Earlier calls (including those that
   consumed each other's results, and CEval calls that filled caches) are invisible to it. *)
Theorem C06_replay : forall (sm : sem) (s : state) (cs : list call) (k : nat) (c : call),
  cache_ok s -> valid_run sm s cs -> nth_error cs k = Some c -> within (hp s) c ->
  nth_error (run_vals sm s cs) k = Some (pure_val sm (hp s) c) /\
  pure_val sm (hp s) c = rval (snd (api_step REPAIRED sm s c)).
Proof.
  intros sm s cs k c Hc Hv Hk Hw. destruct (run_spec sm (hp s) cs s (grows_refl _) Hc Hv) as (_ & V).
  destruct (Forall2_nth_error _ _ _ V k c Hk) as (v & Hkv & E). rewrite Hkv, (E Hw).
  split; [reflexivity | symmetry; apply step_val; assumption].
Qed.
Print Assumptions C06_replay.

(* prefix used by the examples: resolve, then a query on the RESULT of that resolve (object 9) *)
Definition hl_pre : list call := [CResolve 4 (Some 5); CQuery 0 9].
Definition hl_s1 : state := run_state SYM ex_state hl_pre.
Example C06_ex_replay :
  let cs := hl_pre ++ [CExpand 9; CResolve 4 (Some 5)] in
  cache_ok ex_state /\ valid_run SYM ex_state cs /\ nth_error cs 3 = Some (CResolve 4 (Some 5)) /\
  within (hp ex_state) (CResolve 4 (Some 5)) /\ ~ within (hp ex_state) (CExpand 9).
Proof.
  split; [apply no_cache_ok|]. split; [vm_compute; repeat split; repeat constructor; discriminate|].
  split; [reflexivity|]. split; [repeat constructor; vm_compute; discriminate|].
  intros W. inversion W as [|? ? W1 ?]; subst. vm_compute in W1. apply W1. reflexivity.
Qed.

(* DELETION.  Removing one call from a history leaves the result of every other call unchanged. *)
Theorem C06_delete_unused_call : forall (sm : sem) (s : state) (pre post : list call) (c : call),
  cache_ok s -> valid_run sm s pre ->
  let s1 := run_state sm s pre in
  within (hp s1) c -> Forall (within (hp s1)) post ->
  run_vals sm s (pre ++ post) = drop_nth (length pre) (run_vals sm s (pre ++ c :: post)).
Proof.
  intros sm s pre post c Hc Hv s1 Hwc Hwp.
  rewrite (edit_point sm s pre post Hc Hv Hwp), (edit_point sm s pre (c :: post) Hc Hv (Forall_cons _ Hwc Hwp)).
  rewrite <- (run_vals_length sm pre s). symmetry. apply drop_nth_app.
Qed.
Print Assumptions C06_delete_unused_call.

Definition hl_post : list call := [CQuery 1 9; CResolve 4 None; CEval 4 5].
Example C06_ex_delete :
  cache_ok ex_state /\ valid_run SYM ex_state hl_pre /\ within (hp hl_s1) (CExpand 9) /\
  Forall (within (hp hl_s1)) hl_post /\
  run_vals SYM ex_state (hl_pre ++ hl_post) = drop_nth 2 (run_vals SYM ex_state (hl_pre ++ CExpand 9 :: hl_post)).
Proof.
  split; [apply no_cache_ok|]. split; [vm_compute; repeat split; repeat constructor; discriminate|].
  split; [repeat constructor; vm_compute; discriminate|].
  split; [repeat constructor; vm_compute; discriminate|]. vm_compute. reflexivity.
Qed.

(* the side condition is needed for histories that name objects by id: [parse 4; parse 4; query 9] is valid, 9 being
   the result of the SECOND parse; the first parse (result 7) is used by nobody; without it the second parse returns
   object 7 and id 9 names nothing *)
Example C06_delete_needs_side_condition :
  let cs := [CParse 4; CParse 4; CQuery 0 9] in
  valid_run SYM ex_state cs /\ map rid (snd (api_run REPAIRED SYM ex_state cs)) = [Some 7; Some 9; None] /\
  match nth_error (run_vals SYM ex_state (drop_nth 0 cs)) 1, nth_error (drop_nth 0 (run_vals SYM ex_state cs)) 1 with
  | Some a, Some b => vstrict_eqb a b
  | _, _ => true
  end = false.
Proof. split; [vm_compute; repeat split; repeat constructor; discriminate|]. vm_compute. split; reflexivity. Qed.

(* DUPLICATION.  Repeating a call at once: equal value; when the call returns a model, a second, new object;
   the results of all other calls are what they were. *)
Theorem C06_repeat_call : forall (sm : sem) (s : state) (pre post : list call) (c : call),
  cache_ok s -> valid_run sm s pre ->
  let s1 := run_state sm s pre in
  within (hp s1) c -> Forall (within (hp s1)) post ->
  let x1 := snd (api_step REPAIRED sm s1 c) in
  let x2 := snd (api_step REPAIRED sm (fst (api_step REPAIRED sm s1 c)) c) in
  rval x2 = rval x1 /\
  (if returns_model c then exists r1 r2, rid x1 = Some r1 /\ rid x2 = Some r2 /\ r1 < r2 /\
                                         h_get (hp (fst (api_step REPAIRED sm s1 c))) r2 = None
   else rid x1 = None /\ rid x2 = None) /\
  run_vals sm s (pre ++ c :: c :: post) = run_vals sm s pre ++ rval x1 :: rval x1 :: run_vals sm s1 post /\
  run_vals sm s (pre ++ c :: post) = run_vals sm s pre ++ rval x1 :: run_vals sm s1 post.
Proof.
  intros sm s pre post c Hc Hv s1 Hwc Hwp x1 x2.
  assert (Hc1 : cache_ok s1) by apply (run_spec sm (hp s) pre s (grows_refl _) Hc Hv).
  pose proof (step_val sm s1 c Hc1 Hwc) as V1. pose proof (step_grows sm s1 c) as G1.
  split; [|split].
  - unfold x1, x2. rewrite V1, step_val by (try apply step_cache_ok; try apply (within_grows _ _ _ G1); assumption).
    apply pure_val_grows; assumption.
  - destruct (step_spec sm s1 c) as (_ & _ & _ & R1). destruct (step_spec sm (fst (api_step REPAIRED sm s1 c)) c) as (_ & _ & _ & R2).
    destruct (returns_model c); [|split; assumption].
    destruct R1 as (r1 & E1 & L1 & _). destruct R2 as (r2 & E2 & L2 & _). exists r1, r2.
    split; [exact E1|]. split; [exact E2|]. split; [lia | apply h_get_above; lia].
  - rewrite (edit_point sm s pre (c :: post) Hc Hv (Forall_cons _ Hwc Hwp)).
    rewrite (edit_point sm s pre (c :: c :: post) Hc Hv (Forall_cons _ Hwc (Forall_cons _ Hwc Hwp))), (suffix_vals sm s1 post Hc1 Hwp).
    simpl. unfold x1. rewrite V1. split; reflexivity.
Qed.
Print Assumptions C06_repeat_call.

Example C06_ex_repeat :
  map rid (snd (api_run REPAIRED SYM ex_state (hl_pre ++ CExpand 9 :: CExpand 9 :: hl_post)))
    = [Some 9; None; Some 11; Some 13; None; Some 17; None] /\
  (match run_vals SYM ex_state (hl_pre ++ CExpand 9 :: CExpand 9 :: hl_post) with
   | [_; _; a; b; _; _; _] => vstrict_eqb a b | _ => false end) = true.
Proof. vm_compute. split; reflexivity. Qed.

(* PERMUTATION.  Calls that do not use each other's results may run in any order: the multiset of
   (call, result value) pairs is the same, and so is every object that existed before them. *)
Theorem C06_swap_independent_calls : forall (sm : sem) (s : state) (pre post post' : list call),
  cache_ok s -> valid_run sm s pre ->
  let s1 := run_state sm s pre in
  Forall (within (hp s1)) post -> Permutation post post' ->
  Permutation (combine (pre ++ post) (run_vals sm s (pre ++ post)))
              (combine (pre ++ post') (run_vals sm s (pre ++ post'))) /\
  (forall o, o <= hi (hp s1) ->
     h_get (hp (run_state sm s (pre ++ post))) o = h_get (hp (run_state sm s (pre ++ post'))) o).
Proof.
  intros sm s pre post post' Hc Hv s1 Hwp P. split.
  - rewrite (edit_point sm s pre post Hc Hv Hwp), (edit_point sm s pre post' Hc Hv (Permutation_Forall P Hwp)).
    rewrite !combine_app' by (symmetry; apply run_vals_length).
    apply Permutation_app_head, combine_map_perm, P.
  - intros o Ho. rewrite !run_state_app. fold s1.
    rewrite (proj1 (run_grows sm post s1) o Ho), (proj1 (run_grows sm post' s1) o Ho). reflexivity.
Qed.
Print Assumptions C06_swap_independent_calls.

Theorem C06_swap_adjacent_calls : forall (sm : sem) (s : state) (pre post : list call) (c1 c2 : call),
  cache_ok s -> valid_run sm s pre ->
  let s1 := run_state sm s pre in
  within (hp s1) c1 -> within (hp s1) c2 -> Forall (within (hp s1)) post ->
  Permutation (combine (pre ++ c1 :: c2 :: post) (run_vals sm s (pre ++ c1 :: c2 :: post)))
              (combine (pre ++ c2 :: c1 :: post) (run_vals sm s (pre ++ c2 :: c1 :: post))).
Proof.
  intros sm s pre post c1 c2 Hc Hv s1 H1 H2 Hp.
  apply (C06_swap_independent_calls sm s pre (c1 :: c2 :: post) (c2 :: c1 :: post) Hc Hv).
  - repeat constructor; assumption.
  - apply perm_swap.
Qed.
Print Assumptions C06_swap_adjacent_calls.

Example C06_ex_swap :
  Forall (within (hp hl_s1)) (CExpand 9 :: hl_post) /\
  Permutation (CExpand 9 :: hl_post) (CQuery 1 9 :: CExpand 9 :: CEval 4 5 :: [CResolve 4 None]) /\
  (match run_vals SYM ex_state (hl_pre ++ CExpand 9 :: hl_post),
         run_vals SYM ex_state (hl_pre ++ CQuery 1 9 :: CExpand 9 :: CEval 4 5 :: [CResolve 4 None]) with
   | [_; _; a; b; c; d], [_; _; b'; a'; d'; c'] =>
       vstrict_eqb a a' && vstrict_eqb b b' && vstrict_eqb c c' && vstrict_eqb d d'
   | _, _ => false end) = true.
Proof.
  split; [repeat constructor; vm_compute; discriminate|]. split; [|vm_compute; reflexivity].
  apply perm_trans with (CQuery 1 9 :: CExpand 9 :: [CResolve 4 None; CEval 4 5]); [apply perm_swap|].
  repeat apply perm_skip. apply perm_swap.
Qed.

(* INITIAL OBJECTS ARE IMMUTABLE.  After ANY history (no validity or cache hypothesis), every object that existed at
   the start -- templates, parameter dicts, contexts, whitelists, models -- and each process-wide default is the very
   same object with the same content, the same deep snapshot at every depth, and so is everything reachable from it. *)
Theorem C06_initial_objects_immutable : forall (sm : sem) (s : state) (cs : list call) (o : oid),
  o <= hi (hp s) \/ o = PSEUDO_ID \/ o = CATALOGUE_ID \/ o = STRICT_ID ->
  let s' := run_state sm s cs in
  h_get (hp s') o = h_get (hp s) o /\ h_obj (hp s') o = h_obj (hp s) o /\
  (forall n, snap n (hp s') o = snap n (hp s) o) /\
  (forall o', reach (hp s) o o' -> h_get (hp s') o' = h_get (hp s) o').
Proof.
  intros sm s cs o Ho s'. pose proof (run_grows sm cs s) as G. fold s' in G.
  assert (Ho' : o <= hi (hp s)) by (destruct Ho as [Ho | [-> | [-> | ->]]]; [exact Ho | apply defaults_le ..]).
  split; [apply G; exact Ho'|]. split; [apply (grows_obj _ _ _ G Ho')|].
  split; [intros n; apply grows_snap; assumption|].
  intros o' R. apply G. exact (reach_below _ _ _ Ho' R).
Qed.
Print Assumptions C06_initial_objects_immutable.

Example C06_ex_initial_immutable :
  let s' := run_state SYM ex_state (hl_pre ++ CExpand 9 :: CExpand 9 :: hl_post) in
  h_get (hp s') 4 = Some ex_model /\ h_get (hp s') 5 = Some ex_ep /\ N.ltb 15 (hi (hp s')) = true /\
  e_get (ev s') 4 <> None.
Proof. vm_compute. repeat split. discriminate. Qed.
