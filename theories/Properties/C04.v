(* C04 -- Parameter binding precedence, list parameters, SSM references and NoEcho masking.
   The theorems of the property, each proved from the lemmas of Resolver/ParamFacts.v (binding), CredFacts.v
   (has_hardcoded_credentials) and, from "ALGEBRAIC LAWS" on, BindLaws.v. *)
From Coq Require Import List Bool NArith ZArith Lia.
From PV Require Import Base.Str Base.Value Resolver.Consts Resolver.Text Resolver.Resolve Resolver.Spec Resolver.SubFacts
  Resolver.Template Resolver.ParamFacts Resolver.Creds Resolver.CredFacts Resolver.BindLaws.
Import ListNotations.
Local Open Scope N_scope.

(* supplied value, else Default, else the library's pseudo-parameter default, else nothing (then C01_ref_undefined gives
   UNDEFINED_PARAM_<name>): for declared, undeclared and pseudo names alike *)
Theorem C04_precedence : forall pseudo decls extra ps, bind_params pseudo decls extra = Ok ps -> NoDup (keys decls) ->
  forall k, lookup k ps =
    match lookup k decls with
    | None => match lookup k extra with Some v => Some v | None => lookup k pseudo end
    | Some d => match ref_value d (supplied k extra) with Ok (Some v) => Some v | _ => lookup k pseudo end
    end.
Proof. exact bind_params_precedence. Qed.
Print Assumptions C04_precedence.

(* scalar parameters: the supplied value wins over the Default, and the value is rendered as a string *)
Theorem C04_scalar : forall d provided, is_noecho d = false -> is_list_type d = false ->
  ref_value d provided =
  match (match provided with Some p => Some p | None => field K_Default d end) with
  | None => Ok None
  | Some v => s <- py_str v ;; Ok (Some (VStr s))
  end.
Proof. intros d provided H1 H2. unfold ref_value. rewrite H1, H2. reflexivity. Qed.
Print Assumptions C04_scalar.

(* List<Number> / CommaDelimitedList: the list of comma-separated items *)
Theorem C04_list_split : forall d provided, is_noecho d = false -> is_list_type d = true ->
  ref_value d provided =
  match (match provided with Some p => Some p | None => field K_Default d end) with
  | None => Ok None
  | Some (VList l) => Ok (Some (VList l))
  | Some v => s <- py_str v ;; Ok (Some (VList (map VStr (split S_COMMA s))))
  end.
Proof. intros d provided H1 H2. unfold ref_value. rewrite H1, H2. reflexivity. Qed.
Print Assumptions C04_list_split.

(* a declared parameter that has neither value nor default never makes resolution fail *)
Theorem C04_valueless_total : forall d, field K_Default d = None ->
  ref_value d None = Ok (if is_noecho d then Some (VStr S_NO_ECHO_NO_DEFAULT) else None).
Proof. intros d H. unfold ref_value. rewrite H. destruct (is_noecho d); [reflexivity|]. destruct (is_list_type d); reflexivity. Qed.
Print Assumptions C04_valueless_total.

(* NoEcho: references yield only the three fixed markers, chosen by the PRESENCE of a value / default *)
Theorem C04_noecho_markers : forall d provided, is_noecho d = true ->
  ref_value d provided = Ok (Some (VStr (match provided, field K_Default d with
                                         | Some _, _ => S_NO_ECHO_WITH_VALUE
                                         | None, Some _ => S_NO_ECHO_WITH_DEFAULT
                                         | None, None => S_NO_ECHO_NO_DEFAULT
                                         end))).
Proof. exact ref_value_noecho. Qed.
Print Assumptions C04_noecho_markers.

Theorem C04_marker_iff : forall d provided, is_noecho d = true ->
  (ref_value d provided = Ok (Some (VStr S_NO_ECHO_NO_DEFAULT)) <-> provided = None /\ field K_Default d = None).
Proof.
  intros d provided H.
  rewrite ref_value_noecho by assumption. destruct provided as [p|], (field K_Default d) as [v|]; split;
    try (intros [? ?]; discriminate); try (intros Hx; exfalso; inversion Hx; fail); auto.
Qed.
Print Assumptions C04_marker_iff.

(* the value supplied for a NoEcho parameter cannot influence the resolved model AT ALL (stronger than "does not appear") *)
Theorem C04_noecho_noninterference : forall pseudo decls extra maps cdecl rs s d v1 v2,
  lookup s decls = Some d -> is_noecho d = true -> v1 <> VNull -> v2 <> VNull -> NoDup (keys decls) ->
  resolve_model pseudo decls (with_secret s v1 extra) maps cdecl rs =
  resolve_model pseudo decls (with_secret s v2 extra) maps cdecl rs.
Proof.
  intros pseudo decls extra maps cdecl rs s d v1 v2 Hl Hn H1 H2 Hnd.
  unfold resolve_model, bind_params.
  rewrite (bind_declared_secret decls extra s d v1 v2 Hl Hn H1 H2 Hnd).
  unfold with_secret. cbn [filter fst]. rewrite (lookup_Some_mem_keys s decls d Hl). reflexivity.
Qed.
Print Assumptions C04_noecho_noninterference.

(* a {{resolve:ssm:name:version}} string resolves to the value supplied under name:version *)
Theorem C04_ssm : forall ps s key, ssm_key s = Some key ->
  render_str ps s = match lookup key ps with Some (VStr (c :: r)) => c :: r | _ => undefined_param key end.
Proof. intros ps s key H. unfold render_str. rewrite H. reflexivity. Qed.
Print Assumptions C04_ssm.

(* has_hardcoded_credentials is false exactly when every credential field of every authentication entry is absent or
   equals the NO_ECHO_NO_DEFAULT marker *)
Theorem C04_hc_iff : forall auths, (forall k a, In (k, a) auths -> exists d, a = VDict d) ->
  (any_bad auths = Ok false <->
   forall k a, In (k, a) auths -> exists d, a = VDict d /\
     cred_ok d K_accessKeyId = true /\ cred_ok d K_password = true /\ cred_ok d K_secretKey = true).
Proof. exact (fun auths _ => any_bad_false_iff auths). Qed.
Print Assumptions C04_hc_iff.

(* NoEcho, the Default: only its PRESENCE is read *)
(* what a reference to a declared NoEcho parameter is bound to after the whole merge {pseudo, declared, extra} *)
Theorem C04_noecho_binding : forall pseudo decls extra ps s d,
  bind_params pseudo decls extra = Ok ps -> NoDup (keys decls) -> lookup s decls = Some d -> is_noecho d = true ->
  lookup s ps = Some (VStr (match supplied s extra, field K_Default d with
                            | Some _, _ => S_NO_ECHO_WITH_VALUE
                            | None, Some _ => S_NO_ECHO_WITH_DEFAULT
                            | None, None => S_NO_ECHO_NO_DEFAULT
                            end)).
Proof.
  intros pseudo decls extra ps s d Hb Hnd Hl Hn.
  rewrite (bind_params_precedence pseudo decls extra ps Hb Hnd s), Hl.
  rewrite (ref_value_noecho d (supplied s extra) Hn). reflexivity.
Qed.
Print Assumptions C04_noecho_binding.

(* key lemma: two declaration lists that differ in the declaration of ONE name, the two declarations yielding the same
   reference value, give the same bindings; resolve_model reads the declarations through bind_params only *)
Theorem C04_same_binding : forall pseudo pre s d1 d2 post extra,
  ref_value d1 (supplied s extra) = ref_value d2 (supplied s extra) ->
  bind_params pseudo (pre ++ (s, d1) :: post) extra = bind_params pseudo (pre ++ (s, d2) :: post) extra.
Proof. exact bind_params_same_binding. Qed.
Print Assumptions C04_same_binding.

(* with no value supplied, S is bound to the WITH_DEFAULT marker whatever the (non-None) Default is: "" and 0 included *)
Theorem C04_noecho_default_binding : forall pseudo pre post extra ps s l v,
  bind_params pseudo (pre ++ (s, with_default v l) :: post) extra = Ok ps -> NoDup (keys (pre ++ (s, with_default v l) :: post)) ->
  is_noecho (VDict l) = true -> v <> VNull -> supplied s extra = None ->
  lookup s ps = Some (VStr S_NO_ECHO_WITH_DEFAULT).
Proof.
  intros pseudo pre post extra ps s l v Hb Hnd Hn Hv Hs.
  pose proof (lookup_NoDup_In s _ _ Hnd (in_elt (s, with_default v l) pre post)) as Hl.
  rewrite (C04_noecho_binding pseudo _ extra ps s _ Hb Hnd Hl) by (rewrite with_default_noecho; assumption).
  rewrite Hs, (with_default_field v l Hv). reflexivity.
Qed.
Print Assumptions C04_noecho_default_binding.

(* the VALUE of a NoEcho parameter's Default cannot influence the resolved model AT ALL: two templates whose declarations of S
   differ only in that value ([with_default v l] is the declaration l with l["Default"] = v; v <> VNull: `is not None`, so a
   falsy Default is a Default) resolve to the same Conditions and Resources.  It holds for every [extra]; the case of the
   property is the one where no value is supplied for S (otherwise the Default is not even looked at). *)
Theorem C04_noecho_default_noninterference : forall pseudo pre post extra maps cdecl rs s l v1 v2,
  is_noecho (VDict l) = true -> v1 <> VNull -> v2 <> VNull ->
  resolve_model pseudo (pre ++ (s, with_default v1 l) :: post) extra maps cdecl rs =
  resolve_model pseudo (pre ++ (s, with_default v2 l) :: post) extra maps cdecl rs.
Proof.
  intros pseudo pre post extra maps cdecl rs s l v1 v2 Hn H1 H2.
  apply noecho_default_noninterference_gen; try (rewrite with_default_noecho; assumption).
  rewrite !with_default_field by assumption. split; discriminate.
Qed.
Print Assumptions C04_noecho_default_noninterference.

(* general form: ANY two NoEcho declarations of S (they may differ in Type, Description, ... as well) that agree on the
   presence of a Default are indistinguishable *)
Theorem C04_noecho_declaration_noninterference : forall pseudo pre post extra maps cdecl rs s d1 d2,
  is_noecho d1 = true -> is_noecho d2 = true -> (field K_Default d1 = None <-> field K_Default d2 = None) ->
  resolve_model pseudo (pre ++ (s, d1) :: post) extra maps cdecl rs =
  resolve_model pseudo (pre ++ (s, d2) :: post) extra maps cdecl rs.
Proof. exact noecho_default_noninterference_gen. Qed.
Print Assumptions C04_noecho_declaration_noninterference.

(* has_hardcoded_credentials, the Metadata branch (Resource).
   [clean_field d f]: f is absent from d or holds the NO_ECHO_NO_DEFAULT marker; [clean_entry a]: a is a dictionary whose
   accessKeyId, password and secretKey are clean; [dirty_entry a]: a is a dictionary one of whose three fields holds something else;
   [md_auths md a]: a = the entries the check iterates over (none without Metadata / without a truthy authentication block) *)
Theorem C04_cred_field : forall d f, cred_ok d f = true <-> lookup f d = None \/ lookup f d = Some MARKER.
Proof. exact cred_ok_iff. Qed.
Print Assumptions C04_cred_field.

(* the loop over the entries (C04_hc_iff above, rewritten with [clean_entry]; its hypothesis "all entries are dictionaries" is not
   needed) *)
Theorem C04_hc_entries_false_iff : forall auths,
  any_bad auths = Ok false <-> forall k a, In (k, a) auths -> clean_entry a.
Proof. exact any_bad_false_iff_all. Qed.
Print Assumptions C04_hc_entries_false_iff.

Theorem C04_hc_entries_true_iff : forall auths,
  any_bad auths = Ok true <->
  exists pre k a post, auths = pre ++ (k, a) :: post /\ (forall k' a', In (k', a') pre -> clean_entry a') /\ dirty_entry a.
Proof. exact any_bad_true_iff. Qed.
Print Assumptions C04_hc_entries_true_iff.

Theorem C04_hc_entries_true_iff_dicts : forall auths, (forall k a, In (k, a) auths -> exists d, a = VDict d) ->
  (any_bad auths = Ok true <-> exists k a, In (k, a) auths /\ dirty_entry a).
Proof.
  intros auths Hd.
  split.
  - intros H. apply any_bad_true_iff in H. destruct H as (pre & k & a & post & -> & _ & H). exists k, a. split; [|assumption].
    apply in_or_app. right. left. reflexivity.
  - intros (k & a & Hin & Hdirty). destruct (any_bad auths) as [[|]|e] eqn:E; [reflexivity | |].
    + exfalso. pose proof (proj1 (any_bad_false_iff_all auths) E k a Hin) as Hc. apply auth_ok_true_iff in Hc.
      apply auth_ok_false_iff in Hdirty. congruence.
    + exfalso. apply any_bad_err_iff in E. destruct E as (_ & pre & k0 & a0 & post & -> & _ & Hn).
      destruct (Hd k0 a0) as [d ->]; [apply in_or_app; right; left; reflexivity|]. apply (Hn d). reflexivity.
Qed.
Print Assumptions C04_hc_entries_true_iff_dicts.

(* AttributeError (`auth.get` on something that is not a dictionary) <-> the first entry that is not clean is not a dictionary *)
Theorem C04_hc_entries_err_iff : forall auths e,
  any_bad auths = Err e <->
  e = EAttr /\ exists pre k a post, auths = pre ++ (k, a) :: post /\ (forall k' a', In (k', a') pre -> clean_entry a') /\
                                    forall d, a <> VDict d.
Proof. exact any_bad_err_iff. Qed.
Print Assumptions C04_hc_entries_err_iff.

(* Resource.has_hardcoded_credentials() is False exactly when every one of accessKeyId / password / secretKey of every
   authentication entry is absent or equals the marker ... *)
Theorem C04_hc_resource_iff : forall md,
  has_hc md = Ok false <-> exists a, md_auths md a /\ forall k x, In (k, x) a -> clean_entry x.
Proof. intros md. rewrite has_hc_ok_iff. split; intros (a & Hm & H); exists a; (split; [assumption|]); apply any_bad_false_iff_all; assumption. Qed.
Print Assumptions C04_hc_resource_iff.

(* ... in particular: no Metadata, no "AWS::CloudFormation::Authentication" key, or a falsy value under it => False *)
Theorem C04_hc_resource_no_block : forall md, md_auths md [] -> has_hc md = Ok false.
Proof. intros md H. apply C04_hc_resource_iff. exists []. split; [assumption | intros k x []]. Qed.
Print Assumptions C04_hc_resource_no_block.

Theorem C04_hc_resource_true_iff : forall md,
  has_hc md = Ok true <-> exists m a, md = VDict m /\ lookup K_CFN_AUTH m = Some (VDict a) /\ any_bad a = Ok true.
Proof.
  intros md.
  rewrite has_hc_ok_iff. split.
  - intros (a & Hm & H). inv Hm; try discriminate. exists m, a. auto.
  - intros (m & a & -> & Hl & H). exists a. split; [apply MA_block; assumption | assumption].
Qed.
Print Assumptions C04_hc_resource_true_iff.

Theorem C04_hc_resource_ok_iff : forall md b, has_hc md = Ok b <-> exists a, md_auths md a /\ any_bad a = Ok b.
Proof. exact has_hc_ok_iff. Qed.
Print Assumptions C04_hc_resource_ok_iff.

(* the three ways the check fails: an entry that is not a dictionary; a truthy authentication block that is not a dictionary
   (`.values()`: AttributeError); Metadata that is neither None nor a dictionary (outside the model's domain) *)
Theorem C04_hc_resource_err_iff : forall md e,
  has_hc md = Err e <->
  (exists a, md_auths md a /\ any_bad a = Err e)
  \/ (e = EAttr /\ exists m v, md = VDict m /\ lookup K_CFN_AUTH m = Some v /\ truthy v = true /\ forall a, v <> VDict a)
  \/ (e = EUndefined /\ md <> VNull /\ forall m, md <> VDict m).
Proof.
  intros md e.
  split.
  - destruct md as [ | ? | ? | ? | ? ? | ? | ? | l]; simpl; try discriminate;
      try (intros H; inv H; right; right; split; [reflexivity|]; split; [discriminate | intros m; discriminate]).
    destruct (lookup K_CFN_AUTH l) as [v|] eqn:E; [|discriminate].
    destruct v as [ | ? | ? | ? | ? ? | ? | ? | l0]; try (destruct (truthy _) eqn:T; [|discriminate]; intros H; inv H; right; left; split; [reflexivity|];
                     eexists; eexists; repeat split; eauto; intros a; discriminate).
    intros H. left. exists l0. split; [apply MA_block; assumption | assumption].
  - intros [(a & Hm & Hb) | [(-> & m & v & -> & Hl & Ht & Hn) | (-> & Hn & Hd)]].
    + inv Hm; simpl in *; try discriminate. rewrite H. assumption.
    + simpl. rewrite Hl. destruct v as [ | ? | ? | ? | ? ? | ? | ? | l0]; try (rewrite Ht; reflexivity). exfalso. apply (Hn l0). reflexivity.
    + destruct md as [ | ? | ? | ? | ? ? | ? | ? | l]; try reflexivity; [contradiction | exfalso; apply (Hd l); reflexivity].
Qed.
Print Assumptions C04_hc_resource_err_iff.

(* has_hardcoded_credentials, the LoginProfile branch (IAMUser).
   [login_wf login]: the LoginProfile is None or a dictionary; [counted_password login]: it has a Password that is TRUTHY (the
   code tests `login_profile.get("Password")`: an empty password is treated like an absent one) and is not the marker;
   [uncounted_password login]: no LoginProfile, no Password, a falsy Password, or the marker *)
Theorem C04_password_cases : forall login, login_wf login -> counted_password login \/ uncounted_password login.
Proof. exact password_cases. Qed.
Print Assumptions C04_password_cases.
Theorem C04_password_cases_exclusive : forall login, counted_password login -> ~ uncounted_password login.
Proof.
  intros login.
  intros (lp & p & -> & Hl & Ht & Hm) Hu. destruct Hu as [H | Hu]; [discriminate|].
  destruct Hu as (lp' & H & Hu). inv H. destruct Hu as [Hn | (p' & Hl' & Hu)]; [congruence|].
  rewrite Hl in Hl'. inv Hl'. destruct Hu; congruence.
Qed.
Print Assumptions C04_password_cases_exclusive.

(* the user has hard-coded credentials iff its password counts OR the Metadata authentication block has a bad entry *)
Theorem C04_hc_user_iff : forall login md, login_wf login ->
  (has_hc_user login md = Ok true <->
   counted_password login \/
   exists m a, md = VDict m /\ lookup K_CFN_AUTH m = Some (VDict a) /\ any_bad a = Ok true).
Proof.
  intros login md Hwf.
  rewrite <- C04_hc_resource_true_iff. split.
  - intros H. destruct (password_cases login Hwf) as [Hc|Hu]; [left; assumption|].
    right. rewrite <- (hc_user_uncounted login md Hu). assumption.
  - intros [Hc|Hm]; [apply hc_user_counted; assumption|].
    destruct (password_cases login Hwf) as [Hc|Hu]; [apply hc_user_counted; assumption|].
    rewrite (hc_user_uncounted login md Hu). assumption.
Qed.
Print Assumptions C04_hc_user_iff.

Theorem C04_hc_user_false_iff : forall login md, login_wf login ->
  (has_hc_user login md = Ok false <->
   uncounted_password login /\ exists a, md_auths md a /\ forall k x, In (k, x) a -> clean_entry x).
Proof.
  intros login md Hwf.
  rewrite <- C04_hc_resource_iff. apply hc_user_not_true; [exact Hwf | discriminate].
Qed.
Print Assumptions C04_hc_user_false_iff.

(* a counted password answers True before the Metadata is looked at (even Metadata on which the generic check would raise) *)
Theorem C04_hc_user_password : forall login md, counted_password login -> has_hc_user login md = Ok true.
Proof. exact hc_user_counted. Qed.
Print Assumptions C04_hc_user_password.

(* the password does NOT mask the Metadata: when it is absent, empty or the marker, the answer is exactly the verdict of the
   base class -- value or exception (the seeded change C04-m2 of DESIGN.md 7.4 returns the password verdict directly) *)
Theorem C04_hc_user_password_does_not_mask_metadata : forall login md,
  uncounted_password login -> has_hc_user login md = has_hc md.
Proof. exact hc_user_uncounted. Qed.
Print Assumptions C04_hc_user_password_does_not_mask_metadata.

Theorem C04_hc_user_err_iff : forall login md e, login_wf login ->
  (has_hc_user login md = Err e <-> uncounted_password login /\ has_hc md = Err e).
Proof. intros login md e Hwf. apply hc_user_not_true; [exact Hwf | discriminate]. Qed.
Print Assumptions C04_hc_user_err_iff.

(* a LoginProfile that is neither None nor a dictionary is outside the model's domain (pydantic: Optional[Dict]) *)
Theorem C04_hc_user_illformed : forall login md, ~ login_wf login -> has_hc_user login md = Err EUndefined.
Proof.
  intros login md H.
  destruct login as [ | ? | ? | ? | ? ? | ? | ? | l]; try reflexivity; exfalso; apply H; [left; reflexivity | right; exists l; reflexivity].
Qed.
Print Assumptions C04_hc_user_illformed.

(* parameters and credentials together: what {"Ref": S}, S a declared NoEcho parameter, puts into a credential field *)
Theorem C04_ref_noecho : forall pseudo decls extra ps maps cf s d,
  bind_params pseudo decls extra = Ok ps -> NoDup (keys decls) -> lookup s decls = Some d -> is_noecho d = true ->
  do_ref {| params := ps; mappings := maps; conds := cf |} (VStr s) =
  Ok (VStr (match supplied s extra, field K_Default d with
            | Some _, _ => S_NO_ECHO_WITH_VALUE
            | None, Some _ => S_NO_ECHO_WITH_DEFAULT
            | None, None => S_NO_ECHO_NO_DEFAULT
            end)).
Proof.
  intros pseudo decls extra ps maps cf s d Hb Hnd Hl Hn. unfold do_ref. cbn [params].
  rewrite (C04_noecho_binding pseudo decls extra ps s d Hb Hnd Hl Hn). destruct (supplied s extra), (field K_Default d); reflexivity.
Qed.
Print Assumptions C04_ref_noecho.

(* {"Ref": S} is do_ref of S for every name the leaf rules leave alone *)
Theorem C04_ref_is_do_ref : forall ps maps cf s, ssm_key s = None -> is_boolish s = false ->
  resolve {| params := ps; mappings := maps; conds := cf |} (VDict [(K_Ref, VStr s)]) =
  do_ref {| params := ps; mappings := maps; conds := cf |} (VStr s).
Proof. intros ps maps cf s H1 H2. rewrite resolve_ref. cbn [resolve]. unfold render_str. rewrite H1, H2. reflexivity. Qed.
Print Assumptions C04_ref_is_do_ref.

(* the marker that has_hardcoded_credentials forgives arises from such a reference exactly when S has NEITHER a supplied
   value NOR a Default *)
Theorem C04_marker_only_from_unset_noecho : forall pseudo decls extra ps maps cf s d,
  bind_params pseudo decls extra = Ok ps -> NoDup (keys decls) -> lookup s decls = Some d -> is_noecho d = true ->
  (do_ref {| params := ps; mappings := maps; conds := cf |} (VStr s) = Ok MARKER <->
   supplied s extra = None /\ field K_Default d = None).
Proof.
  intros pseudo decls extra ps maps cf s d Hb Hnd Hl Hn.
  rewrite <- (C04_marker_iff d (supplied s extra) Hn), (C04_ref_noecho pseudo decls extra ps maps cf s d Hb Hnd Hl Hn),
    (ref_value_noecho d _ Hn).
  unfold MARKER. split; congruence.
Qed.
Print Assumptions C04_marker_only_from_unset_noecho.

(* hence: a credential field that is Ref S, S unset, is NOT reported -- the field is clean, and as the user's password it
   leaves the verdict to the Metadata check *)
Theorem C04_unset_noecho_ref_not_reported : forall pseudo decls extra ps maps cf s d,
  bind_params pseudo decls extra = Ok ps -> NoDup (keys decls) -> lookup s decls = Some d -> is_noecho d = true ->
  forall v, do_ref {| params := ps; mappings := maps; conds := cf |} (VStr s) = Ok v ->
  supplied s extra = None /\ field K_Default d = None ->
  (forall a f, lookup f a = Some v -> clean_field a f) /\
  (forall lp md, lookup K_Password lp = Some v -> has_hc_user (VDict lp) md = has_hc md).
Proof.
  intros pseudo decls extra ps maps cf s d Hb Hnd Hl Hn v Hv Hu.
  apply (C04_marker_only_from_unset_noecho pseudo decls extra ps maps cf s d Hb Hnd Hl Hn) in Hu. rewrite Hu in Hv. inv Hv. split.
  - intros a f Hf. right. assumption.
  - intros lp md Hp. apply hc_user_uncounted. right. exists lp. split; [reflexivity|]. right. exists MARKER. auto.
Qed.
Print Assumptions C04_unset_noecho_ref_not_reported.

(* and a credential field that is Ref S, S with a Default or a supplied value, IS reported (it resolves to another marker): as
   the user's password, and as accessKeyId / password / secretKey of an authentication entry *)
Theorem C04_set_noecho_ref_reported : forall pseudo decls extra ps maps cf s d,
  bind_params pseudo decls extra = Ok ps -> NoDup (keys decls) -> lookup s decls = Some d -> is_noecho d = true ->
  forall v, do_ref {| params := ps; mappings := maps; conds := cf |} (VStr s) = Ok v ->
  ~ (supplied s extra = None /\ field K_Default d = None) ->
  (forall lp md, lookup K_Password lp = Some v -> has_hc_user (VDict lp) md = Ok true) /\
  (forall a f, In f CRED_FIELDS -> lookup f a = Some v -> dirty_entry (VDict a)) /\
  (forall auths k a f, (forall k' a', In (k', a') auths -> exists d', a' = VDict d') ->
     In (k, VDict a) auths -> In f CRED_FIELDS -> lookup f a = Some v -> any_bad auths = Ok true).
Proof.
  intros pseudo decls extra ps maps cf s d Hb Hnd Hl Hn v Hv Hset.
  assert (Hv' : truthy v = true /\ v <> MARKER).
  { rewrite (C04_ref_noecho pseudo decls extra ps maps cf s d Hb Hnd Hl Hn) in Hv.
    destruct (supplied s extra), (field K_Default d); inv Hv; try (split; [reflexivity | discriminate]).
    exfalso. apply Hset. auto. }
  destruct Hv' as [Ht Hm]. split; [|split].
  - intros lp md Hp. apply hc_user_counted. exists lp, v. auto.
  - intros a f Hf Hp. exists a, f, v. auto.
  - intros auths k a f Hd Hin Hf Hp. apply C04_hc_entries_true_iff_dicts; [assumption|]. exists k, (VDict a). split; [assumption|].
    exists a, f, v. auto.
Qed.
Print Assumptions C04_set_noecho_ref_reported.

(* witnesses *)
Definition dNoEchoEmptyDefault : value := VDict [(K_Type, VStr [83]); (K_Default, VStr []); (K_NoEcho, VBool true)].
Example C04_ex_noecho_empty_default : ref_value dNoEchoEmptyDefault None = Ok (Some (VStr S_NO_ECHO_WITH_DEFAULT)).
Proof. vm_compute. reflexivity. Qed.
Definition dListNoDefault : value := VDict [(K_Type, VStr S_CommaDelimitedList)].
Example C04_ex_list_no_value : ref_value dListNoDefault None = Ok None
  /\ ref_value dListNoDefault (Some (VStr [97;44;98])) = Ok (Some (VList [VStr [97]; VStr [98]])).
Proof. vm_compute. repeat split. Qed.
Example C04_ex_ssm : ssm_key (S_SSM_PREFIX ++ [47;112;58;49;125;125]) = Some [47;112;58;49].
Proof. vm_compute. reflexivity. Qed.

(* witnesses: credentials *)
Definition sHard : value := VStr [104;97;114;100;99;111;100;101;100].     (* "hardcoded" *)
Definition mdOf (auths : list (str * value)) : value := VDict [(K_CFN_AUTH, VDict auths)].
Definition loginOf (p : value) : value := VDict [(K_Password, p)].
(* what the seeded change C04-m2 gets wrong: the password is the marker, the Metadata holds a literal secretKey => reported *)
Example C04_ex_user_marker_password_literal_key :
  has_hc_user (loginOf MARKER) (mdOf [([97;49], VDict [(K_secretKey, sHard)])]) = Ok true
  /\ uncounted_password (loginOf MARKER).
Proof. split; [vm_compute; reflexivity|]. right. eexists. split; [reflexivity|]. right. exists MARKER. split; [reflexivity | right; reflexivity]. Qed.
(* truthiness: an empty password is treated like an absent one; a literal one counts; only marker-valued entries => clean *)
Example C04_ex_user_passwords :
  has_hc_user (loginOf (VStr [])) VNull = Ok false
  /\ has_hc_user (loginOf sHard) VNull = Ok true
  /\ has_hc_user (loginOf (VStr S_NO_ECHO_WITH_DEFAULT)) VNull = Ok true
  /\ has_hc_user VNull (mdOf [([97;49], VDict [(K_secretKey, MARKER); (K_Type, sHard)])]) = Ok false
  /\ has_hc_user (VDict []) (mdOf []) = Ok false.
Proof. vm_compute. repeat split. Qed.
Example C04_ex_counted : counted_password (loginOf sHard) /\ login_wf (loginOf sHard) /\ login_wf VNull.
Proof.
  split; [exists [(K_Password, sHard)], sHard; repeat split; try reflexivity; discriminate|].
  split; [right; eexists; reflexivity | left; reflexivity].
Qed.
(* the error cases: an entry that is not a dictionary, a block that is not a dictionary, an ill-formed LoginProfile; a counted
   password answers before any of the Metadata errors *)
Example C04_ex_hc_errors :
  has_hc (mdOf [([97;49], sHard)]) = Err EAttr
  /\ has_hc (VDict [(K_CFN_AUTH, sHard)]) = Err EAttr
  /\ has_hc (VDict [(K_CFN_AUTH, VStr [])]) = Ok false
  /\ has_hc_user (loginOf MARKER) (mdOf [([97;49], sHard)]) = Err EAttr
  /\ has_hc_user (loginOf sHard) (mdOf [([97;49], sHard)]) = Ok true
  /\ has_hc_user sHard VNull = Err EUndefined.
Proof. vm_compute. repeat split. Qed.
Example C04_ex_md_auths : md_auths VNull [] /\ md_auths (VDict []) [] /\ md_auths (VDict [(K_CFN_AUTH, VStr [])]) []
  /\ md_auths (mdOf [([97;49], VDict [])]) [([97;49], VDict [])].
Proof.
  split; [constructor|]. split; [apply MA_no_block; reflexivity|].
  split; [eapply MA_falsy_block; reflexivity | apply MA_block; reflexivity].
Qed.

(* witnesses: a whole template (parse is the identity on these), resolve_model, then the check on Resources["R"] *)
Definition nSecret : str := [83;101;99;114;101;116].     (* "Secret" *)
Definition nKeyed : str := [75;101;121;101;100].         (* "Keyed" *)
Definition declBody : list (str * value) := [(K_Type, VStr [83;116;114;105;110;103]); (K_NoEcho, VBool true)].
Definition refTo (n : str) : value := VDict [(K_Ref, VStr n)].
Definition userRes (pw : value) (auths : list (str * value)) : value :=
  VDict [(K_Type, VStr S_IAM_USER);
         (K_Properties, VDict [(K_LoginProfile, VDict [(K_Password, pw)])]);
         (K_Metadata, VDict [(K_CFN_AUTH, VDict auths)])].
Definition hcOf (decls extra : list (str * value)) (auths : list (str * value)) : res bool :=
  hc_resolved (resolve_model [] decls extra [] [] [([82], userRes (refTo nSecret) auths)]) [82].
Definition declsUnset : list (str * value) := [(nSecret, VDict declBody)].

(* hypotheses of C04_marker_only_from_unset_noecho are satisfiable, and both sides of its equivalence occur *)
Example C04_ex_marker_hyps :
  exists ps, bind_params [] declsUnset [] = Ok ps /\ NoDup (keys declsUnset) /\ lookup nSecret declsUnset = Some (VDict declBody)
    /\ is_noecho (VDict declBody) = true
    /\ do_ref {| params := ps; mappings := []; conds := fun _ => Ok false |} (VStr nSecret) = Ok MARKER
    /\ supplied nSecret [] = None /\ field K_Default (VDict declBody) = None
    /\ ssm_key nSecret = None /\ is_boolish nSecret = false.
Proof.
  eexists. split; [vm_compute; reflexivity|]. split; [repeat constructor; intros []|].
  vm_compute. repeat split.
Qed.
Example C04_ex_marker_set :
  exists ps, bind_params [] [(nSecret, with_default (VStr []) declBody)] [] = Ok ps
    /\ do_ref {| params := ps; mappings := []; conds := fun _ => Ok false |} (VStr nSecret) = Ok (VStr S_NO_ECHO_WITH_DEFAULT)
    /\ field K_Default (with_default (VStr []) declBody) <> None.
Proof. eexists. split; [vm_compute; reflexivity|]. split; [vm_compute; reflexivity | vm_compute; discriminate]. Qed.

(* LoginProfile.Password = Ref to the unset NoEcho parameter: alone it is not reported ... *)
Example C04_ex_tpl_password_only : hcOf declsUnset [] [] = Ok false.
Proof. vm_compute. reflexivity. Qed.
(* ... but a literal secretKey in the same resource's Metadata is *)
Example C04_ex_tpl_literal_key : hcOf declsUnset [] [([97;49], VDict [(K_secretKey, sHard)])] = Ok true.
Proof. vm_compute. reflexivity. Qed.
(* ... and so is a Ref to a NoEcho parameter WITH a default (even the falsy default "") *)
Example C04_ex_tpl_ref_with_default :
  hcOf [(nSecret, VDict declBody); (nKeyed, with_default (VStr []) declBody)] []
       [([97;49], VDict [(K_password, refTo nKeyed)])] = Ok true.
Proof. vm_compute. reflexivity. Qed.
(* only marker-valued entries (a Ref to the unset parameter, the marker spelled out): not reported ... *)
Example C04_ex_tpl_marker_only :
  hcOf declsUnset [] [([97;49], VDict [(K_accessKeyId, refTo nSecret); (K_secretKey, MARKER)])] = Ok false.
Proof. vm_compute. reflexivity. Qed.
(* ... until a value is supplied for the parameter *)
Example C04_ex_tpl_marker_only_supplied :
  hcOf declsUnset [(nSecret, VStr [120])] [([97;49], VDict [(K_accessKeyId, refTo nSecret); (K_secretKey, MARKER)])] = Ok true.
Proof. vm_compute. reflexivity. Qed.

(* witnesses: the Default of a NoEcho parameter *)
Definition tplDefault (dv : value) : res value :=
  resolve_model [] ([] ++ (nSecret, with_default dv declBody) :: []) [] [] []
    [([82], userRes (refTo nSecret) [([97;49], VDict [(K_secretKey, refTo nSecret)])])].
(* "", 0 and a real secret are indistinguishable (and the resolution succeeds: the statement is not about two errors) ... *)
Example C04_ex_default_blind :
  tplDefault (VStr []) = tplDefault sHard /\ tplDefault (VInt 0) = tplDefault sHard /\ is_ok (tplDefault sHard) = true
  /\ is_noecho (VDict declBody) = true.
Proof. vm_compute. repeat split. Qed.
(* ... whereas Default: null is NO default (the hypothesis v <> VNull is needed): the marker, hence the whole result, differs *)
Example C04_ex_default_null_differs :
  tplDefault VNull <> tplDefault sHard /\ hc_resolved (tplDefault VNull) [82] = Ok false /\ hc_resolved (tplDefault sHard) [82] = Ok true.
Proof. split; [vm_compute; discriminate | split; vm_compute; reflexivity]. Qed.

(* ALGEBRAIC LAWS of parameter binding (Resolver/BindLaws.v).  Laws that FAIL carry the suffix _refuted and a witness.
   render_param d v marker  = how a PRESENT value v of the parameter declared by d is rendered (NoEcho: the marker; list types:
   a list is kept, a text is split at ","; otherwise str(v));  undeclared decls extra = the supplied keys that are not declared. *)
Definition dStrDefault : value := VDict [(K_Type, VStr [83]); (K_Default, VStr [100])].          (* Type S, Default "d" *)
Definition dNoEchoDefault : value := VDict [(K_Type, VStr [83]); (K_Default, VStr [100]); (K_NoEcho, VBool true)].

(* LOCALITY: the binding of a name is a function of ITS declaration, the value supplied under ITS name and the library
   default of ITS name -- whatever else is declared or supplied *)
Theorem C04_binding_local : forall pseudo1 pseudo2 decls1 decls2 extra1 extra2 ps1 ps2 k,
  bind_params pseudo1 decls1 extra1 = Ok ps1 -> bind_params pseudo2 decls2 extra2 = Ok ps2 ->
  NoDup (keys decls1) -> NoDup (keys decls2) ->
  lookup k decls1 = lookup k decls2 -> lookup k extra1 = lookup k extra2 -> lookup k pseudo1 = lookup k pseudo2 ->
  lookup k ps1 = lookup k ps2.
Proof.
  intros pseudo1 pseudo2 decls1 decls2 extra1 extra2 ps1 ps2 k H1 H2 N1 N2 Hd He Hp.
  rewrite (bind_params_precedence pseudo1 decls1 extra1 ps1 H1 N1 k), (bind_params_precedence pseudo2 decls2 extra2 ps2 H2 N2 k).
  unfold supplied. rewrite Hd, He, Hp. reflexivity.
Qed.
Print Assumptions C04_binding_local.
Example C04_ex_binding_local :  (* P declared the same way in two templates with different neighbours and different other keys *)
  exists ps1 ps2,
    bind_params [] [([80], dStrDefault)] [([81], VStr [113])] = Ok ps1 /\
    bind_params [] [([82], dListNoDefault); ([80], dStrDefault)] [([82], VStr [97;44;98])] = Ok ps2 /\
    NoDup (keys [([80], dStrDefault)]) /\ NoDup (keys [([82], dListNoDefault); ([80], dStrDefault)]) /\
    lookup [80] ps1 = Some (VStr [100]) /\ lookup [80] ps2 = Some (VStr [100]) /\ ps1 <> ps2.
Proof.
  eexists. eexists. split; [vm_compute; reflexivity|]. split; [vm_compute; reflexivity|].
  split; [repeat constructor; intros []|]. split; [repeat constructor; [intros [H|[]]; discriminate H | intros []]|].
  split; [vm_compute; reflexivity|]. split; [vm_compute; reflexivity | discriminate].
Qed.

(* supplying a value EQUAL to the Default changes no binding ... *)
Theorem C04_supply_default_value : forall d v, field K_Default d = Some v -> is_noecho d = false ->
  ref_value d (Some v) = ref_value d None.
Proof. intros d v Hd Hn. rewrite ref_value_supplied, (ref_value_default d v Hd). unfold render_param. rewrite Hn. reflexivity. Qed.
Print Assumptions C04_supply_default_value.
Theorem C04_supply_default_binding : forall pseudo decls extra k d v, NoDup (keys decls) -> lookup k decls = Some d ->
  field K_Default d = Some v -> is_noecho d = false -> supplied k extra = None ->
  bind_params pseudo decls ((k, v) :: extra) = bind_params pseudo decls extra.
Proof.
  intros pseudo decls extra k d v Hnd Hl Hd Hn Hs.
  rewrite !bind_params_unfold.
  pose proof (lookup_Some_mem_keys k decls d Hl) as Hm.
  assert (Hu : undeclared decls ((k, v) :: extra) = undeclared decls extra).
  { unfold undeclared. cbn [filter fst]. rewrite Hm. reflexivity. }
  rewrite Hu. rewrite (bind_declared_ext decls ((k, v) :: extra) extra); [reflexivity|].
  intros k0 d0 Hin. destruct (str_eqb k0 k) eqn:Ek.
  - apply str_eqb_spec in Ek. subst k0. rewrite (lookup_NoDup_In k d0 decls Hnd Hin) in Hl. inv Hl.
    rewrite supplied_cons_eq by (eapply field_not_null; exact Hd). rewrite Hs. apply C04_supply_default_value; assumption.
  - rewrite supplied_cons_neq by exact Ek. reflexivity.
Qed.
Print Assumptions C04_supply_default_binding.
Theorem C04_supply_default_model : forall pseudo decls extra maps cdecl rs k d v, NoDup (keys decls) -> lookup k decls = Some d ->
  field K_Default d = Some v -> is_noecho d = false -> supplied k extra = None ->
  resolve_model pseudo decls ((k, v) :: extra) maps cdecl rs = resolve_model pseudo decls extra maps cdecl rs.
Proof.
  intros pseudo decls extra maps cdecl rs k d v Hnd Hl Hd Hn Hs.
  unfold resolve_model. rewrite (C04_supply_default_binding pseudo decls extra k d v Hnd Hl Hd Hn Hs). reflexivity.
Qed.
Print Assumptions C04_supply_default_model.
Example C04_ex_supply_default : NoDup (keys [([80], dStrDefault)]) /\ lookup [80] [([80], dStrDefault)] = Some dStrDefault /\
  field K_Default dStrDefault = Some (VStr [100]) /\ is_noecho dStrDefault = false /\ supplied [80] [] = None /\
  bind_params [] [([80], dStrDefault)] [([80], VStr [100])] = Ok [([80], VStr [100])].
Proof. split; [repeat constructor; intros []|]. vm_compute. repeat split. Qed.
(* ... EXCEPT for a NoEcho parameter: the marker says whether a value was supplied *)
Theorem C04_supply_default_noecho : forall d v, field K_Default d = Some v -> is_noecho d = true ->
  ref_value d (Some v) = Ok (Some (VStr S_NO_ECHO_WITH_VALUE)) /\ ref_value d None = Ok (Some (VStr S_NO_ECHO_WITH_DEFAULT)) /\
  S_NO_ECHO_WITH_VALUE <> S_NO_ECHO_WITH_DEFAULT.
Proof.
  intros d v Hd Hn.
  rewrite ref_value_supplied, (ref_value_default d v Hd). unfold render_param. rewrite Hn. cbn [bind].
  repeat split. discriminate.
Qed.
Print Assumptions C04_supply_default_noecho.
Example C04_ex_supply_default_noecho : field K_Default dNoEchoDefault = Some (VStr [100]) /\ is_noecho dNoEchoDefault = true.
Proof. vm_compute. repeat split. Qed.

(* IDEMPOTENCE: a rendered value is a fixed point of the rendering, so supplying the visible bindings again (own bindings of
   the declared parameters + the undeclared supplied keys) reproduces exactly the same table -- when no parameter is NoEcho *)
Theorem C04_rendered_fixed_point : forall d p v, is_noecho d = false -> ref_value d p = Ok (Some v) -> ref_value d (Some v) = Ok (Some v).
Proof.
  intros d p v Hn.
  unfold ref_value. rewrite Hn. destruct (is_list_type d).
  - destruct (match p with Some p0 => Some p0 | None => field K_Default d end) as [x|]; [|discriminate].
    destruct x as [ | b | z | t | tk t | bs | l | dd]; cbn [py_str bind]; try discriminate; try (intros H; inv H; reflexivity).
    destruct tk; intros H; inv H; reflexivity.
  - destruct (match p with Some p0 => Some p0 | None => field K_Default d end) as [x|]; [|discriminate].
    destruct (py_str x); cbn [bind]; [|discriminate]. intros H. inv H. reflexivity.
Qed.
Print Assumptions C04_rendered_fixed_point.
Theorem C04_bind_idempotent : forall pseudo decls extra declared, NoDup (keys decls) ->
  (forall k d, In (k, d) decls -> is_noecho d = false) -> bind_declared decls extra = Ok declared ->
  bind_params pseudo decls (undeclared decls extra ++ declared) = bind_params pseudo decls extra.
Proof.
  (* the second binding sees the same undeclared keys ([declared] holds declared names only), and each declared name is supplied
     with what the first binding produced for it, which renders to itself *)
  intros pseudo decls extra declared Hnd Hne Hb.
  rewrite !bind_params_unfold.
  assert (Hu : undeclared decls (undeclared decls extra ++ declared) = undeclared decls extra).
  { unfold undeclared. rewrite filter_app, ListFacts.filter_filter, (filter_ext _ _ (fun x => andb_diag _)),
      (declared_undeclared decls extra declared _ Hb (incl_refl _)), app_nil_r. reflexivity. }
  rewrite Hu. rewrite (bind_declared_ext decls (undeclared decls extra ++ declared) extra); [reflexivity|].
  intros k d Hin. pose proof (lookup_NoDup_In k d decls Hnd Hin) as Hl.
  pose proof (bind_declared_lookup decls extra declared Hb Hnd k) as Hlk. rewrite Hl in Hlk.
  destruct (bind_declared_ok_each decls extra declared k d Hb Hin) as [o Ho]. rewrite Ho in Hlk.
  assert (Hs : supplied k (undeclared decls extra ++ declared) = o).
  { unfold supplied. rewrite lookup_app, (lookup_undeclared decls extra k (proj2 (mem_str_In _ _) (In_keys k d decls Hin))), Hlk.
    destruct o as [v|]; [|reflexivity]. pose proof (ref_value_not_null d _ v Ho). destruct v; try reflexivity. contradiction. }
  rewrite Hs, Ho. destruct o as [v|].
  - eapply C04_rendered_fixed_point; [apply (Hne k d Hin) | exact Ho].
  - rewrite (ref_value_unbound d _ Ho) in Ho. exact Ho.
Qed.
Print Assumptions C04_bind_idempotent.
Example C04_ex_bind_idempotent :        (* a Number default 5 (rendered "5"), a list supplied as text, an undeclared key *)
  let decls := [([78], VDict [(K_Type, VStr [78]); (K_Default, VInt 5)]); ([76], dListNoDefault)] in
  let extra := [([76], VStr [97;44;98]); ([88], VInt 7)] in
  NoDup (keys decls) /\ (forall k d, In (k, d) decls -> is_noecho d = false) /\
  bind_declared decls extra = Ok [([78], VStr [53]); ([76], VList [VStr [97]; VStr [98]])] /\
  undeclared decls extra = [([88], VInt 7)].
Proof.
  cbv zeta. split; [repeat constructor; [intros [H|[]]; discriminate H | intros []]|].
  split; [intros k d [H|[H|[]]]; inversion H; subst; vm_compute; reflexivity|]. split; vm_compute; reflexivity.
Qed.
(* a NoEcho parameter breaks it: its marker, supplied again, is "a value" *)
Theorem C04_noecho_resupply : forall d m, is_noecho d = true -> ref_value d None = Ok (Some m) ->
  ref_value d (Some m) = Ok (Some (VStr S_NO_ECHO_WITH_VALUE)) /\ m <> VStr S_NO_ECHO_WITH_VALUE.
Proof.
  intros d m Hn H.
  split; [rewrite ref_value_noecho by exact Hn; reflexivity|].
  rewrite ref_value_noecho in H by exact Hn. destruct (field K_Default d); inv H; discriminate.
Qed.
Print Assumptions C04_noecho_resupply.
Theorem C04_bind_idempotent_noecho_refuted : exists decls extra declared k,
  NoDup (keys decls) /\ bind_declared decls extra = Ok declared /\
  (exists ps1 ps2, bind_params [] decls extra = Ok ps1 /\ bind_params [] decls (undeclared decls extra ++ declared) = Ok ps2 /\
     lookup k ps1 = Some (VStr S_NO_ECHO_NO_DEFAULT) /\ lookup k ps2 = Some (VStr S_NO_ECHO_WITH_VALUE)).
Proof.
  exists [([80], dSecret)], [], [([80], VStr S_NO_ECHO_NO_DEFAULT)], [80].
  split; [repeat constructor; intros []|]. split; [reflexivity|]. eexists. eexists. split; [vm_compute; reflexivity|]. split; [vm_compute; reflexivity|]. vm_compute. repeat split.
Qed.
Print Assumptions C04_bind_idempotent_noecho_refuted.
(* ... and the credential verdict of a whole template follows the marker: not reported, then reported *)
Example C04_ex_resupplied_marker_is_reported :
  hcOf declsUnset [] [] = Ok false /\ hcOf declsUnset [(nSecret, VStr S_NO_ECHO_NO_DEFAULT)] [] = Ok true /\
  is_noecho (VDict declBody) = true /\ ref_value (VDict declBody) None = Ok (Some (VStr S_NO_ECHO_NO_DEFAULT)).
Proof. vm_compute. repeat split. Qed.

(* list-typed parameters: the text "a,b" and the list ["a","b"] bind to the same list *)
Theorem C04_list_text_vs_list : forall d s, is_noecho d = false -> is_list_type d = true ->
  ref_value d (Some (VStr s)) = ref_value d (Some (VList (map VStr (split S_COMMA s)))).
Proof. intros d s Hn Hl. rewrite !C04_list_split by assumption. reflexivity. Qed.
Print Assumptions C04_list_text_vs_list.
(* a bare text without a comma = the one-element list *)
Theorem C04_list_bare_text : forall d s, is_noecho d = false -> is_list_type d = true -> ~ In 44 s ->
  ref_value d (Some (VStr s)) = Ok (Some (VList [VStr s])) /\ ref_value d (Some (VList [VStr s])) = Ok (Some (VList [VStr s])).
Proof. intros d s Hn Hl Hs. rewrite !C04_list_split by assumption. cbn [py_str bind]. rewrite split_no_comma by exact Hs. split; reflexivity. Qed.
Print Assumptions C04_list_bare_text.
(* the EMPTY text binds [""] (one empty item, Python's "".split(",")), the empty list binds [] *)
Theorem C04_list_empty_text : forall d, is_noecho d = false -> is_list_type d = true ->
  ref_value d (Some (VStr [])) = Ok (Some (VList [VStr []])) /\ ref_value d (Some (VList [])) = Ok (Some (VList [])).
Proof. intros d Hn Hl. rewrite !C04_list_split by assumption. split; reflexivity. Qed.
Print Assumptions C04_list_empty_text.
Example C04_ex_list_hyps : is_noecho dListNoDefault = false /\ is_list_type dListNoDefault = true /\ ~ In 44 [97] /\
  split S_COMMA [97;44;98] = [[97]; [98]].
Proof. split; [reflexivity|]. split; [reflexivity|]. split; [intros [H|[]]; discriminate H | vm_compute; reflexivity]. Qed.
(* the members of a supplied LIST are bound as they are, those of a supplied text as text: "1,2" binds ["1","2"], [1,2] binds
   [1,2] (docstring: "the string version of each element"); a Ref renders the members, so the resolved model does not differ *)
Theorem C04_list_members_not_rendered_refuted :
  ref_value dNumList (Some (VStr [49; 44; 50])) = Ok (Some (VList [VStr [49]; VStr [50]])) /\
  ref_value dNumList (Some (VList [VInt 1; VInt 2])) = Ok (Some (VList [VInt 1; VInt 2])) /\
  normalize [] (VList [VInt 1; VInt 2]) = normalize [] (VList [VStr [49]; VStr [50]]).
Proof. vm_compute. repeat split. Qed.
Print Assumptions C04_list_members_not_rendered_refuted.

(* PRECEDENCE as ONE theorem.  Declared name: supplied value (rendered) > Default (rendered) > [NoEcho: the NO_DEFAULT
   marker] > library default of that name > unbound.  Undeclared name (pseudo parameters included): the supplied value AS IT IS
   > library default > unbound *)
Theorem C04_precedence_chain : forall pseudo decls extra ps, bind_params pseudo decls extra = Ok ps -> NoDup (keys decls) ->
  forall k,
  match lookup k decls with
  | Some d =>
      match supplied k extra, field K_Default d with
      | Some v, _ => exists r, render_param d v S_NO_ECHO_WITH_VALUE = Ok r /\ lookup k ps = Some r
      | None, Some v => exists r, render_param d v S_NO_ECHO_WITH_DEFAULT = Ok r /\ lookup k ps = Some r
      | None, None => lookup k ps = if is_noecho d then Some (VStr S_NO_ECHO_NO_DEFAULT) else lookup k pseudo
      end
  | None => lookup k ps = match lookup k extra with Some v => Some v | None => lookup k pseudo end
  end.
Proof.
  intros pseudo decls extra ps Hb Hnd k.
  pose proof (bind_params_precedence pseudo decls extra ps Hb Hnd k) as Hp.
  destruct (lookup k decls) as [d|] eqn:Hl; [|exact Hp].
  rewrite bind_params_unfold in Hb. destruct (bind_declared decls extra) as [declared|] eqn:Hd; [|discriminate].
  destruct (bind_declared_ok_each decls extra declared k d Hd (lookup_In k decls d Hl)) as [o Ho]. rewrite Ho in Hp.
  destruct (supplied k extra) as [v|] eqn:Hs.
  - rewrite ref_value_supplied in Ho. destruct (render_param d v S_NO_ECHO_WITH_VALUE) as [r|]; [|discriminate]. inv Ho. exists r. auto.
  - destruct (field K_Default d) as [v|] eqn:Hf.
    + rewrite (ref_value_default d v Hf) in Ho. destruct (render_param d v S_NO_ECHO_WITH_DEFAULT) as [r|]; [|discriminate]. inv Ho. exists r. auto.
    + rewrite (C04_valueless_total d Hf) in Ho. inv Ho. destruct (is_noecho d); exact Hp.
Qed.
Print Assumptions C04_precedence_chain.
Definition nRegion : str := [65;87;83;58;58;82;101;103;105;111;110].          (* "AWS::Region" *)
Definition pseudoEx : list (str * value) := [(nRegion, VStr [101;117])].      (* library default "eu" *)
Example C04_ex_precedence_chain :       (* all five levels: P declared with Default "d", AWS::Region declared without Default / undeclared, X undeclared, Y unbound *)
  exists ps1 ps2, 
    bind_params pseudoEx [([80], dStrDefault); (nRegion, dListNoDefault)] [([80], VInt 7); ([88], VInt 7)] = Ok ps1 /\
    bind_params pseudoEx [([80], dStrDefault)] [(nRegion, VStr [117;115])] = Ok ps2 /\
    lookup [80] ps1 = Some (VStr [55]) /\              (* declared + supplied 7: rendered "7" *)
    lookup [80] ps2 = Some (VStr [100]) /\             (* declared, not supplied: Default *)
    lookup nRegion ps1 = Some (VStr [101;117]) /\      (* declared without Default, not supplied: the library default of the name *)
    lookup nRegion ps2 = Some (VStr [117;115]) /\      (* pseudo parameter supplied: overrides the library default *)
    lookup [88] ps1 = Some (VInt 7) /\                 (* undeclared ordinary name: bound as supplied (not rendered) *)
    lookup [89] ps1 = None.                            (* unbound *)
Proof. eexists. eexists. split; [vm_compute; reflexivity|]. split; [vm_compute; reflexivity|]. vm_compute. repeat split. Qed.
(* inside it: an explicit null means "not supplied" for a declared name, but is BOUND for an undeclared one (and then hides the
   library default of a pseudo parameter) *)
Theorem C04_null_supplied_asymmetry : forall pseudo decls extra ps k, bind_params pseudo decls extra = Ok ps -> NoDup (keys decls) ->
  lookup k extra = Some VNull ->
  match lookup k decls with
  | Some d => lookup k ps = match ref_value d None with Ok (Some v) => Some v | _ => lookup k pseudo end
  | None => lookup k ps = Some VNull
  end.
Proof.
  intros pseudo decls extra ps k Hb Hnd He.
  pose proof (bind_params_precedence pseudo decls extra ps Hb Hnd k) as Hp. unfold supplied in Hp. rewrite He in Hp.
  destruct (lookup k decls); exact Hp.
Qed.
Print Assumptions C04_null_supplied_asymmetry.
Example C04_ex_null_supplied : exists ps, bind_params pseudoEx [([80], dStrDefault)] [([80], VNull); (nRegion, VNull)] = Ok ps /\
  NoDup (keys [([80], dStrDefault)]) /\ lookup [80] ps = Some (VStr [100]) /\ lookup nRegion ps = Some VNull.
Proof. eexists. split; [vm_compute; reflexivity|]. split; [repeat constructor; intros []|]. split; vm_compute; reflexivity. Qed.

(* has_hardcoded_credentials as a COMPLETE decision table.  A credential field comes from nothing (CAbsent), a literal
   (CLiteral s) or a reference to a NoEcho parameter (CRefNoEcho has_default supplied); cred_val is its value in the resolved
   model.  A field of an authentication entry counts unless it is absent or spells the NO_DEFAULT marker; the user's password
   counts under the same rule except that an EMPTY literal does not *)
Theorem C04_hc_resource_table : forall entries,
  has_hc (md_of entries) = Ok (existsb (fun ke => entry_reported (snd ke)) entries).
Proof. intros entries. unfold md_of, has_hc. cbn [lookup]. rewrite str_eqb_refl. apply any_bad_entries. Qed.
Print Assumptions C04_hc_resource_table.
Theorem C04_hc_user_table : forall lp entries,
  has_hc_user (login_of lp) (md_of entries) = Ok (password_reported lp || existsb (fun ke => entry_reported (snd ke)) entries).
Proof.
  intros lp entries.
  destruct lp as [c|]; [|exact (C04_hc_resource_table entries)]. destruct c as [|s|dflt sup]; cbn [login_of optf cred_val has_hc_user lookup password_reported].
  - exact (C04_hc_resource_table entries).
  - rewrite str_eqb_refl. destruct s as [|c0 s']; [exact (C04_hc_resource_table entries)|].
    unfold MARKER. cbn [truthy veqb andb]. destruct (str_eqb (c0 :: s') S_NO_ECHO_NO_DEFAULT); [exact (C04_hc_resource_table entries) | reflexivity].
  - rewrite str_eqb_refl. unfold MARKER. cbn [veqb]. rewrite marker_eqb, negb_involutive.
    assert (Ht : truthy (VStr (noecho_marker dflt sup)) = true) by (destruct dflt, sup; reflexivity). rewrite Ht. cbn [andb].
    destruct (dflt || sup); [reflexivity | exact (C04_hc_resource_table entries)].
Qed.
Print Assumptions C04_hc_user_table.
Example C04_ex_hc_rows :
  field_reported CAbsent = false /\ field_reported (CLiteral [120]) = true /\ field_reported (CLiteral []) = true /\
  field_reported (CLiteral S_NO_ECHO_NO_DEFAULT) = false /\
  field_reported (CRefNoEcho false false) = false /\ field_reported (CRefNoEcho true false) = true /\
  field_reported (CRefNoEcho false true) = true /\ field_reported (CRefNoEcho true true) = true /\
  password_reported None = false /\ password_reported (Some CAbsent) = false /\ password_reported (Some (CLiteral [120])) = true /\
  password_reported (Some (CLiteral [])) = false /\ password_reported (Some (CLiteral S_NO_ECHO_NO_DEFAULT)) = false /\
  password_reported (Some (CRefNoEcho false false)) = false /\ password_reported (Some (CRefNoEcho true false)) = true /\
  password_reported (Some (CRefNoEcho false true)) = true.
Proof. vm_compute. repeat split. Qed.
(* the two places judge the same source differently for the empty literal only *)
Theorem C04_password_vs_field : forall c, password_reported (Some c) = field_reported c \/ c = CLiteral [].
Proof. intros c. destruct c as [|s|dflt sup]; [left; reflexivity | | left; reflexivity]. destruct s; [right; reflexivity | left; reflexivity]. Qed.
Print Assumptions C04_password_vs_field.
(* CRefNoEcho is what a reference to a NoEcho parameter resolves to *)
Theorem C04_cred_val_is_ref : forall pseudo decls extra ps maps cf s d, bind_params pseudo decls extra = Ok ps -> NoDup (keys decls) ->
  lookup s decls = Some d -> is_noecho d = true ->
  do_ref {| params := ps; mappings := maps; conds := cf |} (VStr s) =
  match cred_val (CRefNoEcho (match field K_Default d with Some _ => true | None => false end)
                             (match supplied s extra with Some _ => true | None => false end)) with
  | Some v => Ok v | None => Err EUndefined end.
Proof.
  intros pseudo decls extra ps maps cf s d Hb Hnd Hl Hn.
  rewrite (C04_ref_noecho pseudo decls extra ps maps cf s d Hb Hnd Hl Hn).
  cbn [cred_val]. unfold noecho_marker. destruct (supplied s extra), (field K_Default d); reflexivity.
Qed.
Print Assumptions C04_cred_val_is_ref.
Example C04_ex_hc_table_template :      (* the table agrees with a whole template run through resolve_model *)
  hcOf declsUnset [] [([97;49], VDict [(K_secretKey, refTo nSecret)])] =
    has_hc_user (login_of (Some (CRefNoEcho false false))) (md_of [([97;49], (CAbsent, CAbsent, CRefNoEcho false false))]) /\
  hcOf declsUnset [(nSecret, VStr [120])] [([97;49], VDict [(K_secretKey, refTo nSecret)])] =
    has_hc_user (login_of (Some (CRefNoEcho false true))) (md_of [([97;49], (CAbsent, CAbsent, CRefNoEcho false true))]) /\
  hcOf declsUnset [(nSecret, VStr [120])] [] = Ok true /\ hcOf declsUnset [] [([97;49], VDict [(K_password, VStr [])])] = Ok true.
Proof. vm_compute. repeat split. Qed.
