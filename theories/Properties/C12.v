(* C12 -- Condition blocks combine operators, keys, values and qualifiers as IAM specifies.
   States the theorems of property C12; each general law is proved here from the lemmas of Iam/ShortCircuit.v,
   Iam/BlockFacts.v and Iam/BlockAlgebra.v (the algebra of blocks: order independence, value lists as disjunction /
   conjunction, blocks as conjunctions, qualifiers, context irrelevance, empty block and Null);
   the refutations and the examples are concrete witnesses on the live operator table, proved by evaluation.

   eval_block test ord b ctx  is  StatementCondition.model_validate(b)(ctx):  Some b = returned b, None = returned None.
   [test] is the single-value comparison (instance: Ops.op_test fold, property C11) and is arbitrary in every theorem;
   [ord] is the operator table (instance: the generated table OPERATORS of the live class) and is arbitrary too. *)
From Coq Require Import List Bool NArith ZArith Lia Permutation.
From PV Require Import Base.Str Base.ListFacts Base.Value Iam.IpNet Iam.Ops Iam.OpNames Iam.Block Iam.ShortCircuit Iam.BlockFacts Iam.OpTable Iam.BlockAlgebra.
From PVGen Require Import Operators.
Import ListNotations.
Import Witness.

(* The block is satisfied EXACTLY WHEN every operator set in it is satisfied for every one of its keys, where
   (key_sat) an IfExists operator is satisfied when its key is absent (missing or None), otherwise
   (inner_sat) no qualifier + one value: the key's own context value passes the comparison;
               ForAllValues: the key is present and EVERY one of its context values passes (value_sat);
               ForAnyValue / a value list: the key is present and AT LEAST ONE context value passes;
   (value_sat) positive operator: SOME listed policy value matches (alternatives);
               negated operator: the test holds for EVERY listed policy value (jointly excluded);
   "some ... passes" is Python's any(): the first that passes, those before it having been comparable (not raised). *)
Theorem C12_true_iff :
  forall (test : base_op -> cval -> cval -> option bool) (ord : list op_entry) (b : block) (ctx : context),
    eval_block test ord b ctx = Some true <-> block_sat test ord b ctx.
Proof. exact block_true_iff. Qed.
Print Assumptions C12_true_iff.

(* the same with plain "for all / there exists" (no evaluation order): True implies it always, and it is equivalent to
   True whenever every policy value of the block can be compared with every context value of its key *)
Theorem C12_true_plain :
  forall (test : base_op -> cval -> cval -> option bool) (ord : list op_entry) (b : block) (ctx : context),
    eval_block test ord b ctx = Some true -> block_sat_plain test ord b ctx.
Proof.
  intros test ord b ctx.
  rewrite block_true_iff. intros [Hfn H]. split; [exact Hfn|]. intros e g k pv Hs Hk.
  destruct (H e g k pv Hs Hk) as [Ha|Hi]; [left; exact Ha | right; apply inner_sat_weaken, Hi].
Qed.
Print Assumptions C12_true_plain.

Theorem C12_true_iff_comparable :
  forall (test : base_op -> cval -> cval -> option bool) (ord : list op_entry) (b : block) (ctx : context),
    comparable test ord b ctx ->
    (eval_block test ord b ctx = Some true <-> block_sat_plain test ord b ctx).
Proof.
  intros test ord b ctx Hc.
  split; [apply C12_true_plain|]. intros [Hfn H]. apply block_true_iff. split; [exact Hfn|].
  intros e g k pv Hs Hk. destruct (H e g k pv Hs Hk) as [Ha|Hi]; [left; exact Ha | right].
  revert Hi. apply inner_sat_strengthen. intros x c p Hx Hin Hp. exact (Hc e g k pv p x c Hs Hk Hp Hx Hin).
Qed.
Print Assumptions C12_true_iff_comparable.

(* calling a condition returns True, False or None.  The statement holds of every term of type [option bool]: that no
   exception escapes is a fact about the TYPE of eval_block, not about its body *)
Theorem C12_total :
  forall (test : base_op -> cval -> cval -> option bool) (ord : list op_entry) (b : block) (ctx : context),
    eval_block test ord b ctx = Some true \/ eval_block test ord b ctx = Some false \/ eval_block test ord b ctx = None.
Proof. exact block_total. Qed.
Print Assumptions C12_total.

(* None only if a policy value is still an unresolved function object, or the context lacks a REQUIRED key (operator
   without IfExists), or it holds a value that cannot be compared with a listed policy value *)
Theorem C12_none_only_if :
  forall (test : base_op -> cval -> cval -> option bool) (ord : list op_entry) (b : block) (ctx : context),
    eval_block test ord b ctx = None ->
    ~ no_fn ord b \/
    exists e g k pv, is_set ord b e g /\ In (k, pv) g /\
      ((e_ifx e = false /\ ctx_get ctx k = None) \/
       exists p c, In p (plist pv) /\ In c (seen (e_qual e) pv ctx k) /\ test (e_base e) p c = None).
Proof. exact block_none_only_if. Qed.
Print Assumptions C12_none_only_if.

(* each key is tested against its own context value only: two contexts that agree on key k give the group of k the
   same verdict -- in particular changing the value of another key k2 cannot change it *)
Theorem C12_key_independent :
  forall (test : base_op -> cval -> cval -> option bool) (e : op_entry) (k : str) (pv : pvals) (ctx ctx' : context),
    ctx_get ctx k = ctx_get ctx' k -> eval_key test e k pv ctx = eval_key test e k pv ctx'.
Proof. intros test e k pv ctx ctx' H. unfold Block.eval_key, present, Block.eval_inner. rewrite H. reflexivity. Qed.
Print Assumptions C12_key_independent.

Theorem C12_key_independent_update :
  forall (test : base_op -> cval -> cval -> option bool) (e : op_entry) (k1 : str) (pv : pvals) (ctx : context)
         (k2 : str) (v : ctxval),
    k2 <> k1 -> eval_key test e k1 pv ((k2, v) :: ctx) = eval_key test e k1 pv ctx.
Proof. intros test e k1 pv ctx k2 v Hne. apply C12_key_independent, ctx_get_other, Hne. Qed.
Print Assumptions C12_key_independent_update.

Theorem C12_ifexists_absent :
  forall (test : base_op -> cval -> cval -> option bool) (e : op_entry) (k : str) (pv : pvals) (ctx : context),
    e_ifx e = true -> present ctx k = false -> eval_key test e k pv ctx = Some true.
Proof. exact ifexists_absent. Qed.
Print Assumptions C12_ifexists_absent.

(* the block is satisfied iff every single-operator single-key sub-block {name: {key: value(s)}} is *)
Theorem C12_conjunction :
  forall (test : base_op -> cval -> cval -> option bool) (ord : list op_entry) (b : block) (ctx : context),
    table_ok ord ->
    (eval_block test ord b ctx = Some true <->
     forall e g k pv, is_set ord b e g -> In (k, pv) g -> eval_block test ord [(e_name e, [(k, pv)])] ctx = Some true).
Proof.
  intros test ord b ctx Hok.
  rewrite block_true_iff. unfold block_sat, no_fn. split.
  - intros [Hf H] e g k pv Hs Hk. apply (single_true test ord e k pv ctx Hok (proj1 Hs)).
    split; [exact (Hf e g k pv Hs Hk) | exact (H e g k pv Hs Hk)].
  - intros H. split; intros e g k pv Hs Hk;
      destruct (proj1 (single_true test ord e k pv ctx Hok (proj1 Hs)) (H e g k pv Hs Hk)) as [Hf Hk']; assumption.
Qed.
Print Assumptions C12_conjunction.

(* ... and the generated table of the live class is such a table *)
Theorem C12_live_table_ok : table_ok OPERATORS.
Proof. exact Operators_table_ok. Qed.
Print Assumptions C12_live_table_ok.

(* "ForAllValues:StringLike" and "ForAllValuesStringLike" are the same operator: colons in operator names are ignored *)
Theorem C12_colon :
  forall (test : base_op -> cval -> cval -> option bool) (ord : list op_entry) (n : str) (g : groups) (b : block)
         (ctx : context),
    eval_block test ord ((n, g) :: b) ctx = eval_block test ord ((norm_name n, g) :: b) ctx.
Proof.
  intros test ord n g b ctx.
  rewrite <- (colon_irrelevant test ord ((n, g) :: b)), <- (colon_irrelevant test ord ((norm_name n, g) :: b)).
  unfold norm_block. simpl. rewrite norm_name_idem. reflexivity.
Qed.
Print Assumptions C12_colon.

Theorem C12_colon_block :
  forall (test : base_op -> cval -> cval -> option bool) (ord : list op_entry) (b : block) (ctx : context),
    eval_block test ord (norm_block b) ctx = eval_block test ord b ctx.
Proof. exact colon_irrelevant. Qed.
Print Assumptions C12_colon_block.

(* The algebra of condition blocks.  The verdict is three-valued (Some true | Some false | None = undetermined).
   Python's all()/any() stop at the first decisive member and an exception aborts them, so "True" never depends on an
   evaluation order while the split between False and None may.  Each law is therefore given as: the unconditional
   part; full three-valued equality under a definedness hypothesis; and, where full equality fails without it, a
   refutation with a concrete witness.

   and_sc x y / or_sc x y : left-to-right and-then / or-else (None on the left makes the whole None);
   and3_spec r1 r2 r      : r is a conjunction of r1 and r2 evaluated in an unknown interleaving:
                            true & y = y, x & true = x, false & false = false, None & None = None,
                            false & None (either way) = false OR None. *)

(* the order of the operators of a block is irrelevant, undetermined case included (evaluation follows the declaration
   order of the class, not the order of the block), provided no operator is written twice (only possible with two colon
   spellings of one name: the later one replaces the earlier one) *)
Theorem C12_operator_order_blind :
  forall (test : base_op -> cval -> cval -> option bool) (ord : list op_entry) (b b' : block) (ctx : context),
    NoDup (map fst (norm_block b)) -> Permutation b b' -> eval_block test ord b ctx = eval_block test ord b' ctx.
Proof.
  intros test ord b b' ctx Hnd Hp.
  unfold Block.eval_block. rewrite !active_pick.
  rewrite (flat_map_ext _ (pick (fun e => find_last (e_name e) (norm_block b')))); [reflexivity|].
  intros e. unfold pick. rewrite (find_last_perm _ _ (norm_block b') Hnd); [reflexivity|].
  apply Permutation_map, Hp.
Qed.
Print Assumptions C12_operator_order_blind.

(* ... and the side condition is needed: {"StringEquals": {"k1": "b"}, "String:Equals": {"k1": "a"}} on {"k1": "a"}
   is True, with the two operators swapped it is False (the later spelling replaces the earlier one) *)
Theorem C12_operator_order_nodup_needed :
  exists b1 b2 ctx, Permutation b1 b2 /\ Witness.ev b1 ctx = Some true /\ Witness.ev b2 ctx = Some false.
Proof.
  exists [(n_StringEquals, [(k1, POne (S b))]);
          (n_String_Equals, [(k1, POne (S a))])],
         [(n_String_Equals, [(k1, POne (S a))]);
          (n_StringEquals, [(k1, POne (S b))])],
         [(k1, XOne (S a))].
  split; [apply perm_swap | vm_compute; split; reflexivity].
Qed.
Print Assumptions C12_operator_order_nodup_needed.

(* the order of the keys under one operator: "satisfied" is order-free ... *)
Theorem C12_key_order_blind :
  forall (test : base_op -> cval -> cval -> option bool) (ord : list op_entry) (b b' : block) (ctx : context),
    keys_permuted b b' -> (eval_block test ord b ctx = Some true <-> eval_block test ord b' ctx = Some true).
Proof.
  intros test ord b b' ctx.
  assert (H : forall b b', keys_permuted b b' -> eval_block test ord b ctx = Some true -> eval_block test ord b' ctx = Some true).
  { intros c c' Hr. apply (block_congr_true test ord _ c c' ctx Hr). intros e g g' _ Hp. split.
    - rewrite (grp_has_fn_perm g g' Hp). auto.
    - apply (proj1 (entry_perm_true test e g g' ctx Hp)). }
  intros Hr. split; [apply H; exact Hr | apply H; apply keys_permuted_sym; exact Hr].
Qed.
Print Assumptions C12_key_order_blind.

(* ... the whole verdict is order-free when every key's verdict is defined ... *)
Theorem C12_key_order_blind_defined :
  forall (test : base_op -> cval -> cval -> option bool) (ord : list op_entry) (b b' : block) (ctx : context),
    keys_permuted b b' ->
    (forall e g k pv, is_set ord b e g -> In (k, pv) g -> eval_key test e k pv ctx <> None) ->
    eval_block test ord b ctx = eval_block test ord b' ctx.
Proof.
  intros test ord b b' ctx Hr Hd.
  apply (block_congr test ord _ b b' ctx Hr). intros e g g' Hs Hp. split.
  - apply grp_has_fn_perm. exact Hp.
  - apply entry_perm; [exact Hp|]. intros k pv Hin. exact (Hd e g k pv Hs Hin).
Qed.
Print Assumptions C12_key_order_blind_defined.

(* ... in general a permutation of keys can only exchange False and None ... *)
Theorem C12_key_order_weak :
  forall (test : base_op -> cval -> cval -> option bool) (ord : list op_entry) (b b' : block) (ctx : context),
    keys_permuted b b' ->
    eval_block test ord b ctx = eval_block test ord b' ctx \/
    (eval_block test ord b ctx <> Some true /\ eval_block test ord b' ctx <> Some true).
Proof. intros test ord b b' ctx Hr. apply iff_weak. apply C12_key_order_blind. exact Hr. Qed.
Print Assumptions C12_key_order_weak.

(* ... and it does: {"StringEquals": {"k1": "a", "k2": "b"}} on {"k1": "x"} is False (k1 fails first),
   {"StringEquals": {"k2": "b", "k1": "a"}} is None (k2 is missing and is looked at first) *)
Theorem C12_key_order_refuted :
  exists b1 b2 ctx, keys_permuted b1 b2 /\ Witness.ev b1 ctx = Some false /\ Witness.ev b2 ctx = None.
Proof.
  exists [(n_StringEquals, [(k1, POne (S a)); (k2, POne (S b))])],
         [(n_StringEquals, [(k2, POne (S b)); (k1, POne (S a))])],
         [(k1, XOne (S x))].
  split; [|vm_compute; split; reflexivity].
  constructor; [|constructor]. split; [reflexivity | apply perm_swap].
Qed.
Print Assumptions C12_key_order_refuted.

(* the same for one operator's group *)
Theorem C12_entry_key_order :
  forall (test : base_op -> cval -> cval -> option bool) (e : op_entry) (g g' : groups) (ctx : context),
    Permutation g g' ->
    (eval_entry test ctx (e, g) = Some true <-> eval_entry test ctx (e, g') = Some true).
Proof. exact entry_perm_true. Qed.
Print Assumptions C12_entry_key_order.

Theorem C12_entry_key_order_defined :
  forall (test : base_op -> cval -> cval -> option bool) (e : op_entry) (g g' : groups) (ctx : context),
    Permutation g g' -> (forall k pv, In (k, pv) g -> eval_key test e k pv ctx <> None) ->
    eval_entry test ctx (e, g) = eval_entry test ctx (e, g').
Proof. exact entry_perm. Qed.
Print Assumptions C12_entry_key_order_defined.

(* exact, with the undetermined case: or-else for a positive operator, and-then for a negated one *)
Theorem C12_values_app :
  forall (test : base_op -> cval -> cval -> option bool) (o : base_op) (ps qs : list cval) (c : cval),
    value_ok test o (ps ++ qs) c =
    (if negated o then and_sc else or_sc) (value_ok test o ps c) (value_ok test o qs c).
Proof. intros test o ps qs c. rewrite !(value_ok_sc_o test), sc_app. destruct (negated o); [apply seq_and | apply seq_or]. Qed.
Print Assumptions C12_values_app.

Theorem C12_values_cons :
  forall (test : base_op -> cval -> cval -> option bool) (o : base_op) (p : cval) (ps : list cval) (c : cval),
    value_ok test o (p :: ps) c = (if negated o then and_sc else or_sc) (test o p c) (value_ok test o ps c).
Proof. exact value_ok_cons. Qed.
Print Assumptions C12_values_cons.

Theorem C12_values_single :
  forall (test : base_op -> cval -> cval -> option bool) (o : base_op) (p c : cval), value_ok test o [p] c = test o p c.
Proof. intros test o p c. unfold Block.value_ok. destruct (negated o); simpl; destruct (test o p c) as [[|]|]; reflexivity. Qed.
Print Assumptions C12_values_single.

(* The laws of Iam/BlockAlgebra.v used from here on take, after [test], the verdict d that DECIDES the loop [sc d]
   (Iam/ShortCircuit.v).  For value lists (values_polar, values_mono, values_add_one, value_ok_sc): d = true is a positive
   operator (one True decides), d = false a negated one.  For qualifiers (eval_key_list, qualifier_mono): d = true is
   ForAnyValue, d = false ForAllValues. *)

(* positive operator: the verdict is the DISJUNCTION over the values *)
Theorem C12_values_disjunction :
  forall (test : base_op -> cval -> cval -> option bool) (o : base_op) (ps : list cval) (c : cval),
    negated o = false ->
    (value_ok test o ps c = Some true -> exists p, In p ps /\ test o p c = Some true) /\
    (value_ok test o ps c = Some false <-> forall p, In p ps -> test o p c = Some false) /\
    (comparable_vals test o ps c -> (value_ok test o ps c = Some true <-> exists p, In p ps /\ test o p c = Some true)).
Proof.
  intros test o ps c Hn. destruct (values_polar test true o ps c Hn) as (Hfalse & Htrue & Hiff).
  exact (conj Htrue (conj Hfalse Hiff)).
Qed.
Print Assumptions C12_values_disjunction.

(* negated operator: the CONJUNCTION *)
Theorem C12_negated_values_conjunction :
  forall (test : base_op -> cval -> cval -> option bool) (o : base_op) (ps : list cval) (c : cval),
    negated o = true ->
    (value_ok test o ps c = Some true <-> forall p, In p ps -> test o p c = Some true) /\
    (value_ok test o ps c = Some false -> exists p, In p ps /\ test o p c = Some false) /\
    (comparable_vals test o ps c -> (value_ok test o ps c = Some false <-> exists p, In p ps /\ test o p c = Some false)).
Proof. exact (fun test => values_polar test false). Qed.
Print Assumptions C12_negated_values_conjunction.

(* MONOTONE: more values under a positive operator can only turn False into True *)
Theorem C12_values_monotone :
  forall (test : base_op -> cval -> cval -> option bool) (o : base_op) (ps qs : list cval) (c : cval),
    negated o = false -> incl ps qs ->
    (value_ok test o qs c = Some false -> value_ok test o ps c = Some false) /\
    (comparable_vals test o qs c -> value_ok test o ps c = Some true -> value_ok test o qs c = Some true).
Proof. exact (fun test => values_mono test true). Qed.
Print Assumptions C12_values_monotone.

Theorem C12_values_monotone_app :
  forall (test : base_op -> cval -> cval -> option bool) (o : base_op) (ps qs : list cval) (c : cval),
    negated o = false -> value_ok test o ps c = Some true -> value_ok test o (ps ++ qs) c = Some true.
Proof. exact (fun test => values_mono_app test true). Qed.
Print Assumptions C12_values_monotone_app.

Theorem C12_values_add_one :
  forall (test : base_op -> cval -> cval -> option bool) (o : base_op) (p : cval) (ps : list cval) (c : cval),
    negated o = false -> test o p c <> None ->
    value_ok test o ps c = Some true -> value_ok test o (p :: ps) c = Some true.
Proof. exact (fun test => values_add_one test true). Qed.
Print Assumptions C12_values_add_one.

(* more values under a negated operator can only turn True into False *)
Theorem C12_negated_values_antimonotone :
  forall (test : base_op -> cval -> cval -> option bool) (o : base_op) (ps qs : list cval) (c : cval),
    negated o = true -> incl ps qs ->
    (value_ok test o qs c = Some true -> value_ok test o ps c = Some true) /\
    (comparable_vals test o qs c -> value_ok test o ps c = Some false -> value_ok test o qs c = Some false).
Proof. exact (fun test => values_mono test false). Qed.
Print Assumptions C12_negated_values_antimonotone.

Theorem C12_negated_values_antimonotone_app :
  forall (test : base_op -> cval -> cval -> option bool) (o : base_op) (ps qs : list cval) (c : cval),
    negated o = true -> value_ok test o ps c = Some false -> value_ok test o (ps ++ qs) c = Some false.
Proof. exact (fun test => values_mono_app test false). Qed.
Print Assumptions C12_negated_values_antimonotone_app.

(* the value list is a SET when the comparisons are defined: order and repetition are irrelevant *)
Theorem C12_values_set :
  forall (test : base_op -> cval -> cval -> option bool) (o : base_op) (ps qs : list cval) (c : cval),
    (forall p, In p ps <-> In p qs) -> comparable_vals test o ps c -> value_ok test o ps c = value_ok test o qs c.
Proof. exact values_same_set. Qed.
Print Assumptions C12_values_set.

Theorem C12_values_perm :
  forall (test : base_op -> cval -> cval -> option bool) (o : base_op) (ps qs : list cval) (c : cval),
    Permutation ps qs -> comparable_vals test o ps c -> value_ok test o ps c = value_ok test o qs c.
Proof. intros test o ps qs c Hp. apply values_same_set, Permutation_same_set, Hp. Qed.
Print Assumptions C12_values_perm.

(* unconditionally: the verdict that needs ALL values (False for a positive, True for a negated operator) is
   order-free, and a permutation can only trade the other verdict for None *)
Theorem C12_values_perm_weak :
  forall (test : base_op -> cval -> cval -> option bool) (o : base_op) (ps qs : list cval) (c : cval),
    Permutation ps qs ->
    (value_ok test o ps c = Some (negated o) <-> value_ok test o qs c = Some (negated o)) /\
    (value_ok test o ps c = value_ok test o qs c \/
     (value_ok test o ps c <> Some (negated o) /\ value_ok test o qs c <> Some (negated o))).
Proof.
  intros test o ps qs c Hp.
  destruct (negated o) eqn:E; [rewrite !(fun l => value_ok_sc test false o l c E) | rewrite !(fun l => value_ok_sc test true o l c E)];
    (split; [apply sc_perm_through | apply sc_perm_weak]); exact Hp.
Qed.
Print Assumptions C12_values_perm_weak.

Theorem C12_values_dup :
  forall (test : base_op -> cval -> cval -> option bool) (o : base_op) (p : cval) (ps : list cval) (c : cval),
    value_ok test o (p :: p :: ps) c = value_ok test o (p :: ps) c.
Proof. intros test o p ps c. rewrite !(value_ok_sc_o test). apply seq_idem. Qed.
Print Assumptions C12_values_dup.

(* REFUTED without comparability (C11's comparison): {"DateLessThan": {k: ["2030-01-01T00:00:00Z", "2030-01-01T00:00:00"]}} on
   k = 2020-01-01T00:00:00Z is True, with the two values swapped it is None (aware < naive raises first); hence also: adding the
   naive value in front of the aware one turns True into None.  IPv4 and IPv6 ranges listed under one key (an ordinary policy)
   are not such a witness: a value of the other IP version is outside the network (the library's repair of finding F30,
   DESIGN.md 7.3, /repo ea4be28), so the IP operators are order-blind, C12_ip_values_order_blind below. *)
Theorem C12_values_order_refuted :
  exists o ps qs c, negated o = false /\ Permutation ps qs /\
    value_ok (op_test Witness.idf) o ps c = Some true /\ value_ok (op_test Witness.idf) o qs c = None.
Proof.
  exists ODateLessThan, [dt2030 true; dt2030 false], [dt2030 false; dt2030 true], dt2020.
  split; [reflexivity|]. split; [apply perm_swap | vm_compute; split; reflexivity].
Qed.
Print Assumptions C12_values_order_refuted.

Theorem C12_values_monotone_needs_comparable :
  exists o p ps c, negated o = false /\
    value_ok (op_test Witness.idf) o ps c = Some true /\ value_ok (op_test Witness.idf) o (p :: ps) c = None.
Proof. exists ODateLessThan, (dt2030 false), [dt2030 true], dt2020. vm_compute. repeat split. Qed.
Print Assumptions C12_values_monotone_needs_comparable.

Theorem C12_values_order_refuted_date :
  exists ps qs c, Permutation ps qs /\
    value_ok (op_test Witness.idf) ODateLessThan ps c = Some true /\ value_ok (op_test Witness.idf) ODateLessThan qs c = None.
Proof.
  exists [dt2030 true; dt2030 false], [dt2030 false; dt2030 true], dt2020.
  split; [apply perm_swap | vm_compute; split; reflexivity].
Qed.
Print Assumptions C12_values_order_refuted_date.

(* ... and the Date orderings are the only operator group where it can fail: if the listed values agree on whether the context
   value can be compared at all (uniform_vals), the value list is a set unconditionally; with C11's comparison every
   operator except the four Date orderings is such, for policy values of its type (the IP operators too) *)
Theorem C12_values_set_uniform :
  forall (test : base_op -> cval -> cval -> option bool) (o : base_op) (ps qs : list cval) (c : cval),
    uniform_vals test o ps c -> (forall p, In p ps <-> In p qs) -> value_ok test o ps c = value_ok test o qs c.
Proof. exact values_same_set_uniform. Qed.
Print Assumptions C12_values_set_uniform.

Theorem C12_op_test_uniform :
  forall (fold : str -> str) (o : base_op) (p q c : cval),
    uniform_op o = true -> has_fam (family o) p = true -> has_fam (family o) q = true ->
    (op_test fold o p c = None <-> op_test fold o q c = None).
Proof. exact op_test_uniform. Qed.
Print Assumptions C12_op_test_uniform.

Theorem C12_values_set_typed :
  forall (fold : str -> str) (o : base_op) (ps qs : list cval) (c : cval),
    uniform_op o = true -> (forall p, In p ps -> has_fam (family o) p = true) -> (forall p, In p ps <-> In p qs) ->
    value_ok (op_test fold) o ps c = value_ok (op_test fold) o qs c.
Proof. intros fold o ps qs c Hu Hf Hs. apply values_same_set_uniform; [apply typed_values_uniform; assumption | exact Hs]. Qed.
Print Assumptions C12_values_set_typed.

(* ranges of both IP versions under one key are alternatives in ANY order, undetermined case included (finding F30) *)
Theorem C12_ip_values_order_blind :
  forall (fold : str -> str) (o : base_op) (ps qs : list cval) (c : cval),
    (o = OIpAddress \/ o = ONotIpAddress) -> (forall p, In p ps -> has_fam (family o) p = true) -> (forall p, In p ps <-> In p qs) ->
    value_ok (op_test fold) o ps c = value_ok (op_test fold) o qs c.
Proof. intros fold o ps qs c [->| ->]; apply C12_values_set_typed; reflexivity. Qed.
Print Assumptions C12_ip_values_order_blind.
Example C12_ex_ip_mixed_versions_any_order :
  value_ok (op_test Witness.idf) OIpAddress [Witness.net10; Witness.net6all] Witness.host10 = Some true /\
  value_ok (op_test Witness.idf) OIpAddress [Witness.net6all; Witness.net10] Witness.host10 = Some true /\
  value_ok (op_test Witness.idf) OIpAddress [Witness.net10; Witness.net6all] (CNet (Net V6 1 128)) = Some true /\
  value_ok (op_test Witness.idf) ONotIpAddress [Witness.net6all; Witness.net10] Witness.host10 = Some false.
Proof. exact ip_mixed_versions_any_order. Qed.

(* for a NEGATED operator the order can matter only with a policy value outside the operator's type (a number under a string
   operator: pydantic does not produce such a block) *)
Theorem C12_negated_values_order_refuted :
  exists o ps qs c, negated o = true /\ Permutation ps qs /\
    value_ok (op_test Witness.idf) o ps c = Some false /\ value_ok (op_test Witness.idf) o qs c = None.
Proof.
  exists OStringNotEqualsIgnoreCase, [S a; CInt 5], [CInt 5; S a], (S a).
  split; [reflexivity|]. split; [apply perm_swap | vm_compute; split; reflexivity].
Qed.
Print Assumptions C12_negated_values_order_refuted.

Theorem C12_block_values_order_refuted :
  exists b1 b2 ctx, block_rel (fun _ => groups_rel (fun _ pv pv' => Permutation (plist pv) (plist pv'))) b1 b2 /\
    Witness.ev b1 ctx = Some true /\ Witness.ev b2 ctx = None.
Proof.
  exists [(n_DateLessThan, [(k1, PMany [dt2030 true; dt2030 false])])],
         [(n_DateLessThan, [(k1, PMany [dt2030 false; dt2030 true])])],
         [(k1, XOne dt2020)].
  split; [|vm_compute; split; reflexivity].
  constructor; [|constructor]. split; [reflexivity|]. constructor; [|constructor]. split; [reflexivity | apply perm_swap].
Qed.
Print Assumptions C12_block_values_order_refuted.

(* one (operator, key) group with a value list *)
Theorem C12_key_values_monotone :
  forall (test : base_op -> cval -> cval -> option bool) (e : op_entry) (k : str) (ps ps' : list cval) (ctx : context),
    negated (e_base e) = false -> incl ps ps' -> comparable_key test (e_base e) ps' ctx k ->
    eval_key test e k (PMany ps) ctx = Some true -> eval_key test e k (PMany ps') ctx = Some true.
Proof.
  intros test e k ps ps' ctx Hn Hi Hc.
  apply key_values_looser.
  - intros x c Hx Hin. apply (values_mono test true (e_base e) ps ps' c Hn Hi). exact (Hc x c Hx Hin).
  - intros x c Hx Hin. apply value_ok_defined. exact (Hc x c Hx Hin).
Qed.
Print Assumptions C12_key_values_monotone.

Theorem C12_key_negated_values_antimonotone :
  forall (test : base_op -> cval -> cval -> option bool) (e : op_entry) (k : str) (ps ps' : list cval) (ctx : context),
    negated (e_base e) = true -> incl ps' ps -> comparable_key test (e_base e) ps ctx k ->
    eval_key test e k (PMany ps) ctx = Some true -> eval_key test e k (PMany ps') ctx = Some true.
Proof.
  intros test e k ps ps' ctx Hn Hi Hc.
  apply key_values_looser.
  - intros x c Hx Hin. apply (values_mono test false (e_base e) ps' ps c Hn Hi).
  - intros x c Hx Hin. apply value_ok_defined. intros p Hp. apply (Hc x c Hx Hin), Hi, Hp.
Qed.
Print Assumptions C12_key_negated_values_antimonotone.

Theorem C12_key_values_set :
  forall (test : base_op -> cval -> cval -> option bool) (e : op_entry) (k : str) (ps ps' : list cval) (ctx : context),
    (forall p, In p ps <-> In p ps') -> comparable_key test (e_base e) ps ctx k ->
    eval_key test e k (PMany ps) ctx = eval_key test e k (PMany ps') ctx.
Proof.
  intros test e k ps ps' ctx Hs Hc.
  unfold Block.eval_key. destruct (e_ifx e && negb (present ctx k)); [reflexivity|].
  rewrite !eval_inner_many. destruct (ctx_get ctx k) as [x|] eqn:Ex; [|reflexivity].
  apply sc_ext_in. intros c Hin. apply values_same_set; [exact Hs | exact (Hc x c Ex Hin)].
Qed.
Print Assumptions C12_key_values_set.

(* lifted to blocks: b' = b with values ADDED under positive operators and REMOVED under negated ones (value lists
   only; [looser]): b' is at least as permissive as b *)
Theorem C12_block_looser :
  forall (test : base_op -> cval -> cval -> option bool) (ord : list op_entry) (b b' : block) (ctx : context),
    block_rel (fun n => groups_rel (looser test ord ctx n)) b b' ->
    eval_block test ord b ctx = Some true -> eval_block test ord b' ctx = Some true.
Proof.
  intros test ord b b' ctx Hr.
  apply (block_congr_keys_true test ord _ b b' ctx Hr).
  intros e k pv pv' He [->|(ps & ps' & -> & -> & Hfn & H)]; [auto|].
  split.
  - intros _. apply pv_has_fn_false. exact Hfn.
  - destruct (H e He eq_refl) as [(Hn & Hi & Hc)|(Hn & Hi & Hc)];
      [apply C12_key_values_monotone | apply C12_key_negated_values_antimonotone]; assumption.
Qed.
Print Assumptions C12_block_looser.

(* lifted to blocks: value lists with the same members (any order, any repetition) give the same verdict *)
Theorem C12_block_values_set :
  forall (test : base_op -> cval -> cval -> option bool) (ord : list op_entry) (b b' : block) (ctx : context),
    block_rel (fun n => groups_rel (same_values test ord ctx n)) b b' ->
    eval_block test ord b ctx = eval_block test ord b' ctx.
Proof.
  intros test ord b b' ctx Hr.
  apply (block_congr_keys test ord _ b b' ctx Hr).
  intros e k pv pv' He [->|(ps & ps' & -> & -> & Hs & H)]; [auto|].
  split.
  - unfold pv_has_fn. simpl. apply existsb_same_set. exact Hs.
  - apply C12_key_values_set; [exact Hs | exact (H e He eq_refl)].
Qed.
Print Assumptions C12_block_values_set.

Theorem C12_app :
  forall (test : base_op -> cval -> cval -> option bool) (ord : list op_entry) (b1 b2 : block) (ctx : context),
    ops_disjoint b1 b2 ->
    and3_spec (eval_block test ord b1 ctx) (eval_block test ord b2 ctx) (eval_block test ord (b1 ++ b2) ctx).
Proof.
  intros test ord b1 b2 ctx Hd.
  assert (Hdis : forall e : op_entry, find_last (e_name e) (norm_block b1) <> None -> find_last (e_name e) (norm_block b2) = None).
  { intros e H1. apply find_last_None, Hd. destruct (find_last (e_name e) (norm_block b1)) eqn:E; [|congruence].
    apply find_last_In in E. apply (in_map fst _ _ E). }
  (* the operators that b1 ++ b2 sets are, in the order of the class, those set by b1 or by b2, and by Hdis never by both;
     over such a merge both the function-object guard and the all() loop split as the three-valued AND *)
  unfold Block.eval_block, has_fn. rewrite !active_pick, norm_block_app.
  rewrite (flat_map_ext (pick (fun e => find_last (e_name e) (norm_block b1 ++ norm_block b2)))
             (pick (either (fun e => find_last (e_name e) (norm_block b1)) (fun e => find_last (e_name e) (norm_block b2)))))
    by (intros e; unfold pick, either; rewrite find_last_app; reflexivity).
  rewrite (merge_existsb _ _ Hdis). apply and3_spec_guard, merge_and3, Hdis.
Qed.
Print Assumptions C12_app.

Theorem C12_app_true :
  forall (test : base_op -> cval -> cval -> option bool) (ord : list op_entry) (b1 b2 : block) (ctx : context),
    ops_disjoint b1 b2 ->
    (eval_block test ord (b1 ++ b2) ctx = Some true <->
     eval_block test ord b1 ctx = Some true /\ eval_block test ord b2 ctx = Some true).
Proof. intros test ord b1 b2 ctx Hd. apply and3_spec_true. apply C12_app. exact Hd. Qed.
Print Assumptions C12_app_true.

Theorem C12_app_false :
  forall (test : base_op -> cval -> cval -> option bool) (ord : list op_entry) (b1 b2 : block) (ctx : context),
    ops_disjoint b1 b2 -> eval_block test ord (b1 ++ b2) ctx = Some false ->
    eval_block test ord b1 ctx = Some false \/ eval_block test ord b2 ctx = Some false.
Proof. intros test ord b1 b2 ctx Hd. apply and3_spec_false. apply C12_app. exact Hd. Qed.
Print Assumptions C12_app_false.

Theorem C12_app_none :
  forall (test : base_op -> cval -> cval -> option bool) (ord : list op_entry) (b1 b2 : block) (ctx : context),
    ops_disjoint b1 b2 -> eval_block test ord (b1 ++ b2) ctx = None ->
    eval_block test ord b1 ctx = None \/ eval_block test ord b2 ctx = None.
Proof. intros test ord b1 b2 ctx Hd. apply and3_spec_none. apply C12_app. exact Hd. Qed.
Print Assumptions C12_app_none.

(* False and None really combine to either, depending on the declaration order of the operators in the class *)
Theorem C12_app_mixed_both_occur :
  exists b1 b2 b1' b2' ctx, ops_disjoint b1 b2 /\ ops_disjoint b1' b2' /\
    Witness.ev b1 ctx = Some false /\ Witness.ev b2 ctx = None /\ Witness.ev (b1 ++ b2) ctx = Some false /\
    Witness.ev b1' ctx = Some false /\ Witness.ev b2' ctx = None /\ Witness.ev (b1' ++ b2') ctx = None.
Proof.
  exists [(n_StringEquals, [(k1, POne (S a))])],
         [(n_StringLike, [(k2, POne (S b))])],
         [(n_StringLike, [(k1, POne (S a))])],
         [(n_StringEquals, [(k2, POne (S b))])], [(k1, XOne (S x))].
  split; [|split].
  - intros n [<-|[]] [E|[]]. vm_compute in E. discriminate.
  - intros n [<-|[]] [E|[]]. vm_compute in E. discriminate.
  - vm_compute. repeat split.
Qed.
Print Assumptions C12_app_mixed_both_occur.

(* no side condition: the later part is never replaced *)
Theorem C12_app_later :
  forall (test : base_op -> cval -> cval -> option bool) (ord : list op_entry) (b1 b2 : block) (ctx : context),
    eval_block test ord (b1 ++ b2) ctx = Some true -> eval_block test ord b2 ctx = Some true.
Proof.
  intros test ord b1 b2 ctx.
  rewrite !block_true_iff. intros [Hfn H].
  assert (Hs : forall e g, is_set ord b2 e g -> is_set ord (b1 ++ b2) e g).
  { intros e g [He Hg]. split; [exact He|]. rewrite norm_block_app, find_last_app, Hg. reflexivity. }
  split; intros e g k pv Hset; [apply (Hfn e g k pv), Hs, Hset | apply (H e g k pv), Hs, Hset].
Qed.
Print Assumptions C12_app_later.

(* adding an operator can only make a block less permissive *)
Theorem C12_adding_operator_restricts :
  forall (test : base_op -> cval -> cval -> option bool) (ord : list op_entry) (n : str) (g : groups) (b : block)
         (ctx : context),
    eval_block test ord ((n, g) :: b) ctx = Some true -> eval_block test ord b ctx = Some true.
Proof. intros test ord n g b ctx. apply (C12_app_later test ord [(n, g)] b ctx). Qed.
Print Assumptions C12_adding_operator_restricts.

(* REFUTED for the earlier part (and for an operator added at the END) when a name is spelled again:
   b1 = {"StringEquals": {"k1": "b"}}, b2 = {"String:Equals": {"k1": "a"}}, {"k1": "a"}: b1 ++ b2 True, b1 False *)
Theorem C12_app_needs_disjoint :
  exists b1 b2 ctx, Witness.ev (b1 ++ b2) ctx = Some true /\ Witness.ev b1 ctx = Some false.
Proof.
  exists [(n_StringEquals, [(k1, POne (S b))])],
         [(n_String_Equals, [(k1, POne (S a))])], [(k1, XOne (S a))].
  vm_compute. split; reflexivity.
Qed.
Print Assumptions C12_app_needs_disjoint.

Theorem C12_forall_empty :
  forall (test : base_op -> cval -> cval -> option bool) (e : op_entry) (k : str) (pv : pvals) (ctx : context),
    e_qual e = QAll -> ctx_get ctx k = Some (XMany []) -> eval_key test e k pv ctx = Some true.
Proof. exact (fun test e k pv ctx => eval_key_list test false e k pv ctx []). Qed.
Print Assumptions C12_forall_empty.

Theorem C12_forany_empty :
  forall (test : base_op -> cval -> cval -> option bool) (e : op_entry) (k : str) (pv : pvals) (ctx : context),
    e_qual e = QAny -> ctx_get ctx k = Some (XMany []) -> eval_key test e k pv ctx = Some false.
Proof. exact (fun test e k pv ctx => eval_key_list test true e k pv ctx []). Qed.
Print Assumptions C12_forany_empty.

(* an ABSENT key: undetermined for both qualifiers (KeyError), True with IfExists *)
Theorem C12_qualifier_absent :
  forall (test : base_op -> cval -> cval -> option bool) (e : op_entry) (k : str) (pv : pvals) (ctx : context),
    e_qual e <> QNone -> ctx_get ctx k = None -> eval_key test e k pv ctx = if e_ifx e then Some true else None.
Proof.
  intros test e k pv ctx Hq Hx.
  unfold Block.eval_key, present, Block.eval_inner. rewrite Hx.
  destruct (e_ifx e); simpl; [reflexivity|]. destruct (e_qual e); [congruence | reflexivity | destruct pv; reflexivity].
Qed.
Print Assumptions C12_qualifier_absent.

Theorem C12_qualifier_app :
  forall (test : base_op -> cval -> cval -> option bool) (e : op_entry) (k : str) (pv : pvals)
         (ctx1 ctx2 ctx : context) (cs ds : list cval),
    e_qual e <> QNone ->
    ctx_get ctx1 k = Some (XMany cs) -> ctx_get ctx2 k = Some (XMany ds) -> ctx_get ctx k = Some (XMany (cs ++ ds)) ->
    eval_key test e k pv ctx =
    (match e_qual e with QAll => and_sc | _ => or_sc end) (eval_key test e k pv ctx1) (eval_key test e k pv ctx2).
Proof.
  intros test e k pv ctx1 ctx2 ctx cs ds Hq H1 H2 H.
  destruct (e_qual e) eqn:E; [congruence | |].
  - rewrite (eval_key_list test false e k pv ctx _ E H), (eval_key_list test false e k pv ctx1 _ E H1),
      (eval_key_list test false e k pv ctx2 _ E H2), sc_app. apply seq_and.
  - rewrite (eval_key_list test true e k pv ctx _ E H), (eval_key_list test true e k pv ctx1 _ E H1),
      (eval_key_list test true e k pv ctx2 _ E H2), sc_app. apply seq_or.
Qed.
Print Assumptions C12_qualifier_app.

Theorem C12_forany_monotone :
  forall (test : base_op -> cval -> cval -> option bool) (e : op_entry) (k : str) (pv : pvals) (ctx ctx' : context)
         (cs cs' : list cval),
    e_qual e = QAny -> ctx_get ctx k = Some (XMany cs) -> ctx_get ctx' k = Some (XMany cs') -> incl cs cs' ->
    (eval_key test e k pv ctx' = Some false -> eval_key test e k pv ctx = Some false) /\
    ((forall c, In c cs' -> value_ok test (e_base e) (plist pv) c <> None) ->
     eval_key test e k pv ctx = Some true -> eval_key test e k pv ctx' = Some true).
Proof. exact (fun test => qualifier_mono test true). Qed.
Print Assumptions C12_forany_monotone.

Theorem C12_forany_monotone_app :
  forall (test : base_op -> cval -> cval -> option bool) (e : op_entry) (k : str) (pv : pvals) (ctx ctx' : context)
         (cs ds : list cval),
    e_qual e = QAny -> ctx_get ctx k = Some (XMany cs) -> ctx_get ctx' k = Some (XMany (cs ++ ds)) ->
    eval_key test e k pv ctx = Some true -> eval_key test e k pv ctx' = Some true.
Proof. exact (fun test => qualifier_mono_app test true). Qed.
Print Assumptions C12_forany_monotone_app.

Theorem C12_forall_antimonotone :
  forall (test : base_op -> cval -> cval -> option bool) (e : op_entry) (k : str) (pv : pvals) (ctx ctx' : context)
         (cs cs' : list cval),
    e_qual e = QAll -> ctx_get ctx k = Some (XMany cs) -> ctx_get ctx' k = Some (XMany cs') -> incl cs cs' ->
    (eval_key test e k pv ctx' = Some true -> eval_key test e k pv ctx = Some true) /\
    ((forall c, In c cs' -> value_ok test (e_base e) (plist pv) c <> None) ->
     eval_key test e k pv ctx = Some false -> eval_key test e k pv ctx' = Some false).
Proof. exact (fun test => qualifier_mono test false). Qed.
Print Assumptions C12_forall_antimonotone.

Theorem C12_forall_antimonotone_app :
  forall (test : base_op -> cval -> cval -> option bool) (e : op_entry) (k : str) (pv : pvals) (ctx ctx' : context)
         (cs ds : list cval),
    e_qual e = QAll -> ctx_get ctx k = Some (XMany cs) -> ctx_get ctx' k = Some (XMany (cs ++ ds)) ->
    eval_key test e k pv ctx = Some false -> eval_key test e k pv ctx' = Some false.
Proof. exact (fun test => qualifier_mono_app test false). Qed.
Print Assumptions C12_forall_antimonotone_app.

(* ...IfExists on a present key is the plain operator (absent key: C12_ifexists_absent) *)
Theorem C12_ifexists_present :
  forall (test : base_op -> cval -> cval -> option bool) (e e0 : op_entry) (k : str) (pv : pvals) (ctx : context),
    e_qual e0 = e_qual e -> e_base e0 = e_base e -> e_ifx e0 = false -> present ctx k = true ->
    eval_key test e k pv ctx = eval_key test e0 k pv ctx.
Proof. intros test e e0 k pv ctx Hq Hb Hi Hp. unfold Block.eval_key. rewrite Hq, Hb, Hi, Hp, andb_false_r. reflexivity. Qed.
Print Assumptions C12_ifexists_present.

Theorem C12_ifexists_split :
  forall (test : base_op -> cval -> cval -> option bool) (e e0 : op_entry) (k : str) (pv : pvals) (ctx : context),
    e_qual e0 = e_qual e -> e_base e0 = e_base e -> e_ifx e0 = false -> e_ifx e = true ->
    eval_key test e k pv ctx = if present ctx k then eval_key test e0 k pv ctx else Some true.
Proof. intros test e e0 k pv ctx Hq Hb Hi Hi'. unfold Block.eval_key. rewrite Hq, Hb, Hi, Hi'. destruct (present ctx k); reflexivity. Qed.
Print Assumptions C12_ifexists_split.

Theorem C12_context_irrelevant :
  forall (test : base_op -> cval -> cval -> option bool) (ord : list op_entry) (b : block) (ctx ctx' : context),
    (forall e g k pv, is_set ord b e g -> In (k, pv) g -> ctx_get ctx k = ctx_get ctx' k) ->
    eval_block test ord b ctx = eval_block test ord b ctx'.
Proof.
  intros test ord b ctx ctx' H.
  unfold Block.eval_block. destruct (has_fn (active ord b)); [reflexivity|].
  rewrite !all_sc_sc. apply sc_ext_in. intros [e g] Hin. unfold Block.eval_entry. simpl.
  rewrite !all_sc_sc. apply sc_ext_in. intros [k pv] Hk. simpl. apply C12_key_independent.
  apply (H e g k pv); [apply in_active; exact Hin | exact Hk].
Qed.
Print Assumptions C12_context_irrelevant.

Theorem C12_context_irrelevant_keys :
  forall (test : base_op -> cval -> cval -> option bool) (ord : list op_entry) (b : block) (ctx ctx' : context),
    (forall k, In k (block_keys b) -> ctx_get ctx k = ctx_get ctx' k) ->
    eval_block test ord b ctx = eval_block test ord b ctx'.
Proof.
  intros test ord b ctx ctx' H.
  apply C12_context_irrelevant. intros e g k pv Hs Hk. apply H.
  destruct (is_set_in_block ord b e g Hs) as (n & Hn). unfold block_keys. apply in_flat_map.
  exists (n, g). split; [exact Hn|]. simpl. apply (in_map fst _ _ Hk).
Qed.
Print Assumptions C12_context_irrelevant_keys.

Theorem C12_context_update :
  forall (test : base_op -> cval -> cval -> option bool) (ord : list op_entry) (b : block) (ctx : context)
         (k2 : str) (v : ctxval),
    ~ In k2 (block_keys b) -> eval_block test ord b ((k2, v) :: ctx) = eval_block test ord b ctx.
Proof. intros test ord b ctx k2 v Hni. apply C12_context_irrelevant_keys. intros k Hk. apply ctx_get_other. intros ->. exact (Hni Hk). Qed.
Print Assumptions C12_context_update.

(* tight: a key that IS mentioned matters *)
Theorem C12_mentioned_key_matters :
  exists blk ctx ctx' k, In k (block_keys blk) /\ (forall k', k' <> k -> ctx_get ctx k' = ctx_get ctx' k') /\
    Witness.ev blk ctx = Some true /\ Witness.ev blk ctx' = Some false.
Proof.
  exists [(n_StringEquals, [(k1, POne (S a)); (k2, POne (S b))])],
         [(k1, XOne (S a)); (k2, XOne (S b))],
         [(k1, XOne (S a)); (k2, XOne (S x))], k2.
  split; [simpl; auto|]. split; [|vm_compute; split; reflexivity].
  intros k' Hne. unfold ctx_get. simpl. destruct (str_eqb k' k1); [reflexivity|].
  destruct (str_eqb k' k2) eqn:E; [apply str_eqb_spec in E; congruence | reflexivity].
Qed.
Print Assumptions C12_mentioned_key_matters.

Theorem C12_empty_block :
  forall (test : base_op -> cval -> cval -> option bool) (ord : list op_entry) (ctx : context),
    eval_block test ord [] ctx = Some true.
Proof. intros test ord ctx. apply block_no_keys. intros n g []. Qed.
Print Assumptions C12_empty_block.

Theorem C12_no_keys :
  forall (test : base_op -> cval -> cval -> option bool) (ord : list op_entry) (b : block) (ctx : context),
    (forall n g, In (n, g) b -> g = []) -> eval_block test ord b ctx = Some true.
Proof. exact block_no_keys. Qed.
Print Assumptions C12_no_keys.

(* Null, as implemented and pinned by the library's tests: {"Null": {k: pb}} is True iff (k present) = pb *)
Theorem C12_null_presence :
  forall (fold : str -> str) (e : op_entry) (k : str) (pb : bool) (ctx : context),
    null_plain e -> ctx_real ctx k ->
    eval_key (op_test fold) e k (POne (CBool pb)) ctx = Some (Bool.eqb (present ctx k) pb).
Proof. exact null_key_presence. Qed.
Print Assumptions C12_null_presence.

Theorem C12_null_true_iff_present :
  forall (fold : str -> str) (e : op_entry) (k : str) (ctx : context),
    null_plain e -> ctx_real ctx k ->
    (eval_key (op_test fold) e k (POne (CBool true)) ctx = Some true <-> present ctx k = true).
Proof. exact (fun fold e k => null_iff fold e k true). Qed.
Print Assumptions C12_null_true_iff_present.

Theorem C12_null_false_iff_absent :
  forall (fold : str -> str) (e : op_entry) (k : str) (ctx : context),
    null_plain e -> ctx_real ctx k ->
    (eval_key (op_test fold) e k (POne (CBool false)) ctx = Some true <-> present ctx k = false).
Proof. exact (fun fold e k => null_iff fold e k false). Qed.
Print Assumptions C12_null_false_iff_absent.

(* "{"Null": {k: true}} is True iff k is ABSENT" (the AWS reading) is FALSE of the evaluation *)
Theorem C12_null_true_iff_absent_refuted :
  exists ctx ctx', present ctx Witness.k1 = false /\ present ctx' Witness.k1 = true /\
    Witness.ev [(Witness.n_Null, [(Witness.k1, POne (CBool true))])] ctx = Some false /\
    Witness.ev [(Witness.n_Null, [(Witness.k1, POne (CBool true))])] ctx' = Some true.
Proof. exists [], [(k1, XOne (S a))]. vm_compute. repeat split. Qed.
Print Assumptions C12_null_true_iff_absent_refuted.

(* interplay with IfExists: next to {"Null": {k: false}} (k absent) every ...IfExists test of k is vacuous;
   next to {"Null": {k: true}} (k present) every ...IfExists test of k is the plain operator *)
Theorem C12_null_false_ifexists :
  forall (fold : str -> str) (en e : op_entry) (k : str) (pv : pvals) (ctx : context),
    null_plain en -> ctx_real ctx k -> e_ifx e = true ->
    eval_key (op_test fold) en k (POne (CBool false)) ctx = Some true -> eval_key (op_test fold) e k pv ctx = Some true.
Proof. intros fold en e k pv ctx Hn Hr Hi H. apply ifexists_absent; [exact Hi|]. apply (null_iff fold en k false ctx Hn Hr). exact H. Qed.
Print Assumptions C12_null_false_ifexists.

Theorem C12_null_true_ifexists :
  forall (fold : str -> str) (en e e0 : op_entry) (k : str) (pv : pvals) (ctx : context),
    null_plain en -> ctx_real ctx k ->
    e_qual e0 = e_qual e -> e_base e0 = e_base e -> e_ifx e0 = false ->
    eval_key (op_test fold) en k (POne (CBool true)) ctx = Some true ->
    eval_key (op_test fold) e k pv ctx = eval_key (op_test fold) e0 k pv ctx.
Proof. intros fold en e e0 k pv ctx Hn Hr Hq Hb Hi H. apply C12_ifexists_present; try assumption. apply (null_iff fold en k true ctx Hn Hr). exact H. Qed.
Print Assumptions C12_null_true_ifexists.

(* why there is no NullIfExists field: it could never fail *)
Theorem C12_null_ifexists_tautology :
  forall (fold : str -> str) (e : op_entry) (k : str) (ctx : context),
    e_base e = ONull -> e_qual e = QNone -> e_ifx e = true -> ctx_real ctx k ->
    eval_key (op_test fold) e k (POne (CBool true)) ctx = Some true.
Proof.
  intros fold e k ctx Hb Hq Hi Hr.
  unfold Block.eval_key, Block.eval_inner. rewrite Hb, Hq, Hi. simpl.
  destruct (present ctx k) eqn:Ep; simpl; [|reflexivity]. rewrite (is_present_leaf ctx k Hr), Ep. reflexivity.
Qed.
Print Assumptions C12_null_ifexists_tautology.

Local Open Scope N_scope.
Definition idf (s : str) : str := s.
Definition ev := eval_block (op_test idf) OPERATORS.
Definition S (c : N) : cval := CStr [c].
Definition n_StringEquals : str := base_name OStringEquals.
Definition n_StringNotEquals : str := base_name OStringNotEquals.
Definition k1 : str := [107; 49].
Definition k2 : str := [107; 50].
Definition a := 97. Definition b := 98. Definition c := 99. Definition x := 120.

(* the witnesses of pycfmodel's findings F09 and F10 (modelled in Findings/F09F10.v), as the specification decides them:
   {"StringEquals": {"k1": ["a","c"], "k2": ["b"]}} on {k1: "x", k2: "b"}: k1 fails -> False (the defective code said True) *)
Example C12_ex_each_key_its_own_value :
  ev [(n_StringEquals, [(k1, PMany [S a; S c]); (k2, PMany [S b])])] [(k1, XOne (S x)); (k2, XOne (S b))] = Some false.
Proof. vm_compute. reflexivity. Qed.
(* {"StringNotEquals": {"k1": ["a","b"]}} on {k1: "a"}: "a" is excluded -> False (the defective code said True) *)
Example C12_ex_negated_list_excludes_all :
  ev [(n_StringNotEquals, [(k1, PMany [S a; S b])])] [(k1, XOne (S a))] = Some false
  /\ ev [(n_StringNotEquals, [(k1, PMany [S a; S b])])] [(k1, XOne (S c))] = Some true.
Proof. split; vm_compute; reflexivity. Qed.
Example C12_ex_qualifiers :
  let fa := norm_name (FORALL ++ [58] ++ n_StringEquals) in
  let fy := FORANY ++ n_StringEquals in
  ev [(fa, [(k1, PMany [S a; S b])])] [(k1, XMany [S a; S b; S a])] = Some true
  /\ ev [(fa, [(k1, PMany [S a; S b])])] [(k1, XMany [S a; S c])] = Some false
  /\ ev [(fa, [(k1, PMany [S a])])] [(k1, XMany [])] = Some true               (* ForAllValues over no value *)
  /\ ev [(fy, [(k1, PMany [S a])])] [(k1, XMany [S c; S a])] = Some true
  /\ ev [(fy, [(k1, PMany [S a])])] [(k1, XMany [])] = Some false
  /\ ev [(fy, [(k1, PMany [S a])])] [] = None                                    (* required key missing *)
  /\ ev [(fy ++ IFEXISTS, [(k1, PMany [S a])])] [] = Some true                   (* IfExists: absent key *)
  /\ ev [(fy ++ IFEXISTS, [(k1, PMany [S a])])] [(k1, XOne CNone)] = Some true
  /\ ev [(n_StringEquals, [(k1, POne (S a))])] [(k1, XMany [S a])] = Some false  (* one value: compared with the list itself *)
  /\ ev [(n_StringEquals, [(k1, POne CFn)]); (n_StringEquals ++ IFEXISTS, [(k2, POne (S a))])] [] = None.
Proof.
  (* evaluate BEFORE splitting, here and below: [split] on an equation applies eq_refl, which leaves the walk over
     the 159-row table to the unifier *)
  vm_compute. repeat split.
Qed.
(* a two-operator, two-key block that is True: by C12_true_iff the predicate block_sat is satisfiable *)
Example C12_ex_sat :
  ev [(n_StringEquals, [(k1, POne (S a)); (k2, PMany [S b; S c])]); (n_StringNotEquals, [(k1, POne (S b))])]
     [(k1, XOne (S a)); (k2, XOne (S c))] = Some true.
Proof. vm_compute. reflexivity. Qed.

(* the hypotheses of the algebra laws above are satisfiable: a witness for each *)
Definition n_Null : str := base_name ONull.
Definition ent (n : str) (q : qual) (i : bool) (o : base_op) : op_entry :=
  {| e_name := n; e_qual := q; e_ifx := i; e_base := o; e_fam := family o |}.
Definition e_SE := ent n_StringEquals QNone false OStringEquals.
Definition e_SNE := ent n_StringNotEquals QNone false OStringNotEquals.
Definition e_SEifx := ent (n_StringEquals ++ IFEXISTS) QNone true OStringEquals.
Definition e_faSE := ent (FORALL ++ n_StringEquals) QAll false OStringEquals.
Definition e_fySE := ent (FORANY ++ n_StringEquals) QAny false OStringEquals.
Definition e_Null := ent n_Null QNone false ONull.
Definition B_two : block := [(n_StringEquals, [(k1, POne (S a))]); (n_StringNotEquals, [(k1, POne (S b))])].
Definition B_keys : block := [(n_StringEquals, [(k1, POne (S a)); (k2, PMany [S b; S c])])].
Definition B_keys' : block := [(n_StringEquals, [(k2, PMany [S b; S c]); (k1, POne (S a))])].

Lemma entry_of_name n q o i e : In e OPERATORS -> e_name e = n -> parse_name n = Some (q, o, i) ->
  e_qual e = q /\ e_base e = o /\ e_ifx e = i.
Proof.
  intros He En Hp. destruct (Operators_rows_ok e He) as (_ & Hq & _). rewrite En, Hp in Hq. inversion Hq. auto.
Qed.

(* C12_operator_order_blind: a two-operator block without repeated names and its reversal *)
Example C12_ex_operator_order :
  NoDup (map fst (norm_block B_two)) /\ Permutation B_two (rev B_two)
  /\ ev B_two [(k1, XOne (S a))] = Some true /\ ev (rev B_two) [(k1, XOne (S a))] = Some true
  /\ ev B_two [(k1, XOne (S b))] = Some false /\ ev (rev B_two) [(k1, XOne (S b))] = Some false
  /\ ev B_two [] = None /\ ev (rev B_two) [] = None.
Proof.
  split; [|split; [apply Permutation_rev|]].
  - vm_compute. constructor; [intros [H|[]]; discriminate|]. constructor; [intros []|constructor].
  - vm_compute. repeat split.
Qed.

(* C12_key_order_blind / _defined / C12_entry_key_order(_defined): two keys swapped, both verdicts defined *)
Example C12_ex_key_order :
  let ctx := [(k1, XOne (S a)); (k2, XOne (S x))] in
  keys_permuted B_keys B_keys'
  /\ (forall e g k pv, is_set OPERATORS B_keys e g -> In (k, pv) g -> eval_key (op_test idf) e k pv ctx <> None)
  /\ ev B_keys ctx = Some false /\ ev B_keys' ctx = Some false
  /\ ev B_keys [(k1, XOne (S a)); (k2, XOne (S c))] = Some true /\ ev B_keys' [(k1, XOne (S a)); (k2, XOne (S c))] = Some true.
Proof.
  split; [|split].
  - constructor; [|constructor]. split; [reflexivity | apply perm_swap].
  - intros e g k pv Hs Hin. apply in_active in Hs. vm_compute in Hs. destruct Hs as [E|[]]. inversion E; subst. clear E.
    destruct Hin as [E|[E|[]]]; inversion E; subst; vm_compute; discriminate.
  - vm_compute. repeat split.
Qed.

(* C12_values_disjunction / _monotone / _set / _perm (positive) and C12_negated_values_conjunction / _antimonotone *)
Example C12_ex_values :
  negated OStringEquals = false /\ negated OStringNotEquals = true
  /\ comparable_vals (op_test idf) OStringEquals [S a; S b] (S b)
  /\ comparable_vals (op_test idf) OStringNotEquals [S a; S c] (S b)
  /\ incl [S b] [S a; S b] /\ incl [S a] [S a; S c]
  /\ (forall p, In p [S a; S b] <-> In p [S b; S a; S a]) /\ Permutation [S a; S b] [S b; S a]
  /\ value_ok (op_test idf) OStringEquals [S b] (S b) = Some true
  /\ value_ok (op_test idf) OStringEquals [S a; S b] (S b) = Some true
  /\ value_ok (op_test idf) OStringEquals [S b; S a; S a] (S b) = Some true
  /\ value_ok (op_test idf) OStringEquals [S a; S b] (S c) = Some false
  /\ value_ok (op_test idf) OStringNotEquals [S a; S c] (S b) = Some true
  /\ value_ok (op_test idf) OStringNotEquals [S a] (S b) = Some true
  /\ value_ok (op_test idf) OStringNotEquals [S a] (S a) = Some false
  /\ value_ok (op_test idf) OStringNotEquals [S a; S c] (S a) = Some false.
Proof.
  split; [reflexivity|]. split; [reflexivity|].
  split; [intros p [<-|[<-|[]]]; vm_compute; discriminate|].
  split; [intros p [<-|[<-|[]]]; vm_compute; discriminate|].
  split; [intros p [<-|[]]; simpl; auto|]. split; [intros p [<-|[]]; simpl; auto|].
  split; [intros p; simpl; tauto|]. split; [apply perm_swap|].
  vm_compute. repeat split.
Qed.

(* C12_key_values_monotone / _negated_values_antimonotone / _set: a key with a LIST of request values *)
Example C12_ex_key_values :
  let ctx := [(k1, XMany [S x; S b])] in
  comparable_key (op_test idf) (e_base e_fySE) [S a; S b] ctx k1
  /\ comparable_key (op_test idf) (e_base e_SNE) [S a; S c] ctx k1
  /\ eval_key (op_test idf) e_fySE k1 (PMany [S b]) ctx = Some true
  /\ eval_key (op_test idf) e_fySE k1 (PMany [S a; S b]) ctx = Some true
  /\ eval_key (op_test idf) e_SNE k1 (PMany [S a; S c]) ctx = Some true
  /\ eval_key (op_test idf) e_SNE k1 (PMany [S a]) ctx = Some true.
Proof.
  split; [|split].
  - eapply comparable_key_of; [reflexivity | repeat constructor; vm_compute; discriminate].
  - eapply comparable_key_of; [reflexivity | repeat constructor; vm_compute; discriminate].
  - vm_compute. repeat split.
Qed.

(* C12_block_looser: a value added under StringEquals, a value removed under StringNotEquals *)
Example C12_ex_block_looser :
  let ctx := [(k1, XOne (S a))] in
  let B := [(n_StringEquals, [(k1, PMany [S a])]); (n_StringNotEquals, [(k1, PMany [S b; S c])])] in
  let B' := [(n_StringEquals, [(k1, PMany [S b; S a])]); (n_StringNotEquals, [(k1, PMany [S c])])] in
  block_rel (fun n => groups_rel (looser (op_test idf) OPERATORS ctx n)) B B'
  /\ ev B ctx = Some true /\ ev B' ctx = Some true.
Proof.
  split; [|split; vm_compute; reflexivity].
  constructor; [|constructor; [|constructor]].
  - split; [reflexivity|]. constructor; [|constructor]. split; [reflexivity|]. right.
    exists [S a], [S b; S a]. split; [reflexivity|]. split; [reflexivity|].
    split; [intros [H|[H|[]]]; discriminate|]. intros e He En. left.
    destruct (entry_of_name _ QNone OStringEquals false e He En) as (_ & Hb & _); [vm_compute; reflexivity|].
    rewrite Hb. split; [reflexivity|]. split; [intros p [<-|[]]; simpl; auto|].
    eapply comparable_key_of; [reflexivity | repeat constructor; vm_compute; discriminate].
  - split; [reflexivity|]. constructor; [|constructor]. split; [reflexivity|]. right.
    exists [S b; S c], [S c]. split; [reflexivity|]. split; [reflexivity|].
    split; [intros [H|[]]; discriminate|]. intros e He En. right.
    destruct (entry_of_name _ QNone OStringNotEquals false e He En) as (_ & Hb & _); [vm_compute; reflexivity|].
    rewrite Hb. split; [reflexivity|]. split; [intros p [<-|[]]; simpl; auto|].
    eapply comparable_key_of; [reflexivity | repeat constructor; vm_compute; discriminate].
Qed.

(* C12_block_values_set: the same values in another order, one of them twice *)
Example C12_ex_block_values_set :
  let ctx := [(k1, XOne (S b))] in
  let B := [(n_StringEquals, [(k1, PMany [S a; S b])])] in
  let B' := [(n_StringEquals, [(k1, PMany [S b; S a; S b])])] in
  block_rel (fun n => groups_rel (same_values (op_test idf) OPERATORS ctx n)) B B'
  /\ ev B ctx = Some true /\ ev B' ctx = Some true.
Proof.
  split; [|split; vm_compute; reflexivity].
  constructor; [|constructor]. split; [reflexivity|]. constructor; [|constructor]. split; [reflexivity|]. right.
  exists [S a; S b], [S b; S a; S b]. split; [reflexivity|]. split; [reflexivity|].
  split; [intros p; simpl; tauto|]. intros e He En.
  destruct (entry_of_name _ QNone OStringEquals false e He En) as (_ & Hb & _); [vm_compute; reflexivity|].
  rewrite Hb. eapply comparable_key_of; [reflexivity | repeat constructor; vm_compute; discriminate].
Qed.

(* C12_app / _true / _false / _none / _later / C12_adding_operator_restricts: two parts with different operators *)
Example C12_ex_app :
  let B1 := [(n_StringEquals, [(k1, POne (S a))])] in
  let B2 := [(n_StringNotEquals, [(k1, POne (S b))])] in
  ops_disjoint B1 B2
  /\ ev (B1 ++ B2) [(k1, XOne (S a))] = Some true /\ ev B1 [(k1, XOne (S a))] = Some true /\ ev B2 [(k1, XOne (S a))] = Some true
  /\ ev (B1 ++ B2) [(k1, XOne (S b))] = Some false /\ ev B1 [(k1, XOne (S b))] = Some false /\ ev B2 [(k1, XOne (S b))] = Some false
  /\ ev (B1 ++ B2) [(k1, XOne (S c))] = Some false /\ ev B1 [(k1, XOne (S c))] = Some false /\ ev B2 [(k1, XOne (S c))] = Some true
  /\ ev (B1 ++ B2) [] = None /\ ev B1 [] = None /\ ev B2 [] = None.
Proof.
  split; [intros n [<-|[]] [E|[]]; vm_compute in E; discriminate|].
  vm_compute. repeat split.
Qed.

(* C12_forall_empty / C12_forany_empty / C12_qualifier_absent / C12_qualifier_app / C12_forany_monotone(_app) /
   C12_forall_antimonotone(_app) *)
Example C12_ex_qualifier_laws :
  let T := op_test idf in
  e_qual e_faSE = QAll /\ e_qual e_fySE = QAny /\ e_qual e_faSE <> QNone
  /\ ctx_get [(k1, XMany [])] k1 = Some (XMany []) /\ ctx_get [] k1 = None
  /\ incl [S a] [S c; S a]
  /\ (forall cv, In cv [S c; S a] -> value_ok T (e_base e_fySE) (plist (PMany [S a])) cv <> None)
  /\ eval_key T e_faSE k1 (PMany [S a]) [(k1, XMany [])] = Some true
  /\ eval_key T e_fySE k1 (PMany [S a]) [(k1, XMany [])] = Some false
  /\ eval_key T e_faSE k1 (PMany [S a]) [] = None /\ eval_key T e_fySE k1 (PMany [S a]) [] = None
  /\ eval_key T e_fySE k1 (PMany [S a]) [(k1, XMany [S a])] = Some true
  /\ eval_key T e_fySE k1 (PMany [S a]) [(k1, XMany [S c; S a])] = Some true
  /\ eval_key T e_fySE k1 (PMany [S a]) [(k1, XMany ([S a] ++ [S c]))] = Some true
  /\ eval_key T e_faSE k1 (PMany [S a]) [(k1, XMany [S c; S a])] = Some false
  /\ eval_key T e_faSE k1 (PMany [S a]) [(k1, XMany [S a])] = Some true
  /\ eval_key T e_faSE k1 (PMany [S a; S c]) [(k1, XMany [S c; S a])] = Some true
  /\ eval_key T e_faSE k1 (PMany [S a]) [(k1, XMany ([S c] ++ [S a]))] = Some false.
Proof.
  split; [reflexivity|]. split; [reflexivity|]. split; [discriminate|]. split; [reflexivity|]. split; [reflexivity|].
  split; [intros p [<-|[]]; simpl; auto|].
  split; [intros cv [<-|[<-|[]]]; vm_compute; discriminate|].
  vm_compute. repeat split.
Qed.

(* C12_ifexists_present / C12_ifexists_split: StringEqualsIfExists against StringEquals *)
Example C12_ex_ifexists :
  let T := op_test idf in
  e_qual e_SE = e_qual e_SEifx /\ e_base e_SE = e_base e_SEifx /\ e_ifx e_SE = false /\ e_ifx e_SEifx = true
  /\ present [(k1, XOne (S x))] k1 = true /\ present [(k1, XOne CNone)] k1 = false /\ present [] k1 = false
  /\ eval_key T e_SEifx k1 (POne (S a)) [(k1, XOne (S x))] = Some false
  /\ eval_key T e_SE k1 (POne (S a)) [(k1, XOne (S x))] = Some false
  /\ eval_key T e_SEifx k1 (POne (S a)) [(k1, XOne (S a))] = Some true
  /\ eval_key T e_SEifx k1 (POne (S a)) [] = Some true /\ eval_key T e_SE k1 (POne (S a)) [] = None.
Proof. vm_compute. repeat split. Qed.

(* C12_context_irrelevant(_keys) / C12_context_update: the contexts differ on a key the block does not mention *)
Example C12_ex_context :
  let B := [(n_StringEquals, [(k1, POne (S a))])] in
  let ctx := [(k1, XOne (S a)); (k2, XOne (S b))] in
  let ctx' := [(k1, XOne (S a)); (k2, XOne (S x))] in
  (forall k, In k (block_keys B) -> ctx_get ctx k = ctx_get ctx' k)
  /\ (forall e g k pv, is_set OPERATORS B e g -> In (k, pv) g -> ctx_get ctx k = ctx_get ctx' k)
  /\ ~ In k2 (block_keys B)
  /\ ev B ctx = Some true /\ ev B ctx' = Some true /\ ev B ((k2, XOne (S x)) :: ctx) = Some true.
Proof.
  split; [intros k [<-|[]]; reflexivity|]. split.
  - intros e g k pv Hs Hin. apply in_active in Hs. vm_compute in Hs. destruct Hs as [E|[]]. inversion E; subst. clear E.
    destruct Hin as [E|[]]. inversion E; subst. reflexivity.
  - split; [intros [E|[]]; vm_compute in E; discriminate|]. vm_compute. repeat split.
Qed.

(* C12_empty_block / C12_no_keys *)
Example C12_ex_empty :
  (forall n g, In (n, g) [(n_StringEquals, @nil (str * pvals)); (n_Null, [])] -> g = [])
  /\ ev [] [] = Some true /\ ev [] [(k1, XOne (S a))] = Some true
  /\ ev [(n_StringEquals, []); (n_Null, [])] [(k1, XOne (S a))] = Some true.
Proof.
  split; [intros n g [E|[E|[]]]; inversion E; reflexivity|]. vm_compute. repeat split.
Qed.

(* C12_null_* : Null and its interplay with IfExists, on the live table.
   {"Null": {"k1": "false"}, "StringEqualsIfExists": {"k1": "x"}} on {}: True (the IfExists test is vacuous);
   {"Null": {"k1": "true"},  "StringEqualsIfExists": {"k1": "a"}} on {"k1": "a"}: True, on {"k1": "x"}: False, on {}: False *)
Example C12_ex_null :
  let T := op_test idf in
  let n_SEifx := n_StringEquals ++ IFEXISTS in
  null_plain e_Null /\ ctx_real [(k1, XOne (S a))] k1 /\ ctx_real [] k1 /\ ctx_real [(k1, XOne CNone)] k1
  /\ eval_key T e_Null k1 (POne (CBool true)) [(k1, XOne (S a))] = Some true
  /\ eval_key T e_Null k1 (POne (CBool true)) [] = Some false
  /\ eval_key T e_Null k1 (POne (CBool true)) [(k1, XOne CNone)] = Some false
  /\ eval_key T e_Null k1 (POne (CBool false)) [] = Some true
  /\ eval_key T e_Null k1 (POne (CBool false)) [(k1, XOne (S a))] = Some false
  /\ ev [(n_Null, [(k1, POne (CBool false))]); (n_SEifx, [(k1, POne (S x))])] [] = Some true
  /\ ev [(n_Null, [(k1, POne (CBool true))]); (n_SEifx, [(k1, POne (S a))])] [(k1, XOne (S a))] = Some true
  /\ ev [(n_Null, [(k1, POne (CBool true))]); (n_SEifx, [(k1, POne (S a))])] [(k1, XOne (S x))] = Some false
  /\ ev [(n_Null, [(k1, POne (CBool true))]); (n_SEifx, [(k1, POne (S a))])] [] = Some false.
Proof.
  split; [repeat split|]. split; [unfold ctx_real; vm_compute; discriminate|].
  split; [unfold ctx_real; vm_compute; discriminate|]. split; [unfold ctx_real; vm_compute; discriminate|].
  vm_compute. repeat split.
Qed.

(* C12_values_set_uniform / C12_op_test_uniform / C12_values_set_typed: typed values, an incomparable context value *)
Example C12_ex_values_typed :
  uniform_op OStringLike = true /\ (forall p, In p [S a; S b] -> has_fam (family OStringLike) p = true)
  /\ (forall p, In p [S a; S b] <-> In p [S b; S a; S b])
  /\ uniform_vals (op_test idf) OStringLike [S a; S b] (CInt 7)
  /\ value_ok (op_test idf) OStringLike [S a; S b] (CInt 7) = None
  /\ value_ok (op_test idf) OStringLike [S b; S a; S b] (CInt 7) = None
  /\ value_ok (op_test idf) OStringLike [S a; S b] (S b) = Some true
  /\ value_ok (op_test idf) OStringLike [S b; S a; S b] (S b) = Some true.
Proof.
  split; [reflexivity|]. split; [intros p [<-|[<-|[]]]; reflexivity|]. split; [intros p; simpl; tauto|].
  split; [left; intros p [<-|[<-|[]]]; vm_compute; reflexivity|]. vm_compute. repeat split.
Qed.
