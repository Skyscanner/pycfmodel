(* C17 -- Network exposure predicates reflect the address range denoted.
   "A CIDR property is stored as the network it denotes with host bits masked off, for every valid textual spelling,
    whether written literally or obtained through a resolved reference; ipv4_slash_zero() / ipv6_slash_zero() return true
    exactly when that network is the entire IPv4 / IPv6 address space and false when the property is absent.  An RDS DB
    security-group ingress is public exactly when it has neither a CIDR nor a source security group, or its CIDR is
    0.0.0.0/0 or lies in globally routable address space, and is not public when its CIDR lies inside a private range."
   The theorems of the property, each proved from the lemmas of theories/Net/*.v.

   Vocabulary (Net/Arith.v, for any address width W; W4 = 32 in Net/IPv4.v, W6 = 128 in Net/IPv6.v):
     net = (address, prefix length);  blk W l = 2^(W-l);  mk_net W x l = ((x / blk W l) * blk W l, l)
     in_net W x (a,l)      :=  a <= x < a + blk W l
     same_prefix W l x y   :=  x / blk W l = y / blk W l          (x and y agree on their first l bits)
     wf W (a,l)            :=  l <= W /\ a < 2^W /\ a mod blk W l = 0
   parse4 / parse6 : text -> res net   are the models of IPv4Network(text, strict=False) / IPv6Network(text, strict=False),
   print4 of str(IPv4Network), print6 of str(IPv6Network) (RFC 5952 compressed text, CPython's _compress_hextets followed line by
   line: Net/IPv6Print.v), print6_full of IPv6Network.exploded;  cidr4_text s x l (Net/IPv4Thm.v) is the DECLARATIVE
   grammar "s spells address x with prefix length l" (canonical decimal octets; /len, /netmask, /hostmask or nothing). *)
From Coq Require Import List Bool NArith ZArith Lia PeanoNat.
From PV Require Import Base.Str Base.Value Net.Arith Net.NetText Net.IPv4 Net.IPv4Thm Net.IPv6 Net.IPv6Thm Net.IPv6Print Net.Public Net.PublicTable Net.ExposureLaws.
From PVGen Require Import PrivateNets.
Import ListNotations.
Local Open Scope N_scope.

(* network arithmetic, every width at once *)

Theorem C17_mk_net_masked : forall W x l, fst (mk_net W x l) mod 2 ^ (W - l) = 0.
Proof. intros W x l. unfold mk_net. cbn [fst]. apply N.mod_mul. pose proof (blk_pos W l). lia. Qed.
Print Assumptions C17_mk_net_masked.

Theorem C17_mk_net_denotes : forall W a l x, in_net W x (mk_net W a l) <-> x / 2 ^ (W - l) = a / 2 ^ (W - l).
Proof. exact mk_net_denotes. Qed.
Print Assumptions C17_mk_net_denotes.

(* "agree on the first l bits", bit by bit *)
Theorem C17_same_prefix_bits : forall W l x y,
  same_prefix W l x y <-> forall i, W - l <= i -> N.testbit x i = N.testbit y i.
Proof.
  intros W l x y.
  unfold same_prefix, blk. rewrite <- !N.shiftr_div_pow2. split.
  - intros H i Hi. replace i with ((i - (W - l)) + (W - l)) by lia.
    rewrite <- !N.shiftr_spec by lia. rewrite H. reflexivity.
  - intros H. apply N.bits_inj. intros j. rewrite !N.shiftr_spec by lia. apply H. lia.
Qed.
Print Assumptions C17_same_prefix_bits.

(* the model's arithmetic masking IS ipaddress's bitwise masking  packed & (ALL_ONES ^ (ALL_ONES >> prefixlen)) *)
Theorem C17_masking_is_bitwise : forall W x l, l <= W -> x < 2 ^ W ->
  fst (mk_net W x l) = N.land x (N.lxor (N.ones W) (N.shiftr (N.ones W) l)).
Proof. intros W x l Hl Hx. rewrite <- netmask_xor by exact Hl. apply mk_net_land; assumption. Qed.
Print Assumptions C17_masking_is_bitwise.

Theorem C17_mk_net_idem : forall W x l, mk_net W (fst (mk_net W x l)) l = mk_net W x l.
Proof. intros W x l. unfold mk_net. cbn [fst]. f_equal. rewrite N.div_mul; [reflexivity|]. pose proof (blk_pos W l). lia. Qed.
Print Assumptions C17_mk_net_idem.

Theorem C17_mk_net_wf : forall W x l, l <= W -> x < 2 ^ W -> wf W (mk_net W x l).
Proof. exact mk_net_wf. Qed.
Print Assumptions C17_mk_net_wf.

(* Python's subnet_of (first and last address inside) is inclusion of the address sets *)
Theorem C17_subnet_of_iff : forall W n m, wf W n -> wf W m ->
  (subnet_of W n m = true <-> forall x, in_net W x n -> in_net W x m).
Proof. exact subnet_of_iff. Qed.
Print Assumptions C17_subnet_of_iff.

(* IPv4: stored value of CidrIp / CIDRIP *)

(* host bits are masked off *)
Theorem C17_masked : forall s n, parse4 s = Ok n -> fst n mod 2 ^ (32 - snd n) = 0.
Proof. intros s n H. apply parse4_ok in H. destruct H as (x & l & _ & ->). cbn [snd]. apply (C17_mk_net_masked W4). Qed.
Print Assumptions C17_masked.

Theorem C17_stored_wf : forall s n, parse4 s = Ok n -> wf W4 n.
Proof. exact parse4_wf. Qed.
Print Assumptions C17_stored_wf.

(* the parser accepts EXACTLY the declarative grammar, and stores the network of the written address *)
Theorem C17_grammar : forall s n, parse4 s = Ok n <-> exists x l, cidr4_text s x l /\ n = mk_net W4 x l.
Proof. exact parse4_ok. Qed.
Print Assumptions C17_grammar.

(* everything else is rejected with ValueError (ValidationError at the field) -- never anything else, never a wrong value *)
Theorem C17_reject_or_accept : forall s, parse4 s = Err EValue \/ exists n, parse4 s = Ok n.
Proof. exact parse4_err. Qed.
Print Assumptions C17_reject_or_accept.

(* octets are canonical decimal numerals 0..255: "01", "256", "" and non-digits are not octets *)
Theorem C17_octet_strict : forall s v, parse_octet s = Some v <-> v < 256 /\ s = print_small v.
Proof. intros s v. split; [apply parse_octet_sound | intros [H ->]; apply parse_octet_print; exact H]. Qed.
Print Assumptions C17_octet_strict.

(* the stored network denotes exactly the addresses that agree with the WRITTEN address on the first (written) l bits *)
Theorem C17_denotes : forall s n, parse4 s = Ok n ->
  exists x l, cidr4_text s x l /\ snd n = l /\ forall y, in_net W4 y n <-> same_prefix W4 l y x.
Proof.
  intros s n H.
  apply parse4_ok in H. destruct H as (x & l & Ht & ->). exists x, l.
  split; [exact Ht | split; [reflexivity | intros y; apply mk_net_denotes]].
Qed.
Print Assumptions C17_denotes.

(* prefix-length spelling and netmask spelling of the same range: same network, whatever the address text *)
Theorem C17_spellings : forall a l, ~ In SLASH a -> l <= 32 ->
  parse4 (a ++ SLASH :: print_small l) = parse4 (a ++ SLASH :: print_mask4 l).
Proof. exact parse4_spellings. Qed.
Print Assumptions C17_spellings.

(* ... and hostmask spelling (the two ambiguous masks 0.0.0.0 and 255.255.255.255 are netmasks, so 0 < l < 32) *)
Theorem C17_spellings_hostmask : forall a l, ~ In SLASH a -> 0 < l -> l < 32 ->
  parse4 (a ++ SLASH :: print_small l) = parse4 (a ++ SLASH :: print_hostmask4 l).
Proof.
  intros a l Ha H0 Hl.
  rewrite !parse4_slash by (try exact Ha; try apply print_small_no_slash; apply print_addr4_no_slash, hostmask4_bound).
  rewrite parse_mask4_len, parse_mask4_hostmask by (assumption || lia). reflexivity.
Qed.
Print Assumptions C17_spellings_hostmask.

(* any host bits: two spellings writing the same length and addresses with the same first l bits give the same network *)
Theorem C17_host_bits : forall s1 s2 x1 x2 l,
  cidr4_text s1 x1 l -> cidr4_text s2 x2 l -> same_prefix W4 l x1 x2 -> parse4 s1 = parse4 s2.
Proof.
  intros s1 s2 x1 x2 l H1 H2 Hp.
  apply written4_spec in H1. apply written4_spec in H2. unfold parse4. rewrite H1, H2.
  f_equal. apply mk_net_same_prefix. exact Hp.
Qed.
Print Assumptions C17_host_bits.

(* no mask means /32 *)
Theorem C17_bare : forall a x, dotted_quad a x -> parse4 a = parse4 (a ++ SLASH :: print_small 32).
Proof.
  intros a x Hq.
  rewrite parse4_slash by (try apply print_small_no_slash; eapply dotted_quad_no_slash, Hq).
  unfold parse4, written4. rewrite split_ch_none by (eapply dotted_quad_no_slash, Hq).
  apply parse_addr4_spec in Hq. rewrite Hq, parse_mask4_len by lia. reflexivity.
Qed.
Print Assumptions C17_bare.

(* through a resolved reference: resolve() stringifies the stored network and the new model validates that text *)
Theorem C17_via_ref : forall n, wf W4 n -> parse4 (print4 n) = Ok n.
Proof. exact parse4_print4. Qed.
Print Assumptions C17_via_ref.

Theorem C17_via_ref_fixed_point : forall s n, parse4 s = Ok n -> parse4 (print4 n) = Ok n.
Proof. intros s n H. apply parse4_print4. eapply parse4_wf. exact H. Qed.
Print Assumptions C17_via_ref_fixed_point.

(* IPv6: stored value of CidrIpv6 *)

Theorem C17_masked6 : forall s n, parse6 s = Ok n -> fst n mod 2 ^ (128 - snd n) = 0.
Proof. intros s n H. apply parse6_ok in H. destruct H as (_ & x & l & _ & ->). cbn [snd]. apply (C17_mk_net_masked W6). Qed.
Print Assumptions C17_masked6.

Theorem C17_stored_wf6 : forall s n, parse6 s = Ok n -> wf W6 n.
Proof. exact parse6_wf. Qed.
Print Assumptions C17_stored_wf6.

(* written6 s = the address and length WRITTEN in s (before masking), by the grammar of Net/IPv6.v *)
Theorem C17_denotes6 : forall s n, parse6 s = Ok n ->
  exists x l, written6 s = Some (x, l) /\ snd n = l /\ forall y, in_net W6 y n <-> same_prefix W6 l y x.
Proof.
  intros s n H.
  apply parse6_ok in H. destruct H as (_ & x & l & E & ->). exists x, l.
  split; [exact E | split; [reflexivity | intros y; apply mk_net_denotes]].
Qed.
Print Assumptions C17_denotes6.

Theorem C17_host_bits6 : forall s1 s2 x1 x2 l, ~ In PERCENT s1 -> ~ In PERCENT s2 ->
  written6 s1 = Some (x1, l) -> written6 s2 = Some (x2, l) -> same_prefix W6 l x1 x2 -> parse6 s1 = parse6 s2.
Proof.
  intros s1 s2 x1 x2 l P1 P2 H1 H2 Hp.
  unfold parse6. apply has_ch_false in P1. apply has_ch_false in P2. rewrite P1, P2, H1, H2.
  f_equal. apply mk_net_same_prefix. exact Hp.
Qed.
Print Assumptions C17_host_bits6.

(* the uncompressed spelling (IPv6Network.exploded) of every network parses back to it *)
Theorem C17_exploded6 : forall n, wf W6 n -> parse6 (print6_full n) = Ok n.
Proof. exact parse6_print6_full. Qed.
Print Assumptions C17_exploded6.

(* str(IPv6Network): the text resolve() really produces *)

(* str(IPv6Address) of every 128-bit address reads back as that address *)
Theorem C17_print_addr6_roundtrip : forall a, a < 2 ^ 128 -> parse_addr6 (print_addr6 a) = Some a.
Proof. exact parse_addr6_print_addr6. Qed.
Print Assumptions C17_print_addr6_roundtrip.

(* str(IPv6Network) of every network -- all 2^128 * 129 of them -- reads back as that network *)
Theorem C17_print6_roundtrip : forall n, wf W6 n -> parse6 (print6 n) = Ok n.
Proof.
  intros n H.
  pose proof H as Ha. destruct n as [a l]. destruct Ha as (_ & Ha & _).
  apply parse6_net_text; [apply print_groups6_chars, groups6_value, Ha | apply parse_addr6_print_addr6, Ha | exact H].
Qed.
Print Assumptions C17_print6_roundtrip.

(* through a resolved reference, IPv6: whatever spelling was stored, resolve() stringifies the stored network with str()
   (the compressed text) and the new model validates that text: the same network comes back *)
Theorem C17_via_ref6 : forall s n, parse6 s = Ok n -> parse6 (print6 n) = Ok n.
Proof. intros s n H. apply C17_print6_roundtrip. eapply parse6_wf. exact H. Qed.
Print Assumptions C17_via_ref6.

(* the compressed and the exploded text denote the same network; distinct networks have distinct texts *)
Theorem C17_print6_same_as_exploded : forall n, wf W6 n -> parse6 (print6 n) = parse6 (print6_full n).
Proof. intros n H. rewrite C17_print6_roundtrip, parse6_print6_full by exact H. reflexivity. Qed.
Print Assumptions C17_print6_same_as_exploded.

Theorem C17_print6_injective : forall n m, wf W6 n -> wf W6 m -> print6 n = print6 m -> n = m.
Proof. intros n m Hn Hm E. pose proof (C17_print6_roundtrip n Hn) as P. rewrite E, (C17_print6_roundtrip m Hm) in P. inversion P. reflexivity. Qed.
Print Assumptions C17_print6_injective.

(* canonical form, RFC 5952 section 4.  hexnz v = '%x' % v;  zero_run gs s k := positions s .. s+k-1 of gs exist and are 0.
   4.1 + 4.3: a hextet is 1-4 lower-case hex digits, is the hextet, and starts with '0' only when it is "0" *)
Theorem C17_hextet_canonical : forall v, v < 65536 ->
  parse_hextet (hexnz v) = Some v /\ (1 <= length (hexnz v) <= 4)%nat /\
  Forall (fun c => 48 <= c <= 57 \/ 97 <= c <= 102) (hexnz v) /\ (forall t, hexnz v = 48 :: t -> t = []).
Proof.
  intros v H.
  split; [apply parse_hextet_hexnz; exact H|]. split; [apply hexnz_length|].
  split; [apply hexnz_lhex; exact H | intros t; apply hexnz_no_leading_zero].
Qed.
Print Assumptions C17_hextet_canonical.

(* ... and cut at its colons, the printed address consists of such hextets and of the empty pieces around "::" only *)
Theorem C17_print6_pieces : forall a, a < 2 ^ 128 ->
  Forall (fun p => p = [] \/ exists v, v < 65536 /\ p = hexnz v) (split_ch COLON (print_addr6 a)).
Proof.
  intros a Ha.
  destruct (groups6_value a Ha) as [HF _]. unfold print_addr6, print_groups6.
  destruct (best_run (groups6 a)) as [bs bl].
  assert (HP : Forall (fun p => p = [] \/ exists v, v < B16 /\ p = hexnz v) (compress_hextets (map hexnz (groups6 a)) bs bl)).
  { apply Forall_forall. intros p Hp. apply compress_hextets_pieces in Hp. destruct Hp as [E|Hp]; [left; exact E | right].
    apply in_map_iff in Hp. destruct Hp as (v & <- & Hv). rewrite Forall_forall in HF. exists v. split; [exact (HF v Hv) | reflexivity]. }
  rewrite split_ch_join; [exact HP | apply compress_hextets_nonnil; discriminate|].
  eapply Forall_impl; [|exact HP]. intros p [->|(v & Hv & ->)]; [intros [] | apply (pr_no hexnz hexnz_ok); [exact Hv | unfold COLON; lia]].
Qed.
Print Assumptions C17_print6_pieces.

(* what CPython's scan finds, for a list of hextets of ANY length: nothing when no hextet is zero, otherwise a run of zeros
   that is at least as long as every run of zeros and starts no later than any run of the same length *)
Theorem C17_best_run_spec : forall gs,
  (best_run gs = (None, 0%nat) /\ forall s k, zero_run gs s k -> k = 0%nat) \/
  (exists b l, best_run gs = (Some b, l) /\ (0 < l)%nat /\ zero_run gs b l /\
     forall s k, zero_run gs s k -> (k <= l)%nat /\ (k = l -> (b <= s)%nat)).
Proof. exact best_run_spec. Qed.
Print Assumptions C17_best_run_spec.

(* 4.2: EITHER no two neighbouring hextets are zero and the text is the eight hextets joined by ':' (4.2.2: a single zero
   hextet is not shortened), OR the text is  hi "::" lo  where the hextets dropped are k >= 2 zeros, no run of zero hextets
   is longer (4.2.1, 4.2.3) and none of the same length starts further left (4.2.3) *)
Theorem C17_print6_shape : forall a,
  let gs := groups6 a in
  ((forall s k, zero_run gs s k -> (k <= 1)%nat) /\ print_addr6 a = join [COLON] (map hexnz gs)) \/
  (exists hi k lo, gs = hi ++ repeat 0 k ++ lo /\ (2 <= k)%nat /\
     print_addr6 a = join [COLON] (map hexnz hi) ++ COLON :: COLON :: join [COLON] (map hexnz lo) /\
     forall s k', zero_run gs s k' -> (k' <= k)%nat /\ (k' = k -> (length hi <= s)%nat)).
Proof. intros a. exact (print_groups6_shape (groups6 a)). Qed.
Print Assumptions C17_print6_shape.

(* on the text: at most one "::" and never ":::" -- neither side of the first "::" holds another, the left side does not
   end and the right side does not begin with ':' *)
Theorem C17_print6_one_dcolon : forall a l r, a < 2 ^ 128 -> cut_dcolon (print_addr6 a) = Some (l, r) ->
  cut_dcolon l = None /\ cut_dcolon r = None /\ (forall t, r <> COLON :: t) /\ (forall t, l <> t ++ [COLON]) /\
  print_addr6 a = l ++ COLON :: COLON :: r.
Proof.
  intros a l r Ha Hcut.
  destruct (groups6_value a Ha) as [HF _]. unfold print_addr6 in *.
  (* hextets joined by single colons hold no "::" and neither begin nor end with ':' ([join_edges]); this is used for
     the whole text when nothing is dropped, and for both sides of the "::" otherwise *)
  pose proof (fun gs H => join_edges _ (pr_pieces hexnz hexnz_ok gs H)) as Hside.
  destruct (print_groups6_shape (groups6 a)) as [[_ E] | (hi & k & lo & Egs & _ & E & _)]; rewrite E in *.
  - destruct (Hside _ HF) as (Hc & _). congruence.
  - rewrite Egs in HF. destruct (ListFacts.Forall_ends _ _ _ _ HF) as [Hh Hlo].
    rewrite cut_dcolon_found in Hcut by (apply (pr_pieces hexnz hexnz_ok); exact Hh). inversion Hcut; subst l r.
    destruct (Hside hi Hh) as (H1 & _ & H3). destruct (Hside lo Hlo) as (H4 & H5 & _). auto.
Qed.
Print Assumptions C17_print6_one_dcolon.

(* ... and a text without "::" means there was nothing to shorten *)
Theorem C17_print6_no_dcolon : forall a, cut_dcolon (print_addr6 a) = None ->
  forall s k, zero_run (groups6 a) s k -> (k <= 1)%nat.
Proof.
  intros a Hcut.
  destruct (C17_print6_shape a) as [[H _] | (hi & k & lo & Egs & _ & E & _)]; [exact H|].
  exfalso. rewrite E in Hcut.
  exact (cut_dcolon_present _ _ Hcut).
Qed.
Print Assumptions C17_print6_no_dcolon.

(* ipv4_slash_zero() / ipv6_slash_zero() *)

(* true exactly when the stored network is the ENTIRE 32-bit address space -- all 2^32 * 33 networks at once *)
Theorem C17_slash_zero_iff : forall n, wf W4 n ->
  (slash_zero_field (Some n) = true <-> forall x, x < 2 ^ 32 -> in_net W4 x n).
Proof. exact (slash_zero_field_iff W4). Qed.
Print Assumptions C17_slash_zero_iff.

Theorem C17_slash_zero6_iff : forall n, wf W6 n ->
  (slash_zero_field (Some n) = true <-> forall x, x < 2 ^ 128 -> in_net W6 x n).
Proof. exact (slash_zero_field_iff W6). Qed.
Print Assumptions C17_slash_zero6_iff.

(* on what the parsers store (no side condition left) *)
Theorem C17_slash_zero_text : forall s n, parse4 s = Ok n ->
  (slash_zero_field (Some n) = true <-> forall x, x < 2 ^ 32 -> in_net W4 x n).
Proof. exact (fun s n H => slash_zero_field_iff W4 n (parse4_wf s n H)). Qed.
Print Assumptions C17_slash_zero_text.

Theorem C17_slash_zero6_text : forall s n, parse6 s = Ok n ->
  (slash_zero_field (Some n) = true <-> forall x, x < 2 ^ 128 -> in_net W6 x n).
Proof. exact (fun s n H => slash_zero_field_iff W6 n (parse6_wf s n H)). Qed.
Print Assumptions C17_slash_zero6_text.

Theorem C17_absent_false : slash_zero_field None = false.
Proof. reflexivity. Qed.
Print Assumptions C17_absent_false.

(* is_public() *)

(* for ANY table of well-formed private networks + shared network *)
Theorem C17_public_iff : forall (SHARED : net) (PRIV : list net), wf W4 SHARED -> Forall (wf W4) PRIV ->
  forall cidr has_group, (forall n, cidr = Some n -> wf W4 n) ->
  (is_public SHARED PRIV cidr has_group = true <->
     (cidr = None /\ has_group = false) \/
     (exists n, cidr = Some n /\ (n = ZERO \/ ~ exists p, In p (SHARED :: PRIV) /\ inside n p))).
Proof. exact is_public_iff. Qed.
Print Assumptions C17_public_iff.

Theorem C17_private_not_public : forall (SHARED : net) (PRIV : list net), wf W4 SHARED -> Forall (wf W4) PRIV ->
  forall n p has_group, wf W4 n -> In p (SHARED :: PRIV) -> inside n p -> n <> ZERO ->
  is_public SHARED PRIV (Some n) has_group = false.
Proof. exact private_not_public. Qed.
Print Assumptions C17_private_not_public.

(* the table of the running Python (gen/PrivateNets.v): well-formed, and no entry is the whole space *)
Theorem C17_table_wf : wf W4 SHARED4 /\ Forall (wf W4) PRIVATE4 /\ Forall (fun q => 0 < snd q) (SHARED4 :: PRIVATE4).
Proof. exact (conj SHARED4_wf (conj PRIVATE4_wf table_pos)). Qed.
Print Assumptions C17_table_wf.

Theorem C17_public_iff_table : forall cidr has_group, (forall n, cidr = Some n -> wf W4 n) ->
  (is_public4 cidr has_group = true <->
     (cidr = None /\ has_group = false) \/
     (exists n, cidr = Some n /\ (n = ZERO \/ ~ exists p, In p (SHARED4 :: PRIVATE4) /\ inside n p))).
Proof. exact (is_public_iff SHARED4 PRIVATE4 SHARED4_wf PRIVATE4_wf). Qed.
Print Assumptions C17_public_iff_table.

(* inside a private range (or the shared range) of the running Python => not public; /0 cannot be inside one *)
Theorem C17_private_not_public_table : forall n p has_group,
  wf W4 n -> In p (SHARED4 :: PRIVATE4) -> inside n p -> is_public4 (Some n) has_group = false.
Proof. exact (fun n p g => private_not_public' SHARED4 PRIVATE4 SHARED4_wf PRIVATE4_wf n p g table_pos). Qed.
Print Assumptions C17_private_not_public_table.

(* pycfmodel's constants IPV4_ZERO_VALUE / IPV6_ZERO_VALUE denote the all-zero /0 networks *)
Theorem C17_zero_constants : parse4 ZERO4_TEXT = Ok ZERO /\ parse6 ZERO6_TEXT = Ok ZERO.
Proof. exact (conj zero4_text_check zero6_text_check). Qed.
Print Assumptions C17_zero_constants.

(* non-vacuity and boundary witnesses ([T] turns a string literal into its list of code points) *)

Import String.
Definition T (s : string) : str := of_string s.
Arguments T s%string_scope.

Example C17_ex_host_bits_masked :       (* "1.2.3.4/0" -> 0.0.0.0/0 -> slash zero *)
  parse4 (T "1.2.3.4/0") = Ok (0, 0) /\ slash_zero_field (Some (0, 0)) = true.
Proof. vm_compute. split; reflexivity. Qed.
Example C17_ex_slash_one_not_zero :     (* "0.0.0.0/1" is not the whole space *)
  parse4 (T "0.0.0.0/1") = Ok (0, 1) /\ slash_zero_field (Some (0, 1)) = false.
Proof. vm_compute. split; reflexivity. Qed.
Example C17_ex_three_spellings :        (* /24 = /255.255.255.0 = /0.0.0.255, host bits set *)
  parse4 (T "192.168.1.77/24") = Ok (3232235776, 24) /\
  parse4 (T "192.168.1.77/255.255.255.0") = Ok (3232235776, 24) /\
  parse4 (T "192.168.1.77/0.0.0.255") = Ok (3232235776, 24) /\
  print4 (3232235776, 24) = T "192.168.1.0/24".
Proof. vm_compute. repeat split. Qed.
Example C17_ex_ambiguous_masks :        (* 0.0.0.0 is the NETmask of /0, 255.255.255.255 the netmask of /32 *)
  parse4 (T "1.2.3.4/0.0.0.0") = Ok (0, 0) /\ parse4 (T "1.2.3.4/255.255.255.255") = Ok (16909060, 32).
Proof. vm_compute. split; reflexivity. Qed.
Example C17_ex_rejected :
  parse4 (T "01.2.3.4/8") = Err EValue /\ parse4 (T "1.2.3.4.5/8") = Err EValue /\ parse4 (T "1.2.3.4/33") = Err EValue /\
  parse4 (T "1.2.3.4/255.0.255.0") = Err EValue /\ parse4 (T "1.2.3.256") = Err EValue /\ parse4 (T "") = Err EValue.
Proof. vm_compute. repeat split. Qed.
Example C17_ex_cidr4_text : cidr4_text (T "10.0.0.1/8") 167772161 8.
Proof. apply written4_spec. vm_compute. reflexivity. Qed.
Example C17_ex_v6 :                     (* "::1/0" -> ::/0 ; compressed, embedded IPv4, upper case *)
  parse6 (T "::1/0") = Ok (0, 0) /\ slash_zero_field (Some (0, 0)) = true /\
  parse6 (T "::ffff:1.2.3.4/96") = Ok (281470681743360, 96) /\
  parse6 (T "2001:DB8::1/32") = parse6 (T "2001:0db8:0000:0000:0000:0000:0000:0000/32") /\
  parse6 (T "1::2::3") = Err EValue /\ parse6 (T "::/129") = Err EValue /\ parse6 (T "1:2:3:4:5:6:7:8:9") = Err EValue.
Proof. vm_compute. repeat split. Qed.
Example C17_ex_print6 :                 (* str(IPv6Network): the compressed text, and it reads back *)
  print6 (42540766411282592856903984951653826560, 32) = T "2001:db8::/32" /\
  print6 (0, 0) = T "::/0" /\ print6 (1, 128) = T "::1/128" /\
  print6 (addr_of_groups [1;0;0;2;0;0;0;3], 128) = T "1:0:0:2::3/128" /\         (* the longer run, though it comes second *)
  print6 (addr_of_groups [1;0;0;2;0;0;3;4], 128) = T "1::2:0:0:3:4/128" /\       (* two runs of two: the left one *)
  print6 (addr_of_groups [1;0;2;0;3;0;4;0], 128) = T "1:0:2:0:3:0:4:0/128" /\    (* single zeros are not shortened *)
  print6 (addr_of_groups [0;0;1;0;0;0;0;0], 125) = T "0:0:1::/125" /\            (* run at the end beats run at the start *)
  print6 (addr_of_groups [0;0;0;1;0;0;0;5], 128) = T "::1:0:0:0:5/128" /\        (* equal runs at start and inside: the start *)
  print6 (addr_of_groups [0;0;0;0;0;65535;258;772], 128) = T "::ffff:102:304/128" /\  (* no dotted quad in str() (3.12) *)
  print6 (2 ^ 128 - 1, 128) = T "ffff:ffff:ffff:ffff:ffff:ffff:ffff:ffff/128" /\
  parse6 (T "1:0:0:2::3/128") = Ok (addr_of_groups [1;0;0;2;0;0;0;3], 128) /\
  parse6 (T "2001:DB8:0:0::/32") = Ok (42540766411282592856903984951653826560, 32) /\
  best_run [1;0;0;2;0;0;0;3] = (Some 4%nat, 3%nat) /\ best_run [1;0;2;3;4;5;6;7] = (Some 1%nat, 1%nat) /\
  wf W6 (addr_of_groups [0;0;1;0;0;0;0;0], 125).
Proof. vm_compute. repeat split; discriminate. Qed.
Example C17_ex_public :                 (* the probes of DESIGN.md *)
  is_public4 (Some (134217728, 6)) false = true /\            (* 8.0.0.0/6 straddles 10.0.0.0/8: public *)
  is_public4 (Some (1681915904, 10)) false = false /\         (* 100.64.0.0/10 *)
  is_public4 (Some (1677721600, 9)) false = true /\           (* 100.0.0.0/9 contains the shared range: public *)
  is_public4 (Some (167772160, 8)) true = false /\            (* 10.0.0.0/8 *)
  is_public4 (Some (0, 0)) false = true /\                    (* 0.0.0.0/0 *)
  is_public4 (Some (0, 7)) false = true /\                    (* 0.0.0.0/7 is wider than 0.0.0.0/8 *)
  is_public4 None false = true /\ is_public4 None true = false.
Proof. vm_compute. repeat split. Qed.
Example C17_ex_inside : inside (167837696, 16) (167772160, 8) /\ In (167772160, 8) (SHARED4 :: PRIVATE4).   (* 10.1.0.0/16 in 10.0.0.0/8 *)
Proof.
  split; [apply (inside_iff (167837696, 16) (167772160, 8)); [apply wfb_wf | apply wfb_wf |]; vm_compute; reflexivity|].
  vm_compute. tauto.
Qed.

(* ALGEBRAIC LAWS of the exposure predicates (Net/ExposureLaws.v).  TABLE4 = SHARED4 :: PRIVATE4 is the generated table;
   is_private4 = ipaddress's is_private (inside one PRIVATE4 entry), is_global4 = is_global (inside no TABLE4 entry),
   is_public4 = DBSecurityGroupIngressProp.is_public on a rule with that CIDR; addr_global4 x = is_global4 (x, 32).
   Laws that FAIL carry the suffix _refuted and a witness. *)

(* structure of CIDR blocks (every width) *)
(* two blocks that share an address are nested *)
Theorem C17_laminar : forall W n p x, wf W n -> wf W p -> in_net W x n -> in_net W x p -> snd p <= snd n ->
  subnet_of W n p = true.
Proof. exact laminar. Qed.
Print Assumptions C17_laminar.
Example C17_ex_laminar : wf W4 (167837696, 16) /\ wf W4 (167772160, 8) /\ in_net W4 167837700 (167837696, 16) /\
  in_net W4 167837700 (167772160, 8) /\ snd (167772160, 8) <= snd (167837696, 16).
Proof. vm_compute. repeat split; discriminate. Qed.

(* a stored network IS its set of addresses *)
Theorem C17_network_is_its_set : forall W n m, wf W n -> wf W m -> (forall x, in_net W x n <-> in_net W x m) -> n = m.
Proof.
  intros W n m Hn Hm H.
  assert (S1 : subnet_of W n m = true) by (apply subnet_of_iff; [assumption | assumption | intros x; apply H]).
  assert (S2 : subnet_of W m n = true) by (apply subnet_of_iff; [assumption | assumption | intros x; apply H]).
  pose proof (subnet_of_len W _ _ S1) as L1. pose proof (subnet_of_len W _ _ S2) as L2.
  destruct n as [a l], m as [b k]. cbn [snd] in *. destruct Hn as (Hl & _ & _). destruct Hm as (Hk & _ & _).
  assert (l = k) by (apply (blk_inj W); lia). subst k.
  unfold subnet_of in S1, S2. rewrite andb_true_iff, !N.leb_le in S1, S2. f_equal. lia.
Qed.
Print Assumptions C17_network_is_its_set.

(* monotonicity in the range *)
(* "contains every address" is upward closed ... *)
Theorem C17_slash_zero_monotone : forall W n m, wf W m -> subnet_of W n m = true -> slash_zero n = true -> slash_zero m = true.
Proof. exact slash_zero_up. Qed.
Print Assumptions C17_slash_zero_monotone.
(* ... and not downward closed *)
Theorem C17_slash_zero_down_refuted : exists a b, wf W4 a /\ wf W4 b /\ subnet_of W4 a b = true /\
  slash_zero_field (Some b) = true /\ slash_zero_field (Some a) = false.
Proof. exists (0, 1), (0, 0). vm_compute. repeat split; discriminate. Qed.
Print Assumptions C17_slash_zero_down_refuted.

(* private is DOWNWARD closed (any table) *)
Theorem C17_private_down : forall PRIV a b, subnet_of W4 a b = true -> is_private PRIV b = true -> is_private PRIV a = true.
Proof. exact is_private_down. Qed.
Print Assumptions C17_private_down.
(* globally routable and the is_public() verdict are UPWARD closed (any table): a range that contains a public range is
   public, every range inside a non-public range is non-public *)
Theorem C17_global_up : forall SHARED PRIV a b, subnet_of W4 a b = true ->
  is_global SHARED PRIV a = true -> is_global SHARED PRIV b = true.
Proof. exact is_global_up. Qed.
Print Assumptions C17_global_up.
Theorem C17_public_up : forall SHARED PRIV a b g g', wf W4 b -> subnet_of W4 a b = true ->
  is_public SHARED PRIV (Some a) g = true -> is_public SHARED PRIV (Some b) g' = true.
Proof. exact is_public_up. Qed.
Print Assumptions C17_public_up.
Theorem C17_not_public_down : forall SHARED PRIV a b g g', wf W4 b -> subnet_of W4 a b = true ->
  is_public SHARED PRIV (Some b) g' = false -> is_public SHARED PRIV (Some a) g = false.
Proof. exact not_public_down. Qed.
Print Assumptions C17_not_public_down.
Example C17_ex_monotone :       (* 8.8.8.0/24 inside 8.0.0.0/6, public; 10.1.0.0/16 inside 10.0.0.0/8, not public *)
  wf W4 (134217728, 6) /\ subnet_of W4 (134744064, 24) (134217728, 6) = true /\ is_public4 (Some (134744064, 24)) false = true /\
  wf W4 (167772160, 8) /\ subnet_of W4 (167837696, 16) (167772160, 8) = true /\ is_public4 (Some (167772160, 8)) false = false /\
  is_private4 (167772160, 8) = true.
Proof. vm_compute. repeat split; discriminate. Qed.
(* the other directions fail: 10.0.0.0/8 (private, not public) lies inside 8.0.0.0/6 (not private, public) *)
Theorem C17_private_up_public_down_refuted : exists a b, wf W4 a /\ wf W4 b /\ subnet_of W4 a b = true /\
  is_private4 a = true /\ is_private4 b = false /\ is_global4 b = true /\ is_global4 a = false /\
  is_public4 (Some b) false = true /\ is_public4 (Some a) false = false.
Proof. exists (167772160, 8), (134217728, 6). vm_compute. repeat split; discriminate. Qed.
Print Assumptions C17_private_up_public_down_refuted.
(* "not private" is not "globally routable": 100.64.0.0/10 is neither, and is_public() says not public *)
Theorem C17_private_global_complement_refuted : exists n, wf W4 n /\ is_private4 n = false /\ is_global4 n = false /\
  is_public4 (Some n) false = false.
Proof. exists (1681915904, 10). vm_compute. repeat split; discriminate. Qed.
Print Assumptions C17_private_global_complement_refuted.

(* what "public" means, and the partition *)
(* is_public() on a CIDR = the range contains AT LEAST ONE address outside every reserved entry (0.0.0.0/0 included: the
   special case in the code, a workaround for bpo-38655, is subsumed).  So a range that contains public addresses IS reported public, and a range
   reported public does contain one -- it cannot be pieced together from several reserved entries *)
Theorem C17_public_iff_contains_public_address : forall n g, wf W4 n ->
  (is_public4 (Some n) g = true <-> exists x, in_net W4 x n /\ forall p, In p TABLE4 -> ~ in_net W4 x p).
Proof.
  intros n g Hn.
  rewrite <- (is_global4_iff_contains n Hn). unfold is_public4. cbn [is_public]. rewrite orb_true_iff. split; [|tauto].
  intros [Hz|Hg]; [|exact Hg]. apply net_eqb_eq in Hz. subst n. vm_compute. reflexivity.
Qed.
Print Assumptions C17_public_iff_contains_public_address.
Theorem C17_global_iff_contains_global_address : forall n, wf W4 n ->
  (is_global4 n = true <-> exists x, in_net W4 x n /\ forall p, In p TABLE4 -> ~ in_net W4 x p).
Proof. exact is_global4_iff_contains. Qed.
Print Assumptions C17_global_iff_contains_global_address.
(* for any table without adjacent entries (after_clean, a computable condition) *)
Theorem C17_global_has_global_address : forall SHARED PRIV, Forall (wf W4) (SHARED :: PRIV) -> forall n,
  after_clean SHARED PRIV = true -> wf W4 n -> is_global SHARED PRIV n = true ->
  exists x, in_net W4 x n /\ addr_global SHARED PRIV x = true.
Proof. exact is_global_has_global. Qed.
Print Assumptions C17_global_has_global_address.
Example C17_ex_after_clean : after_clean SHARED4 PRIVATE4 = true /\ wf W4 (134217728, 6) /\ is_global4 (134217728, 6) = true /\
  in_net W4 134217728 (134217728, 6) /\ addr_global4 134217728 = true.
Proof. vm_compute. repeat split; discriminate. Qed.

(* every network is exactly one of: inside one entry (not globally routable) / straddling = an entry lies wholly inside it
   and it reaches outside (globally routable) / disjoint from every entry (globally routable).  Any well-formed table *)
Theorem C17_partition : forall SHARED PRIV, Forall (wf W4) (SHARED :: PRIV) -> forall n, wf W4 n ->
  (Inside SHARED PRIV n /\ ~ Straddles SHARED PRIV n /\ ~ Disjoint SHARED PRIV n /\ is_global SHARED PRIV n = false) \/
  (~ Inside SHARED PRIV n /\ Straddles SHARED PRIV n /\ ~ Disjoint SHARED PRIV n /\ is_global SHARED PRIV n = true) \/
  (~ Inside SHARED PRIV n /\ ~ Straddles SHARED PRIV n /\ Disjoint SHARED PRIV n /\ is_global SHARED PRIV n = true).
Proof. exact partition. Qed.
Print Assumptions C17_partition.
(* the executable classifier decides the three classes *)
Theorem C17_classify : forall SHARED PRIV, Forall (wf W4) (SHARED :: PRIV) -> forall n, wf W4 n ->
  (classify SHARED PRIV n = CInside <-> Inside SHARED PRIV n) /\
  (classify SHARED PRIV n = CStraddle <-> Straddles SHARED PRIV n) /\
  (classify SHARED PRIV n = CDisjoint <-> Disjoint SHARED PRIV n).
Proof. exact (fun S P H n Hn => conj (classify_inside S P n) (conj (classify_straddle S P n) (classify_disjoint S P H n Hn))). Qed.
Print Assumptions C17_classify.
Example C17_ex_classes :        (* 10.0.0.0/8; 8.0.0.0/6 around it; 8.0.0.0/8 beside it; 0.0.0.0/0; 100.0.0.0/9 around the shared range *)
  classify4 (167772160, 8) = CInside /\ classify4 (134217728, 6) = CStraddle /\ classify4 (134217728, 8) = CDisjoint /\
  classify4 (0, 0) = CStraddle /\ classify4 (1677721600, 9) = CStraddle /\ is_public4 (Some (134217728, 6)) false = true.
Proof. vm_compute. repeat split. Qed.

(* boundaries of the table entries *)
(* every address of an entry is not globally routable; for an entry that is not nested in another one the verdict flips
   EXACTLY at its first and last address: first-1 and last+1 (when they exist) are globally routable *)
Theorem C17_boundaries : forall p, In p TABLE4 ->
  (forall x, fst p <= x < next_after p -> addr_global4 x = false) /\
  (outermost4 p = true -> 0 < fst p -> addr_global4 (fst p - 1) = true) /\
  (outermost4 p = true -> next_after p < 2 ^ 32 -> addr_global4 (next_after p) = true).
Proof. intros p. exact (boundaries SHARED4 PRIVATE4 p edges_clean4). Qed.
Print Assumptions C17_boundaries.
(* ... and in the prefix-length direction: around the first and around the last address of such an entry, the /l network is
   globally routable exactly when it is strictly wider than the entry (all 33 lengths) *)
Theorem C17_boundary_lengths : forall p l, In p TABLE4 -> outermost4 p = true -> l <= 32 ->
  is_global4 (mk_net W4 (fst p) l) = (l <? snd p) /\ is_global4 (mk_net W4 (next_after p - 1) l) = (l <? snd p).
Proof.
  intros p l Hp Ho Hl.
  split; apply (boundary_length SHARED4 PRIVATE4 TABLE4_wf p _ l Hp Ho); try exact Hl;
    [apply in_net_first | apply in_net_last].
Qed.
Print Assumptions C17_boundary_lengths.
(* the arithmetic behind it, any width, any address x of p *)
Theorem C17_inside_flips_at_prefix_length : forall W x l p, wf W p -> in_net W x p -> l <= W ->
  (subnet_of W (mk_net W x l) p = true <-> snd p <= l).
Proof. exact mk_net_inside_iff. Qed.
Print Assumptions C17_inside_flips_at_prefix_length.
Example C17_ex_boundaries :     (* 172.16.0.0/12: 172.15.255.255 and 172.32.0.0 are outside; /11 around it is public *)
  In (2886729728, 12) TABLE4 /\ outermost4 (2886729728, 12) = true /\ next_after (2886729728, 12) = 2887778304 /\
  addr_global4 2886729727 = true /\ addr_global4 2886729728 = false /\ addr_global4 2887778303 = false /\
  addr_global4 2887778304 = true /\ is_global4 (mk_net W4 2886729728 11) = true /\ is_global4 (mk_net W4 2886729728 12) = false.
Proof. split; [repeat first [left; reflexivity | right] | vm_compute; repeat split]. Qed.
(* exactly one entry is nested: 255.255.255.255/32 inside 240.0.0.0/4; there the law fails (255.255.255.254 is reserved) *)
Theorem C17_nested_entries : filter (fun p => negb (outermost4 p)) TABLE4 = [(4294967295, 32)].
Proof. vm_compute. reflexivity. Qed.
Print Assumptions C17_nested_entries.
Theorem C17_boundary_nested_refuted : exists p, In p TABLE4 /\ 0 < fst p /\ addr_global4 (fst p - 1) = false /\ outermost4 p = false.
Proof. exists (4294967295, 32). split; [repeat first [left; reflexivity | right] | vm_compute; repeat split]. Qed.
Print Assumptions C17_boundary_nested_refuted.

(* spellings *)
(* whatever host bits are written, with a prefix length or a netmask: the network of the written address is stored *)
Theorem C17_written_prefix : forall x l, x < 2 ^ 32 -> l <= 32 ->
  parse4 (print_addr4 x ++ SLASH :: print_small l) = Ok (mk_net W4 x l).
Proof. exact parse4_written. Qed.
Print Assumptions C17_written_prefix.
Theorem C17_written_netmask : forall x l, x < 2 ^ 32 -> l <= 32 ->
  parse4 (print_addr4 x ++ SLASH :: print_mask4 l) = Ok (mk_net W4 x l).
Proof. exact parse4_written_mask. Qed.
Print Assumptions C17_written_netmask.
(* two accepted texts that denote the same SET of addresses store the same value: no function of the stored value -- the
   present predicates or any future one -- can tell two spellings of a range apart *)
Theorem C17_spelling_blind : forall (A : Type) (P : net -> A) s1 s2 n1 n2, parse4 s1 = Ok n1 -> parse4 s2 = Ok n2 ->
  (forall x, in_net W4 x n1 <-> in_net W4 x n2) -> P n1 = P n2.
Proof. intros A P s1 s2 n1 n2 H1 H2 H. f_equal. apply (C17_network_is_its_set W4); [eapply parse4_wf; exact H1 | eapply parse4_wf; exact H2 | exact H]. Qed.
Print Assumptions C17_spelling_blind.
Theorem C17_spelling_blind6 : forall (A : Type) (P : net -> A) s1 s2 n1 n2, parse6 s1 = Ok n1 -> parse6 s2 = Ok n2 ->
  (forall x, in_net W6 x n1 <-> in_net W6 x n2) -> P n1 = P n2.
Proof. intros A P s1 s2 n1 n2 H1 H2 H. f_equal. apply (C17_network_is_its_set W6); [eapply parse6_wf; exact H1 | eapply parse6_wf; exact H2 | exact H]. Qed.
Print Assumptions C17_spelling_blind6.
Example C17_ex_spellings_10 :   (* 10.1.2.3/8 = 10.1.2.3/255.0.0.0 = 10.1.2.3/0.255.255.255 = 10.0.0.0/8, not public *)
  parse4 (T "10.1.2.3/8") = Ok (167772160, 8) /\ parse4 (T "10.1.2.3/255.0.0.0") = Ok (167772160, 8) /\
  parse4 (T "10.1.2.3/0.255.255.255") = Ok (167772160, 8) /\ parse4 (T "10.0.0.0/8") = Ok (167772160, 8) /\
  print_addr4 167838211 = T "10.1.2.3" /\ is_public4 (Some (167772160, 8)) false = false.
Proof. vm_compute. repeat split. Qed.

(* the two address families *)
(* no text is accepted by both fields *)
Theorem C17_v4_text_not_v6 : forall s n, parse4 s = Ok n -> parse6 s = Err EValue.
Proof. exact v4_text_not_v6. Qed.
Print Assumptions C17_v4_text_not_v6.
(* IPv4-mapped IPv6: "::ffff:a.b.c.d/(96+l)" is accepted by CidrIpv6 and stores the image of a.b.c.d/l ... *)
Theorem C17_mapped_parse : forall x l, x < 2 ^ 32 -> l <= 32 ->
  parse6 (MAPPED_PREFIX ++ print_addr4 x ++ SLASH :: print_small (96 + l)) = Ok (mapped6 (mk_net W4 x l)).
Proof.
  intros x l Hx Hl.
  rewrite app_assoc, (parse6_addr_len _ (mapped_addr x)); [f_equal; apply mk_net_mapped, Hl | | apply parse_addr6_mapped, Hx | lia].
  apply Forall_app. split; [unfold MAPPED_PREFIX; repeat (apply Forall_cons; [unfold addr_char, COLON; lia|]); apply Forall_nil|].
  eapply Forall_impl; [|exact (dotted_quad_chars _ _ (print_addr4_quad x Hx))]. unfold addr_char. tauto.
Qed.
Print Assumptions C17_mapped_parse.
Theorem C17_mapped_denotes : forall n x, in_net W6 (mapped_addr x) (mapped6 n) <-> in_net W4 x n.
Proof. intros n x. destruct n as [a l]. unfold mapped6, in_net. cbn [fst snd]. rewrite blk_mapped. unfold mapped_addr. lia. Qed.
Print Assumptions C17_mapped_denotes.
Theorem C17_mapped_wf : forall n, wf W4 n -> wf W6 (mapped6 n).
Proof.
  intros n.
  destruct n as [a l]. intros (Hl & Ha & Hm). unfold mapped6, wf. cbn [fst snd]. unfold W4, W6 in *. split; [lia|]. split.
  - unfold mapped_addr. change (2 ^ 32) with 4294967296 in *. change (2 ^ 128) with 340282366920938463463374607431768211456. lia.
  - rewrite blk_mapped. rewrite (mapped_addr_plus_blocks a l Hl). pose proof (blk_pos W4 l). rewrite N.mod_add by lia. exact Hm.
Qed.
Print Assumptions C17_mapped_wf.
(* ... and ipv6_slash_zero() never reports it: the whole IPv4 space written as ::ffff:0.0.0.0/96 is not "slash zero" (it is not
   the whole IPv6 space; the model has no other IPv6 predicate) *)
Theorem C17_mapped_never_slash_zero : forall n, slash_zero_field (Some (mapped6 n)) = false.
Proof.
  intros n.
  cbn [slash_zero_field]. rewrite net_eqb_zero. destruct n as [a l]. unfold mapped6, slash_zero. cbn [fst snd].
  replace (96 + l =? 0) with false by (symmetry; apply N.eqb_neq; lia). apply andb_false_r.
Qed.
Print Assumptions C17_mapped_never_slash_zero.
Theorem C17_mapped_whole_v4_space : 
  parse6 (MAPPED_PREFIX ++ print_addr4 0 ++ SLASH :: print_small 96) = Ok (mapped6 ZERO) /\
  slash_zero_field (Some (mapped6 ZERO)) = false /\ (forall x, x < 2 ^ 32 -> in_net W6 (mapped_addr x) (mapped6 ZERO)).
Proof.
  split; [exact (C17_mapped_parse 0 0 ltac:(reflexivity) ltac:(discriminate))|]. split; [apply C17_mapped_never_slash_zero|].
  intros x Hx. apply C17_mapped_denotes. unfold ZERO, in_net. rewrite (blk_full W4). unfold W4. lia.
Qed.
Print Assumptions C17_mapped_whole_v4_space.
Example C17_ex_mapped : MAPPED_PREFIX ++ print_addr4 0 ++ SLASH :: print_small 96 = T "::ffff:0.0.0.0/96" /\
  parse6 (T "::ffff:10.1.2.3/104") = Ok (mapped6 (167772160, 8)) /\ parse4 (T "::ffff:0.0.0.0/96") = Err EValue /\
  parse4 (T "10.0.0.0/8") = Ok (167772160, 8) /\ parse6 (T "10.0.0.0/8") = Err EValue.
Proof. vm_compute. repeat split. Qed.

(* rule level: complete decision tables *)
(* EC2 rules: each predicate reads its own CIDR field; source group and prefix list are never consulted *)
Theorem C17_ec2_rule_table : forall c4 c6 g pl,
  let r := {| r_cidr4 := c4; r_cidr6 := c6; r_group := g; r_prefix_list := pl |} in
  (rule_v4_zero r, rule_v6_zero r) =
  match c4, c6 with
  | None, None => (false, false)
  | Some n, None => (net_eqb n ZERO, false)
  | None, Some m => (false, net_eqb m ZERO)
  | Some n, Some m => (net_eqb n ZERO, net_eqb m ZERO)
  end.
Proof. intros c4 c6 g pl. destruct c4, c6; reflexivity. Qed.
Print Assumptions C17_ec2_rule_table.
Theorem C17_ec2_rule_semantics : forall r,
  (forall n, r_cidr4 r = Some n -> wf W4 n) -> (forall n, r_cidr6 r = Some n -> wf W6 n) ->
  (rule_v4_zero r = true <-> exists n, r_cidr4 r = Some n /\ forall x, x < 2 ^ 32 -> in_net W4 x n) /\
  (rule_v6_zero r = true <-> exists n, r_cidr6 r = Some n /\ forall x, x < 2 ^ 128 -> in_net W6 x n).
Proof. intros r H4 H6. exact (conj (slash_zero_field_sem W4 _ H4) (slash_zero_field_sem W6 _ H6)). Qed.
Print Assumptions C17_ec2_rule_semantics.
(* RDS rules: with a CIDR the source groups are not consulted; without one, public iff no source group is named *)
Theorem C17_rds_rule_table : forall SH PR c gname gid,
  is_public_rule SH PR c gname gid =
  match c with
  | Some n => net_eqb n ZERO || is_global SH PR n
  | None => negb (truthy gname || truthy gid)
  end.
Proof. exact rds_rule_table. Qed.
Print Assumptions C17_rds_rule_table.
Theorem C17_rds_group_never_opens : forall SH PR c gname gid,
  is_public_rule SH PR c gname gid = true -> is_public_rule SH PR c None None = true.
Proof. intros SH PR c gname gid. rewrite !rds_rule_table. destruct c; [tauto | reflexivity]. Qed.
Print Assumptions C17_rds_group_never_opens.
Example C17_ex_rds_rules :      (* group only; nothing; 8.8.8.8 + group; 10.0.0.0/8 + group; empty group name *)
  is_public_rule SHARED4 PRIVATE4 None (Some (T "g")) None = false /\ is_public_rule SHARED4 PRIVATE4 None None None = true /\
  is_public_rule SHARED4 PRIVATE4 (Some (134744072, 32)) None (Some (T "sg-1")) = true /\
  is_public_rule SHARED4 PRIVATE4 (Some (167772160, 8)) None (Some (T "sg-1")) = false /\
  is_public_rule SHARED4 PRIVATE4 None (Some (T "")) None = true.
Proof. vm_compute. repeat split. Qed.
(* two laws a reader might expect and that fail: a rule with neither CIDR nor group is public, yet ADDING 10.0.0.0/8 to it
   makes it not public; two rules that together cover the whole space (0.0.0.0/1, 128.0.0.0/1) are neither "slash zero" *)
Theorem C17_rds_absent_cidr_not_monotone_refuted : exists n, wf W4 n /\
  is_public_rule SHARED4 PRIVATE4 None None None = true /\ is_public_rule SHARED4 PRIVATE4 (Some n) None None = false.
Proof. exists (167772160, 8). split; [apply wfb_wf; vm_compute; reflexivity|]. split; vm_compute; reflexivity. Qed.
Print Assumptions C17_rds_absent_cidr_not_monotone_refuted.
Theorem C17_cover_not_additive_refuted : exists a b, wf W4 a /\ wf W4 b /\
  (forall x, x < 2 ^ 32 -> in_net W4 x a \/ in_net W4 x b) /\
  slash_zero_field (Some a) = false /\ slash_zero_field (Some b) = false.
Proof.
  exists (0, 1), (2147483648, 1). split; [apply wfb_wf; vm_compute; reflexivity|]. split; [apply wfb_wf; vm_compute; reflexivity|].
  split; [|split; reflexivity]. intros x Hx. unfold in_net. change (blk W4 1) with 2147483648. change (2 ^ 32) with 4294967296 in Hx. lia.
Qed.
Print Assumptions C17_cover_not_additive_refuted.
