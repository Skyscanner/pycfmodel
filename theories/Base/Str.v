(* Strings are sequences of code points; everything pycfmodel does with text is modelled on [list N]. *)
From Coq Require Import List Bool NArith ZArith Lia Ascii String.
Import ListNotations.
Local Open Scope N_scope.

Definition str := list N.

Fixpoint str_eqb (a b : str) : bool :=
  match a, b with
  | [], [] => true
  | x :: a', y :: b' => N.eqb x y && str_eqb a' b'
  | _, _ => false
  end.

Lemma str_eqb_spec a b : str_eqb a b = true <-> a = b.
Proof.
  revert b; induction a as [|x a IH]; destruct b as [|y b]; simpl; try (split; congruence).
  rewrite andb_true_iff, N.eqb_eq, IH.
  split; [intros [-> ->]; reflexivity | intros H; inversion H; auto].
Qed.
Lemma str_eqb_refl a : str_eqb a a = true.
Proof. apply str_eqb_spec; reflexivity. Qed.
Lemma str_eqb_neq a b : str_eqb a b = false <-> a <> b.
Proof. rewrite <- str_eqb_spec. symmetry. apply not_true_iff_false. Qed.
Lemma str_eqb_sym a b : str_eqb a b = str_eqb b a.
Proof. apply eq_true_iff_eq. rewrite !str_eqb_spec. split; congruence. Qed.
Lemma str_eq_dec (a b : str) : {a = b} + {a <> b}.
Proof. apply list_eq_dec, N.eq_dec. Qed.

(* Python's ordering of str: lexicographic by code point. *)
Fixpoint str_ltb (a b : str) : bool :=
  match a, b with
  | [], [] => false
  | [], _ :: _ => true
  | _ :: _, [] => false
  | x :: a', y :: b' => match x ?= y with Lt => true | Eq => str_ltb a' b' | Gt => false end
  end.
Definition str_lt (a b : str) : Prop := str_ltb a b = true.

Lemma str_ltb_irrefl a : str_ltb a a = false.
Proof. induction a as [|x a IH]; simpl; [reflexivity|]. rewrite N.compare_refl. exact IH. Qed.
Lemma str_ltb_trans a : forall b c, str_ltb a b = true -> str_ltb b c = true -> str_ltb a c = true.
Proof.
  induction a as [|x a IH]; intros [|y b] [|z c]; simpl; try congruence.
  destruct (N.compare_spec x y) as [Exy|Exy|Exy]; destruct (N.compare_spec y z) as [Eyz|Eyz|Eyz];
    intros H1 H2; try discriminate; subst.
  - rewrite N.compare_refl. eapply IH; eauto.
  - apply N.compare_lt_iff in Eyz. rewrite Eyz. reflexivity.
  - apply N.compare_lt_iff in Exy. rewrite Exy. reflexivity.
  - assert (x < z) as L by lia. apply N.compare_lt_iff in L. rewrite L. reflexivity.
Qed.
Lemma str_ltb_total a : forall b, str_ltb a b = false -> str_ltb b a = false -> a = b.
Proof.
  induction a as [|x a IH]; intros [|y b]; simpl; try congruence.
  rewrite (N.compare_antisym x y).
  destruct (N.compare_spec x y) as [E|E|E]; simpl; try discriminate.
  - subst. intros H1 H2. f_equal. apply IH; assumption.
Qed.
Lemma str_ltb_asym a b : str_ltb a b = true -> str_ltb b a = false.
Proof.
  intros H. destruct (str_ltb b a) eqn:E; [|reflexivity].
  pose proof (str_ltb_trans _ _ _ H E) as C. rewrite str_ltb_irrefl in C. discriminate.
Qed.
Lemma str_lt_trans a b c : str_lt a b -> str_lt b c -> str_lt a c.
Proof. apply str_ltb_trans. Qed.
Lemma str_lt_irrefl a : ~ str_lt a a.
Proof. unfold str_lt. rewrite str_ltb_irrefl. discriminate. Qed.
Lemma str_lt_asym a b : str_lt a b -> str_lt b a -> False.
Proof. intros H1 H2. exact (str_lt_irrefl a (str_lt_trans a b a H1 H2)). Qed.

(* Literals: Coq [string] (bytes) to code points.  Only used for ASCII constants and generated tables
   (non-ASCII table entries are emitted as explicit code-point lists by the translator). *)
Fixpoint of_string (s : string) : str :=
  match s with
  | EmptyString => []
  | String c s' => N_of_ascii c :: of_string s'
  end.

Fixpoint join (d : str) (l : list str) : str :=
  match l with
  | [] => []
  | [x] => x
  | x :: xs => x ++ d ++ join d xs
  end.
Lemma join_cons2 d p q ps : join d (p :: q :: ps) = p ++ d ++ join d (q :: ps).
Proof. reflexivity. Qed.

Fixpoint starts_with (p s : str) : bool :=
  match p, s with
  | [], _ => true
  | x :: p', y :: s' => N.eqb x y && starts_with p' s'
  | _ :: _, [] => false
  end.
Lemma starts_with_spec p s : starts_with p s = true <-> exists r, s = p ++ r.
Proof.
  revert s; induction p as [|x p IH]; intros s; simpl.
  - split; [intros _; exists s; reflexivity | reflexivity].
  - destruct s as [|y s]; [split; [discriminate | intros [r H]; discriminate]|].
    rewrite andb_true_iff, N.eqb_eq, IH. split.
    + intros [-> [r ->]]. exists r. reflexivity.
    + intros [r H]. inversion H; subst. split; [reflexivity | exists r; reflexivity].
Qed.

(* split s on a non-empty delimiter, Python's str.split(d). *)
Fixpoint split_go (fuel : nat) (d : str) (cur : str) (s : str) : list str :=
  match fuel with
  | O => [rev cur ++ s]
  | S f =>
      match s with
      | [] => [rev cur]
      | c :: s' =>
          if starts_with d s then rev cur :: split_go f d [] (skipn (List.length d) s)
          else split_go f d (c :: cur) s'
      end
  end.
Definition split (d s : str) : list str := split_go (S (List.length s)) d [] s.

(* ASCII case mapping (Python str.lower()/upper() restricted to ASCII; the harness keeps non-ASCII
   cased letters out of positions where the implementation lower-cases, and says so). *)
Definition lower_cp (c : N) : N := if (65 <=? c) && (c <=? 90) then c + 32 else c.
Definition upper_cp (c : N) : N := if (97 <=? c) && (c <=? 122) then c - 32 else c.
Definition lower (s : str) : str := map lower_cp s.
Lemma lower_cp_idem c : lower_cp (lower_cp c) = lower_cp c.
Proof.
  unfold lower_cp. destruct ((65 <=? c) && (c <=? 90)) eqn:E; [|rewrite E; reflexivity].
  apply andb_true_iff in E. destruct E as [E1 E2]. apply N.leb_le in E1. apply N.leb_le in E2.
  replace (65 <=? c + 32) with true by (symmetry; apply N.leb_le; lia).
  replace (c + 32 <=? 90) with false by (symmetry; apply N.leb_gt; lia). reflexivity.
Qed.
Lemma lower_idem s : lower (lower s) = lower s.
Proof. unfold lower. rewrite map_map. apply map_ext. apply lower_cp_idem. Qed.
(* case folding leaves every code point below 'A' alone and maps nothing onto one *)
Lemma lower_cp_eqb c w : w < 65 -> N.eqb (lower_cp c) w = N.eqb c w.
Proof.
  intros Hw. unfold lower_cp. destruct ((65 <=? c) && (c <=? 90)) eqn:E; [|reflexivity].
  apply andb_true_iff in E. destruct E as [E1 E2]. apply N.leb_le in E1. apply N.leb_le in E2.
  rewrite (proj2 (N.eqb_neq (c + 32) w)), (proj2 (N.eqb_neq c w)) by lia. reflexivity.
Qed.
Lemma lower_cp_low c : c < 65 -> lower_cp c = c.
Proof. intros H. apply N.eqb_eq. rewrite (lower_cp_eqb c c H). apply N.eqb_refl. Qed.
Lemma lower_cp_upper T : 65 <= T <= 90 -> lower_cp T = T + 32.
Proof. intros HT. unfold lower_cp. rewrite (proj2 (andb_true_iff _ _)); [reflexivity | split; apply N.leb_le; lia]. Qed.
Lemma upper_lower_cp T c : 65 <= T <= 90 -> (upper_cp c = T <-> lower_cp c = lower_cp T).
Proof.
  intros HT. rewrite (lower_cp_upper T HT). unfold upper_cp, lower_cp.
  (* c is a lower-case letter, an upper-case letter (never both) or neither *)
  destruct ((97 <=? c) && (c <=? 122)) eqn:E1, ((65 <=? c) && (c <=? 90)) eqn:E2;
    rewrite ?andb_true_iff, ?andb_false_iff, ?N.leb_le, ?N.leb_gt in E1, E2; lia.
Qed.

(* decimal rendering of integers, Python's str(int) *)
Fixpoint digits_pos_go (fuel : nat) (n : N) (acc : str) : str :=
  match fuel with
  | O => acc
  | S f => let acc' := (48 + n mod 10) :: acc in
           if n / 10 =? 0 then acc' else digits_pos_go f (n / 10) acc'
  end.
Definition digits_N (n : N) : str := digits_pos_go (S (N.to_nat (N.log2 n))) n [].
Lemma digits_pos_go_step f n acc : digits_pos_go (S f) n acc =
  if n <? 10 then (48 + n) :: acc else digits_pos_go f (n / 10) ((48 + n mod 10) :: acc).
Proof.
  cbn [digits_pos_go]. cbv zeta. destruct (N.ltb_spec n 10) as [L|L].
  - rewrite N.div_small, N.mod_small by exact L. reflexivity.
  - destruct (N.eqb_spec (n / 10) 0) as [E|E]; [|reflexivity]. apply N.div_small_iff in E; lia.
Qed.
Lemma digits_pos_go_head f : forall n acc, exists c rest, digits_pos_go (S f) n acc = c :: rest /\ 48 <= c <= 57.
Proof.
  induction f as [|f IH]; intros n acc; rewrite digits_pos_go_step; destruct (N.ltb_spec n 10) as [L|L].
  1, 3: exists (48 + n), acc; split; [reflexivity | lia].
  - exists (48 + n mod 10), acc. split; [reflexivity|].
    pose proof (N.mod_lt n 10 ltac:(discriminate)) as H. revert H. generalize (n mod 10). lia.
  - apply IH.
Qed.
Lemma digits_N_head n : exists c rest, digits_N n = c :: rest /\ 48 <= c <= 57.
Proof. apply digits_pos_go_head. Qed.
Definition str_of_Z (z : Z) : str :=
  match z with
  | Z0 => [48]
  | Zpos p => digits_N (Npos p)
  | Zneg p => 45 :: digits_N (Npos p)
  end.
