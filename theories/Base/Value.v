(* JSON-like values shared by every model: what json.load gives pycfmodel plus the typed atoms that
   model_dump() produces (dates, datetimes, IP networks, floats carried with their Python str() text; bytes).
   Beside the type [value], with its induction principles [value_ind'] (over immediate members) and [value_size_ind]
   (over [vsize]), the file holds what every model shares about it: association lists ([lookup], [keys], [mem_str]
   and their facts under append, filter, permutation and unique keys), the error monad [res] with [bind], its
   notation and the tactic [bind_inv], and Python's == on plain data, [veqb]. *)
From Coq Require Import List Bool NArith ZArith Lia Wf_nat Permutation.
From PV Require Import Base.Str Base.ListFacts.
Import ListNotations.

Inductive tkind := KFloat | KDate | KDatetime | KNet4 | KNet6.
Definition tkind_eqb (a b : tkind) : bool :=
  match a, b with
  | KFloat, KFloat | KDate, KDate | KDatetime, KDatetime | KNet4, KNet4 | KNet6, KNet6 => true
  | _, _ => false
  end.

Inductive value :=
| VNull
| VBool (b : bool)
| VInt (z : Z)
| VStr (s : str)
| VTyped (k : tkind) (text : str)
| VBytes (bs : list N)
| VList (l : list value)
| VDict (d : list (str * value)).

Section ValueInd.
  Variable P : value -> Prop.
  Hypothesis Hnull : P VNull.
  Hypothesis Hbool : forall b, P (VBool b).
  Hypothesis Hint : forall z, P (VInt z).
  Hypothesis Hstr : forall s, P (VStr s).
  Hypothesis Htyped : forall k t, P (VTyped k t).
  Hypothesis Hbytes : forall b, P (VBytes b).
  Hypothesis Hlist : forall l, Forall P l -> P (VList l).
  Hypothesis Hdict : forall d, Forall (fun kv => P (snd kv)) d -> P (VDict d).
  Fixpoint value_ind' (v : value) : P v :=
    match v with
    | VNull => Hnull | VBool b => Hbool b | VInt z => Hint z | VStr s => Hstr s
    | VTyped k t => Htyped k t | VBytes b => Hbytes b
    | VList l => Hlist l ((fix go (l : list value) : Forall P l :=
        match l with [] => Forall_nil _ | x :: xs => Forall_cons _ (value_ind' x) (go xs) end) l)
    | VDict d => Hdict d ((fix go (d : list (str * value)) : Forall (fun kv => P (snd kv)) d :=
        match d with [] => Forall_nil _ | (k, x) :: xs => Forall_cons (k, x) (value_ind' x) (go xs) end) d)
    end.
End ValueInd.

Fixpoint vsize (v : value) : nat :=
  match v with
  | VList l => S (fold_right (fun x acc => vsize x + acc) 0 l)
  | VDict d => S (fold_right (fun kv acc => vsize (snd kv) + acc) 0 d)
  | _ => 1
  end.
Lemma vsize_pos v : 0 < vsize v.
Proof. destruct v; simpl; lia. Qed.
Lemma vsize_in_list x l : In x l -> vsize x < vsize (VList l).
Proof.
  induction l as [|y l IH]; simpl; [tauto|]. intros [->|H]; [lia|]. specialize (IH H). simpl in IH. lia.
Qed.
Lemma vsize_in_dict k x d : In (k, x) d -> vsize x < vsize (VDict d).
Proof.
  induction d as [|[k' y] d IH]; simpl; [tauto|].
  intros [H|H]; [inversion H; subst; lia|]. specialize (IH H). simpl in IH. lia.
Qed.
Lemma vsize_list l : vsize (VList l) = S (list_sum (map vsize l)).
Proof. cbn [vsize]. f_equal. induction l as [|x l IH]; simpl; [reflexivity | rewrite IH; reflexivity]. Qed.
Lemma vsize_dict d : vsize (VDict d) = S (list_sum (map (fun kv => vsize (snd kv)) d)).
Proof. cbn [vsize]. f_equal. induction d as [|x d IH]; simpl; [reflexivity | rewrite IH; reflexivity]. Qed.
(* for arguments that reach below the immediate members, where [value_ind'] does not *)
Lemma value_size_ind (P : value -> Prop) : (forall v, (forall w, vsize w < vsize v -> P w) -> P v) -> forall v, P v.
Proof. exact (induction_ltof1 value vsize P). Qed.

(* invert H, substitute the equations it yields, forget H *)
Ltac inv H := inversion H; subst; clear H.

Fixpoint lookup {A} (k : str) (d : list (str * A)) : option A :=
  match d with
  | [] => None
  | (k', v) :: d' => if str_eqb k k' then Some v else lookup k d'
  end.
Definition keys {A} (d : list (str * A)) : list str := map fst d.
Definition mem_str (k : str) (l : list str) : bool := existsb (str_eqb k) l.
Lemma mem_str_In k l : mem_str k l = true <-> In k l.
Proof.
  unfold mem_str. rewrite existsb_exists. split.
  - intros (x & Hx & He). apply str_eqb_spec in He. subst. exact Hx.
  - intros H. exists k. split; [exact H | apply str_eqb_refl].
Qed.
Lemma lookup_In {A} k (d : list (str * A)) v : lookup k d = Some v -> In (k, v) d.
Proof.
  induction d as [|[k' v'] d IH]; simpl; [discriminate|].
  destruct (str_eqb k k') eqn:E.
  - apply str_eqb_spec in E; subst. intros H; inversion H; subst. left; reflexivity.
  - intros H. right. apply IH. exact H.
Qed.
Lemma lookup_None {A} k (d : list (str * A)) : lookup k d = None <-> ~ In k (keys d).
Proof.
  induction d as [|[k' v'] d IH]; simpl; [tauto|].
  destruct (str_eqb k k') eqn:E.
  - apply str_eqb_spec in E; subst. split; [discriminate | intros H; exfalso; apply H; left; reflexivity].
  - apply str_eqb_neq in E. rewrite IH. split; [intros H [C|C]; [congruence | tauto] | tauto].
Qed.
Lemma lookup_forallb {A} (P : A -> bool) k (d : list (str * A)) x :
  forallb (fun kv => P (snd kv)) d = true -> lookup k d = Some x -> P x = true.
Proof. intros H L. exact (proj1 (forallb_forall _ d) H (k, x) (lookup_In k d x L)). Qed.
Lemma keys_length {A} (d : list (str * A)) : length (keys d) = length d.
Proof. apply map_length. Qed.
Lemma In_keys {A} k (v : A) d : In (k, v) d -> In k (keys d).
Proof. exact (in_map fst d (k, v)). Qed.
Lemma lookup_Some_In_keys {A} k (d : list (str * A)) v : lookup k d = Some v -> In k (keys d).
Proof. intros H. exact (In_keys k v d (lookup_In k d v H)). Qed.
Lemma mem_keys {A} k (d : list (str * A)) : mem_str k (keys d) = match lookup k d with Some _ => true | None => false end.
Proof. induction d as [|[k' v] d IH]; simpl; [reflexivity|]. destruct (str_eqb k k'); [reflexivity | exact IH]. Qed.
Lemma lookup_Some_mem_keys {A} k (d : list (str * A)) v : lookup k d = Some v -> mem_str k (keys d) = true.
Proof. intros H. rewrite mem_keys, H. reflexivity. Qed.
Lemma lookup_NoDup_In {A} k (v : A) d : NoDup (keys d) -> In (k, v) d -> lookup k d = Some v.
Proof.
  induction d as [|[k' v'] d IH]; intros Hn Hin; [destruct Hin|]. inv Hn. simpl. destruct Hin as [E|Hin].
  - inv E. rewrite str_eqb_refl. reflexivity.
  - destruct (str_eqb k k') eqn:E; [|exact (IH H2 Hin)]. apply str_eqb_spec in E. subst k'. destruct (H1 (In_keys k v d Hin)).
Qed.
Lemma lookup_app {A} k (a b : list (str * A)) :
  lookup k (a ++ b) = match lookup k a with Some v => Some v | None => lookup k b end.
Proof. induction a as [|[k' v] a IH]; simpl; [reflexivity|]. destruct (str_eqb k k'); [reflexivity | exact IH]. Qed.
Lemma lookup_map_values {A B} (g : str -> A -> B) k d :
  lookup k (map (fun kv => (fst kv, g (fst kv) (snd kv))) d) = option_map (g k) (lookup k d).
Proof.
  induction d as [|[k' x] r IH]; [reflexivity|]. cbn [map fst snd lookup].
  destruct (str_eqb k k') eqn:E; [|exact IH]. apply str_eqb_spec in E. subst. reflexivity.
Qed.
Lemma keys_map_values {A B} (g : str * A -> B) d : keys (map (fun kv => (fst kv, g kv)) d) = keys d.
Proof. unfold keys. rewrite map_map. reflexivity. Qed.
Lemma lookup_filter_keys {A} k (l : list (str * A)) (f : str -> bool) :
  lookup k (filter (fun kv => f (fst kv)) l) = if f k then lookup k l else None.
Proof.
  induction l as [|[k' v] l IH]; simpl; [destruct (f k); reflexivity|].
  destruct (f k') eqn:Ef; simpl.
  - destruct (str_eqb k k') eqn:E; [apply str_eqb_spec in E; subst; rewrite Ef; reflexivity | exact IH].
  - destruct (str_eqb k k') eqn:E; [apply str_eqb_spec in E; subst; rewrite Ef in *; rewrite IH; reflexivity | exact IH].
Qed.
Lemma NoDup_keys_Permutation {A} (d d' : list (str * A)) : Permutation d d' -> NoDup (keys d) -> NoDup (keys d').
Proof. intros Hp. apply Permutation_NoDup. apply Permutation_map. exact Hp. Qed.
(* with unique keys, a dict read through [lookup] is a set of pairs *)
Lemma lookup_Permutation {A} k (d d' : list (str * A)) : NoDup (keys d) -> Permutation d d' -> lookup k d = lookup k d'.
Proof.
  intros Hn Hp. pose proof (NoDup_keys_Permutation d d' Hp Hn) as Hn'.
  destruct (lookup k d) as [v|] eqn:E.
  - symmetry. apply lookup_NoDup_In; [exact Hn'|]. apply (Permutation_in _ Hp). apply lookup_In. exact E.
  - symmetry. apply lookup_None. apply lookup_None in E. intros C. apply E.
    apply (Permutation_in _ (Permutation_sym (Permutation_map fst Hp))). exact C.
Qed.

Lemma mem_str_filter x (f : str -> bool) l : mem_str x (filter f l) = mem_str x l && f x.
Proof.
  unfold mem_str. induction l as [|y l IH]; simpl; [reflexivity|].
  destruct (f y) eqn:Ey; simpl; rewrite IH; destruct (str_eqb x y) eqn:E; simpl; try reflexivity.
  - apply str_eqb_spec in E. subst y. rewrite Ey. reflexivity.
  - apply str_eqb_spec in E. subst y. rewrite Ey. apply andb_false_r.
Qed.
(* removing a name that occurs, as [Template.remove_str] and [Memo.remove_name] do, shortens the list *)
Lemma remove_length n l : mem_str n l = true -> length (filter (fun x => negb (str_eqb n x)) l) < length l.
Proof.
  unfold mem_str. induction l as [|y l IH]; simpl; [discriminate|].
  destruct (str_eqb n y) eqn:E; simpl.
  - intros _. pose proof (filter_length_le (fun x => negb (str_eqb n x)) l). lia.
  - intros H. specialize (IH H). lia.
Qed.
(* any function with the two equations of the duplicate test (there are several, one per model) decides [NoDup] *)
Lemma nodupb_NoDup (nodupb : list str -> bool) :
  nodupb [] = true -> (forall x r, nodupb (x :: r) = negb (mem_str x r) && nodupb r) ->
  forall l, nodupb l = true <-> NoDup l.
Proof.
  intros Hnil Hcons. induction l as [|x r IH]; [split; [constructor | intros _; exact Hnil]|].
  rewrite Hcons, andb_true_iff, negb_true_iff, IH. split.
  - intros [H1 H2]. constructor; [|exact H2]. intros C. apply mem_str_In in C. congruence.
  - intros H. inv H. split; [|assumption]. destruct (mem_str x r) eqn:E; [|reflexivity]. apply mem_str_In in E. contradiction.
Qed.

(* Python exceptions are explicit.  EUndefined: the model declines to speak (ill-typed input whose
   behaviour in the code is an artefact); such cases are never compared and are counted. *)
Inductive err := EValue | EType | EAttr | EIndex | EKey | EValidation | ERecursion | EUndefined.
Inductive res (A : Type) := Ok (a : A) | Err (e : err).
Arguments Ok {A}. Arguments Err {A}.
Definition bind {A B} (r : res A) (f : A -> res B) : res B :=
  match r with Ok a => f a | Err e => Err e end.
Notation "x <- r ;; k" := (bind r (fun x => k)) (at level 61, r at next level, right associativity).
Definition is_ok {A} (r : res A) : bool := match r with Ok _ => true | Err _ => false end.

(* every hypothesis [x <- r ;; k = Ok _]: r must be some [Ok a] (equation E..), and the hypothesis becomes [k a = Ok _] *)
Ltac bind_inv :=
  repeat match goal with
  | H : bind ?r _ = Ok _ |- _ =>
      let E := fresh "E" in destruct r eqn:E; cbn [bind] in H; [|discriminate]
  end.

(* Python == on plain data: dict equality ignores key order. [veqb] is that equality on values
   whose dicts have unique keys (json.load guarantees it). *)
Fixpoint veqb (a b : value) {struct a} : bool :=
  match a, b with
  | VNull, VNull => true
  | VBool x, VBool y => Bool.eqb x y
  | VInt x, VInt y => Z.eqb x y
  | VStr x, VStr y => str_eqb x y
  | VTyped k x, VTyped k' y => tkind_eqb k k' && str_eqb x y
  | VBytes x, VBytes y => str_eqb x y
  | VList la, VList lb =>
      (fix go (la lb : list value) : bool :=
         match la, lb with
         | [], [] => true
         | x :: xs, y :: ys => veqb x y && go xs ys
         | _, _ => false
         end) la lb
  | VDict da, VDict db =>
      Nat.eqb (length da) (length db) &&
      (fix go (da : list (str * value)) : bool :=
         match da with
         | [] => true
         | (k, x) :: xs => match lookup k db with Some y => veqb x y | None => false end && go xs
         end) da
  | _, _ => false
  end.

(* order-sensitive structural equality (used only to compare runner output with kernel evaluation) *)
Fixpoint vstrict_eqb (a b : value) {struct a} : bool :=
  match a, b with
  | VNull, VNull => true
  | VBool x, VBool y => Bool.eqb x y
  | VInt x, VInt y => Z.eqb x y
  | VStr x, VStr y => str_eqb x y
  | VTyped k x, VTyped k' y => tkind_eqb k k' && str_eqb x y
  | VBytes x, VBytes y => str_eqb x y
  | VList la, VList lb =>
      (fix go (la lb : list value) : bool :=
         match la, lb with
         | [], [] => true
         | x :: xs, y :: ys => vstrict_eqb x y && go xs ys
         | _, _ => false
         end) la lb
  | VDict da, VDict db =>
      (fix go (da db : list (str * value)) : bool :=
         match da, db with
         | [], [] => true
         | (k, x) :: xs, (k', y) :: ys => str_eqb k k' && vstrict_eqb x y && go xs ys
         | _, _ => false
         end) da db
  | _, _ => false
  end.
