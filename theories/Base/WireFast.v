(* Encoder with an accumulator: the same token list as [Wire.enc], but the recursion depth in extracted code is
   (nesting depth x longest list), not the total size of the output -- a tree that holds an 18 000-entry action list
   three levels deep does not overflow the runner's stack ([enc] appends the whole encoding of each member). *)
From Coq Require Import List Bool NArith ZArith.
From PV Require Import Base.Str Base.Value Base.Wire.
Import ListNotations.
Local Open Scope N_scope.

Fixpoint enc_to (v : value) (acc : list N) : list N :=
  match v with
  | VList l =>
      6 :: N.of_nat (length l) ::
        (fix go (l : list value) : list N := match l with [] => acc | x :: r => enc_to x (go r) end) l
  | VDict d =>
      7 :: N.of_nat (length d) ::
        (fix go (d : list (str * value)) : list N :=
           match d with
           | [] => acc
           | (k, x) :: r => N.of_nat (length k) :: k ++ enc_to x (go r)
           end) d
  | _ => enc v ++ acc
  end.

Lemma enc_to_ok v : forall acc, enc_to v acc = enc v ++ acc.
Proof.
  induction v as [| | | | | |l IH|d IH] using value_ind'; intros acc; try reflexivity.
  - cbn [enc_to enc app]. do 2 f_equal.
    induction IH as [|x r Hx Hr IHr]; [reflexivity|]. cbn [flat_map]. rewrite Hx, IHr, app_assoc. reflexivity.
  - cbn [enc_to enc app]. do 2 f_equal.
    induction IH as [|[k x] r Hx Hr IHr]; [reflexivity|]. cbn [flat_map fst snd] in *.
    rewrite Hx, IHr. cbn [app]. f_equal. rewrite <- !app_assoc. reflexivity.
Qed.

Definition enc_fast (v : value) : list N := enc_to v [].
Theorem enc_fast_ok v : enc_fast v = enc v.
Proof. unfold enc_fast. rewrite enc_to_ok. apply app_nil_r. Qed.
