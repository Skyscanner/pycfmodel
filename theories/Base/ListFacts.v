(* Facts about lists that Coq 8.16's List library does not have; where a later release states one, it has that name. *)
From Coq Require Import List Bool Arith Lia Permutation Sorted.
Import ListNotations.

(* Forall2 *)
Lemma Forall2_length {A B} (R : A -> B -> Prop) l l' : Forall2 R l l' -> length l = length l'.
Proof. induction 1; simpl; congruence. Qed.
Lemma Forall2_In_l {A B} (R : A -> B -> Prop) l l' x : Forall2 R l l' -> In x l -> exists y, In y l' /\ R x y.
Proof.
  induction 1 as [|a b l l' H _ IH]; [intros [] | intros [->|Hin]]; [exists b; split; [left; reflexivity | exact H]|].
  destruct (IH Hin) as (y & Hy & Hr). exists y. split; [right; exact Hy | exact Hr].
Qed.
Lemma Forall2_In_r {A B} (R : A -> B -> Prop) l l' y : Forall2 R l l' -> In y l' -> exists x, In x l /\ R x y.
Proof.
  induction 1 as [|a b l l' H _ IH]; [intros [] | intros [->|Hin]]; [exists a; split; [left; reflexivity | exact H]|].
  destruct (IH Hin) as (x & Hx & Hr). exists x. split; [right; exact Hx | exact Hr].
Qed.
Lemma Forall2_impl_In {A B} (R S : A -> B -> Prop) l l' :
  (forall a b, In a l -> In b l' -> R a b -> S a b) -> Forall2 R l l' -> Forall2 S l l'.
Proof.
  intros H F. induction F as [|a b l l' Hab _ IH]; constructor.
  - apply H; [left; reflexivity | left; reflexivity | exact Hab].
  - apply IH. intros x y Hx Hy. apply H; right; assumption.
Qed.
Lemma Forall2_maps {A B C} (R : B -> C -> Prop) (f : A -> B) (g : A -> C) l :
  Forall (fun x => R (f x) (g x)) l -> Forall2 R (map f l) (map g l).
Proof. induction 1; cbn [map]; constructor; assumption. Qed.
(* pointwise facts about one list give facts about the images of two related lists *)
Lemma map_eq_Forall2 {A B C} (R : A -> B -> Prop) (f : A -> C) (g : B -> C) l l' :
  Forall2 R l l' -> Forall (fun x => forall y, R x y -> f x = g y) l -> map f l = map g l'.
Proof.
  induction 1 as [|x y l l' Hxy _ IH]; intros H; [reflexivity|]. inversion H; subst. cbn [map]. f_equal; auto.
Qed.
Lemma Forall2_same {A} (R : A -> A -> Prop) l : (forall x, R x x) -> Forall2 R l l.
Proof. intros H. induction l; constructor; [apply H | assumption]. Qed.

(* Forall; equal options *)
Lemma Forall_notin {A} (P : A -> Prop) l x : Forall P l -> ~ P x -> ~ In x l.
Proof. intros F N Hin. rewrite Forall_forall in F. exact (N (F x Hin)). Qed.
Lemma Forall_ends {A} (P : A -> Prop) hi mid lo : Forall P (hi ++ mid ++ lo) -> Forall P hi /\ Forall P lo.
Proof. rewrite !Forall_app. tauto. Qed.
Lemma some_inj {A} (a b : A) : Some a = Some b -> a = b.
Proof. congruence. Qed.

(* forallb, existsb *)
Lemma forallb_map {A B} (f : B -> bool) (g : A -> B) l : forallb f (map g l) = forallb (fun x => f (g x)) l.
Proof. induction l as [|x l IH]; simpl; [reflexivity | rewrite IH; reflexivity]. Qed.
Lemma forallb_Forall2 {A B} (f : A -> bool) (g : B -> bool) l l' :
  Forall2 (fun a b => f a = g b) l l' -> forallb f l = forallb g l'.
Proof. induction 1; simpl; congruence. Qed.
Lemma existsb_Forall2 {A B} (f : A -> bool) (g : B -> bool) l l' :
  Forall2 (fun a b => f a = g b) l l' -> existsb f l = existsb g l'.
Proof. induction 1; simpl; congruence. Qed.
Lemma forallb_nth_error {A} (f : A -> bool) l n x : forallb f l = true -> nth_error l n = Some x -> f x = true.
Proof. intros H E. exact (proj1 (forallb_forall f l) H x (nth_error_In l n E)). Qed.
Lemma existsb_false_iff {A} (f : A -> bool) l : existsb f l = false <-> forall x, In x l -> f x = false.
Proof.
  induction l as [|y l IH]; simpl; [tauto|]. rewrite orb_false_iff, IH. split.
  - intros [Hy H] x [<-|Hx]; auto.
  - intros H. split; [apply H; left; reflexivity | intros x Hx; apply H; right; exact Hx].
Qed.

(* forallb and existsb see only the set of members *)
Lemma forallb_incl {A} (f : A -> bool) l l' : incl l' l -> forallb f l = true -> forallb f l' = true.
Proof. rewrite !forallb_forall. intros Hi H x Hx. apply H, Hi, Hx. Qed.
Lemma existsb_incl {A} (f : A -> bool) l l' : incl l l' -> existsb f l = true -> existsb f l' = true.
Proof. rewrite !existsb_exists. intros Hi (x & Hx & E). exists x. split; [apply Hi, Hx | exact E]. Qed.
Lemma forallb_same_set {A} (f : A -> bool) l l' : (forall x, In x l <-> In x l') -> forallb f l = forallb f l'.
Proof. intros H. apply eq_true_iff_eq. split; apply forallb_incl; intros x; apply H. Qed.
Lemma existsb_same_set {A} (f : A -> bool) l l' : (forall x, In x l <-> In x l') -> existsb f l = existsb f l'.
Proof. intros H. apply eq_true_iff_eq. split; apply existsb_incl; intros x; apply H. Qed.
Lemma Permutation_same_set {A} (l l' : list A) : Permutation l l' -> forall x, In x l <-> In x l'.
Proof. intros H x. split; apply Permutation_in; [exact H | symmetry; exact H]. Qed.
Lemma perm_incl {A} (l l' : list A) : Permutation l l' -> incl l l' /\ incl l' l.
Proof. intros H. split; intros x; apply Permutation_in; [exact H | apply Permutation_sym, H]. Qed.
Lemma forallb_Permutation {A} (f : A -> bool) l l' : Permutation l l' -> forallb f l = forallb f l'.
Proof. intros H. apply forallb_same_set, Permutation_same_set, H. Qed.
Lemma existsb_Permutation {A} (f : A -> bool) l l' : Permutation l l' -> existsb f l = existsb f l'.
Proof. intros H. apply existsb_same_set, Permutation_same_set, H. Qed.

(* filter *)
Lemma filter_length_le {A} (f : A -> bool) l : length (filter f l) <= length l.
Proof. induction l as [|x l IH]; simpl; [lia|]. destruct (f x); simpl; lia. Qed.
Lemma filter_all {A} (f : A -> bool) l : (forall x, In x l -> f x = true) -> filter f l = l.
Proof.
  induction l as [|x l IH]; intros H; simpl; [reflexivity|].
  rewrite (H x (or_introl eq_refl)), IH; [reflexivity | intros y Hy; apply H; right; exact Hy].
Qed.
Lemma filter_none {A} (f : A -> bool) l : (forall x, In x l -> f x = false) -> filter f l = [].
Proof.
  induction l as [|x l IH]; intros H; simpl; [reflexivity|].
  rewrite (H x (or_introl eq_refl)). apply IH. intros y Hy. apply H. right. exact Hy.
Qed.
Lemma filter_filter {A} (f g : A -> bool) l : filter f (filter g l) = filter (fun x => f x && g x) l.
Proof.
  induction l as [|x l IH]; simpl; [reflexivity|].
  destruct (g x); simpl; [destruct (f x); simpl; rewrite IH; reflexivity | rewrite andb_false_r; exact IH].
Qed.
Lemma Permutation_filter {A} (f : A -> bool) l l' : Permutation l l' -> Permutation (filter f l) (filter f l').
Proof.
  induction 1 as [|x l l' _ IH|x y l|l l' l'' _ IH1 _ IH2]; simpl.
  - constructor.
  - destruct (f x); [constructor|]; exact IH.
  - destruct (f x), (f y); try apply Permutation_refl. constructor.
  - exact (Permutation_trans IH1 IH2).
Qed.

(* NoDup *)
Lemma NoDup_app {A} (l1 l2 : list A) : NoDup l1 -> NoDup l2 -> (forall x, In x l1 -> ~ In x l2) -> NoDup (l1 ++ l2).
Proof.
  induction l1 as [|a l1 IH]; intros H1 H2 Hd; simpl; [exact H2|]. inversion_clear H1 as [|? ? Ha Hn]. constructor.
  - intros C. apply in_app_or in C. destruct C as [C|C]; [contradiction | exact (Hd a (or_introl eq_refl) C)].
  - apply IH; [exact Hn | exact H2|]. intros x Hx. apply Hd. right. exact Hx.
Qed.
Lemma NoDup_snoc {A} (l : list A) a : NoDup l -> ~ In a l -> NoDup (l ++ [a]).
Proof.
  intros Hl Ha. apply NoDup_app; [exact Hl | constructor; [intros [] | constructor]|].
  intros x Hx [<-|[]]. exact (Ha Hx).
Qed.
Lemma NoDup_map_filter {A B} (f : A -> B) (p : A -> bool) l : NoDup (map f l) -> NoDup (map f (filter p l)).
Proof.
  induction l as [|a l IH]; simpl; intros H; [constructor|]. inversion_clear H as [|? ? Ha Hn].
  destruct (p a); simpl; [|exact (IH Hn)]. constructor; [|exact (IH Hn)].
  intros C. apply Ha. apply in_map_iff in C. destruct C as (b & E & C).
  apply filter_In in C. apply in_map_iff. exists b. tauto.
Qed.
Lemma NoDup_map_inj {A B} (f : A -> B) l x y : NoDup (map f l) -> In x l -> In y l -> f x = f y -> x = y.
Proof.
  induction l as [|a l IH]; simpl; intros Hn Hx Hy E; [contradiction|]. inversion_clear Hn as [|? ? Ha Hn'].
  destruct Hx as [->|Hx], Hy as [->|Hy]; [reflexivity | | | exact (IH Hn' Hx Hy E)]; exfalso; apply Ha.
  - rewrite E. apply in_map. exact Hy.
  - rewrite <- E. apply in_map. exact Hx.
Qed.

(* strictly increasing implies pairwise distinct *)
Lemma StronglySorted_NoDup {A} (R : A -> A -> Prop) l : (forall a, ~ R a a) -> StronglySorted R l -> NoDup l.
Proof.
  intros Irr S. induction S as [|a l S IH F]; constructor; [|exact IH].
  intros H. rewrite Forall_forall in F. exact (Irr a (F a H)).
Qed.

(* an append cut at the length of its first part *)
Lemma firstn_length_app {A} (a b : list A) : firstn (length a) (a ++ b) = a.
Proof. rewrite firstn_app, Nat.sub_diag, firstn_all. apply app_nil_r. Qed.
Lemma skipn_length_app {A} (a b : list A) : skipn (length a) (a ++ b) = b.
Proof. rewrite skipn_app, Nat.sub_diag, skipn_all. reflexivity. Qed.
