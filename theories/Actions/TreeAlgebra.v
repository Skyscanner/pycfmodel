(* C10 (with C09) -- the algebra of the walk [expand_tree] over JSON trees; every statement for ANY catalogue, ANY tree, ANY
   pattern lists (structural induction, no bounds).
   PATHS: [member_at p i v] is the i-th member of the object reached from the root by the path p (through object members and
   array elements, any depth).  The members of the walked tree are EXACTLY the members of the tree, each with its own value
   walked -- hence at any depth an Action element holds precisely the matched catalogue entries, a NotAction element
   precisely the unmatched ones.
   LOCALITY: the walk distributes over ++ of members / elements, a member's result does not mention its siblings, keys,
   their order and array lengths are kept; the SKELETON (the tree with the contents of Action/NotAction text forgotten)
   is invariant.
   CATALOGUE UPDATE: fixed points survive.  ITERATION: twice = every Action AND NotAction element holds the plain expansion;
   three times = once; period 2 ever after.
   PATTERN ALGEBRA lifted: trees that differ only in how the patterns of Action/NotAction elements are written (order,
   repetition, equivalent spellings, a string for a one-element list) are walked to the SAME tree. *)
From Coq Require Import List Bool NArith Lia Permutation.
From PV Require Import Base.Str Base.ListFacts Base.Value Run.RState.
From PV Require Import Actions.Expand Actions.ExpandThm Actions.ExpandAlgebra Actions.Catalogue Actions.Tree Actions.TreeThm.
From PV Require Import Actions.CatalogueMono.
Import ListNotations.
Local Open Scope N_scope.

Inductive step := SMember (i : nat) | SElem (i : nat).     (* into the i-th member of an object / i-th element of an array *)
Definition path := list step.

Fixpoint value_at (p : path) (v : value) : option value :=
  match p with
  | [] => Some v
  | SMember i :: p' =>
      match v with
      | VDict d => match nth_error d i with Some kx => value_at p' (snd kx) | None => None end
      | _ => None
      end
  | SElem i :: p' =>
      match v with
      | VList l => match nth_error l i with Some x => value_at p' x | None => None end
      | _ => None
      end
  end.
(* the object at the end of path p, as its list of members *)
Definition dict_at (p : path) (v : value) : option (list (str * value)) :=
  match value_at p v with Some (VDict d) => Some d | _ => None end.
(* its i-th member: key and value *)
Definition member_at (p : path) (i : nat) (v : value) : option (str * value) :=
  match dict_at p v with Some d => nth_error d i | None => None end.

Lemma dict_at_nil v : dict_at [] v = match v with VDict d => Some d | _ => None end.
Proof. reflexivity. Qed.
Lemma dict_at_member i p d :
  dict_at (SMember i :: p) (VDict d) = match nth_error d i with Some kx => dict_at p (snd kx) | None => None end.
Proof. unfold dict_at. cbn [value_at]. destruct (nth_error d i); reflexivity. Qed.
Lemma dict_at_elem i p l :
  dict_at (SElem i :: p) (VList l) = match nth_error l i with Some x => dict_at p x | None => None end.
Proof. unfold dict_at. cbn [value_at]. destruct (nth_error l i); reflexivity. Qed.

Lemma all_strs_inv l : forall ss, all_strs l = Some ss -> l = map VStr ss.
Proof.
  induction l as [|y l IH]; intros ss H; [inversion H; reflexivity|]. destruct y; try discriminate. cbn [all_strs] in H.
  destruct (all_strs l) as [ss'|]; inversion H. cbn [map]. rewrite (IH ss' eq_refl). reflexivity.
Qed.

(* there is no object inside action text *)
Lemma dict_at_text p x ps : action_text x = Some ps -> dict_at p x = None.
Proof.
  intros H. destruct x as [| | |s0| | |l|d]; try discriminate.
  - destruct p as [|[i|i] p']; reflexivity.
  - destruct p as [|[i|i] p']; try reflexivity. rewrite dict_at_elem, (all_strs_inv l ps H), nth_error_map.
    destruct (nth_error ps i); [|reflexivity]. destruct p' as [|[j|j] p'']; reflexivity.
Qed.

Section PathFacts.
Variable expA expN : list str -> list str.
Notation walk := (walk expA expN).
Notation walk_member := (walk_member expA expN).
Notation walk_members := (map (fun kv => (fst kv, walk_member (fst kv) (snd kv)))).

(* THE PATH THEOREM: the walked tree has an object exactly where the tree has one, and it holds the same members,
   each with its value walked as a member *)
Theorem dict_at_walk p : forall v, dict_at p (walk v) = option_map walk_members (dict_at p v).
Proof.
  induction p as [|[i|i] p IH]; intros v.
  - destruct v as [| | | | | |l|d]; try reflexivity. rewrite walk_dict. reflexivity.
  - destruct v as [| | | | | |l|d]; try reflexivity. rewrite walk_dict, !dict_at_member.
    rewrite nth_error_map. destruct (nth_error d i) as [[k x]|]; [|reflexivity]. cbn [option_map fst snd].
    destruct (member_cases k x) as [(HK & ps & ET)|HP].
    + rewrite (walk_member_text _ _ k x ps HK ET), (dict_at_text p x ps ET), (dict_at_text p _ _ (action_text_vstrs _)).
      reflexivity.
    + rewrite walk_member_plain by exact HP. apply IH.
  - destruct v as [| | | | | |l|d]; try reflexivity.
    rewrite walk_list, !dict_at_elem, nth_error_map. destruct (nth_error l i) as [x|]; [|reflexivity].
    cbn [option_map]. apply IH.
Qed.

Theorem member_at_walk p i v :
  member_at p i (walk v) = option_map (fun kv => (fst kv, walk_member (fst kv) (snd kv))) (member_at p i v).
Proof.
  unfold member_at. rewrite dict_at_walk. destruct (dict_at p v) as [d|]; [|reflexivity].
  cbn [option_map]. apply nth_error_map.
Qed.

(* read from the input side ... *)
Theorem text_at_walk p i v k x ps :
  member_at p i v = Some (k, x) -> is_action_key k = true -> action_text x = Some ps ->
  member_at p i (walk v) = Some (k, vstrs (if str_eqb k K_ACTION then expA ps else expN ps)).
Proof.
  intros Hm Hk Ht. rewrite member_at_walk, Hm. cbn [option_map fst snd]. rewrite (walk_member_text expA expN k x ps Hk Ht).
  reflexivity.
Qed.
Theorem other_at_walk p i v k x :
  member_at p i v = Some (k, x) -> is_action_key k = false \/ action_text x = None ->
  member_at p i (walk v) = Some (k, walk x).
Proof.
  intros Hm Hk. rewrite member_at_walk, Hm. cbn [option_map fst snd]. rewrite (walk_member_plain expA expN k x Hk). reflexivity.
Qed.

(* ... and from the output side: nothing appears from nowhere *)
Theorem member_at_origin p i v k y :
  member_at p i (walk v) = Some (k, y) -> exists x, member_at p i v = Some (k, x) /\ y = walk_member k x.
Proof.
  rewrite member_at_walk. destruct (member_at p i v) as [[k' x]|]; [|discriminate].
  cbn [option_map fst snd]. intros H. inversion H; subst. exists x. split; reflexivity.
Qed.
Theorem expanded_at_origin p i v k y out :
  member_at p i (walk v) = Some (k, y) -> is_action_key k = true -> action_text y = Some out ->
  exists x ps, member_at p i v = Some (k, x) /\ action_text x = Some ps /\
               out = if str_eqb k K_ACTION then expA ps else expN ps.
Proof.
  intros Hm Hk Ht. destruct (member_at_origin p i v k y Hm) as (x & Hx & ->). exists x.
  destruct (action_text x) as [ps|] eqn:ET.
  - exists ps. rewrite (walk_member_text _ _ k x ps Hk ET), action_text_vstrs in Ht. inversion Ht. auto.
  - rewrite walk_member_plain, action_text_walk, ET in Ht by (right; exact ET). discriminate.
Qed.
End PathFacts.

(* at the running instance: sound and complete at any depth *)

Theorem action_at_sound_complete cat v p i x ps :
  member_at p i v = Some (K_ACTION, x) -> action_text x = Some ps ->
  exists out, member_at p i (expand_tree cat v) = Some (K_ACTION, vstrs out) /\
    forall a, In a out <-> In a cat /\ exists q, In q ps /\ glob_ci q a = true.
Proof.
  intros Hm Ht. exists (expand cat ps). split; [exact (text_at_walk _ _ p i v K_ACTION x ps Hm eq_refl Ht)|].
  intros a. apply action_mem.
Qed.
Theorem notaction_at_sound_complete cat v p i x ps :
  member_at p i v = Some (K_NOTACTION, x) -> action_text x = Some ps ->
  exists out, member_at p i (expand_tree cat v) = Some (K_NOTACTION, vstrs out) /\
    forall a, In a out <-> In a cat /\ forall q, In q ps -> glob_ci q a = false.
Proof.
  intros Hm Ht. exists (expand_not cat ps). split; [exact (text_at_walk _ _ p i v K_NOTACTION x ps Hm eq_refl Ht)|].
  intros a. apply notaction_mem.
Qed.

Definition vmembers (v : value) : list (str * value) := match v with VDict d => d | _ => [] end.
Definition velems (v : value) : list value := match v with VList l => l | _ => [] end.

Section Locality.
Variable expA expN : list str -> list str.
Notation walk := (walk expA expN).
Notation walk_member := (walk_member expA expN).

Theorem walk_dict_app d1 d2 :
  walk (VDict (d1 ++ d2)) = VDict (vmembers (walk (VDict d1)) ++ vmembers (walk (VDict d2))).
Proof. rewrite !walk_dict. cbn [vmembers]. rewrite map_app. reflexivity. Qed.
Theorem walk_list_app l1 l2 :
  walk (VList (l1 ++ l2)) = VList (velems (walk (VList l1)) ++ velems (walk (VList l2))).
Proof. rewrite !walk_list. cbn [velems]. rewrite map_app. reflexivity. Qed.
Theorem walk_dict_cons k x d : walk (VDict ((k, x) :: d)) = VDict ((k, walk_member k x) :: vmembers (walk (VDict d))).
Proof. rewrite !walk_dict. reflexivity. Qed.
Theorem walk_list_cons x l : walk (VList (x :: l)) = VList (walk x :: velems (walk (VList l))).
Proof. rewrite !walk_list. reflexivity. Qed.

(* one member among any siblings: its result is [walk_member k x], a function of the member alone *)
Theorem walk_member_among d1 k x d2 :
  walk (VDict (d1 ++ (k, x) :: d2)) =
  VDict (vmembers (walk (VDict d1)) ++ (k, walk_member k x) :: vmembers (walk (VDict d2))).
Proof. rewrite walk_dict_app, walk_dict_cons. reflexivity. Qed.
Theorem walk_elem_among l1 x l2 :
  walk (VList (l1 ++ x :: l2)) = VList (velems (walk (VList l1)) ++ walk x :: velems (walk (VList l2))).
Proof. rewrite walk_list_app, walk_list_cons. reflexivity. Qed.

Theorem walk_nth_member d i :
  nth_error (vmembers (walk (VDict d))) i =
  option_map (fun kv => (fst kv, walk_member (fst kv) (snd kv))) (nth_error d i).
Proof. rewrite walk_dict. cbn [vmembers]. apply nth_error_map. Qed.
Theorem walk_nth_elem l i : nth_error (velems (walk (VList l))) i = option_map walk (nth_error l i).
Proof. rewrite walk_list. cbn [velems]. apply nth_error_map. Qed.

(* keys in order, array lengths *)
Theorem walk_keys v : vkeys (walk v) = vkeys v.
Proof.
  destruct v as [| | | | | |l|d]; try reflexivity. rewrite walk_dict. apply keys_map_values.
Qed.
Theorem walk_length v : length (velems (walk v)) = length (velems v) /\ length (vmembers (walk v)) = length (vmembers v).
Proof.
  destruct v as [| | | | | |l|d]; try (split; reflexivity).
  - rewrite walk_list. cbn [velems vmembers]. split; [apply map_length | reflexivity].
  - rewrite walk_dict. cbn [velems vmembers]. split; [reflexivity | apply map_length].
Qed.
End Locality.

(* SHAPE: the skeleton forgets what Action / NotAction text says, and nothing else *)

Definition skel_member (skel : value -> value) (k : str) (x : value) : value :=
  if is_action_key k then match action_text x with Some _ => VNull | None => skel x end else skel x.

Fixpoint skeleton (v : value) : value :=
  match v with
  | VDict d =>
      VDict ((fix go (d : list (str * value)) : list (str * value) :=
                match d with
                | [] => []
                | (k, x) :: r =>
                    (k, if is_action_key k then match action_text x with Some _ => VNull | None => skeleton x end
                        else skeleton x) :: go r
                end) d)
  | VList l => VList (map skeleton l)
  | _ => v
  end.
Lemma skeleton_dict d : skeleton (VDict d) = VDict (map (fun kv => (fst kv, skel_member skeleton (fst kv) (snd kv))) d).
Proof.
  cbn [skeleton]. f_equal. induction d as [|[k x] r IH]; [reflexivity|]. cbn [map fst snd]. rewrite <- IH. reflexivity.
Qed.
Lemma skeleton_list l : skeleton (VList l) = VList (map skeleton l).
Proof. reflexivity. Qed.

Theorem skeleton_walk expA expN v : skeleton (walk expA expN v) = skeleton v.
Proof.
  induction v as [| | | | | |l IH|d IH] using value_ind'; try reflexivity.
  - rewrite walk_list, !skeleton_list, map_map. f_equal. apply map_ext_Forall. exact IH.
  - rewrite walk_dict, !skeleton_dict, map_map. f_equal. apply map_ext_Forall. revert IH. apply Forall_impl. intros [k x] Hx.
    cbn [fst snd] in *. f_equal. unfold skel_member. destruct (member_cases k x) as [(HK & ps & ET)|HP].
    + rewrite (walk_member_text _ _ k x ps HK ET), HK, action_text_vstrs, ET. reflexivity.
    + rewrite walk_member_plain by exact HP. rewrite action_text_walk, Hx. reflexivity.
Qed.

(* the skeleton loses nothing else: a tree without action text under such keys IS its skeleton; keys and lengths stay *)
Theorem skeleton_no_text v : has_action_text v = false -> skeleton v = v.
Proof.
  induction v as [| | | | | |l IH|d IH] using value_ind'; try reflexivity; intros H; rewrite Forall_forall in IH.
  - rewrite skeleton_list. f_equal. rewrite <- (map_id l) at 2. apply map_ext_in. intros x Hx.
    exact (IH x Hx (proj1 (existsb_false_iff _ _) H x Hx)).
  - rewrite skeleton_dict. f_equal. rewrite <- (map_id d) at 2. apply map_ext_in. intros [k x] Hkx.
    destruct (has_action_text_member d k x H Hkx) as [HP Hx]. specialize (IH _ Hkx Hx). cbn [fst snd] in *. f_equal.
    unfold skel_member. destruct HP as [-> | ->]; [exact IH|]. destruct (is_action_key k); exact IH.
Qed.
Theorem skeleton_keys_lengths v :
  vkeys (skeleton v) = vkeys v /\ length (velems (skeleton v)) = length (velems v).
Proof.
  destruct v as [| | | | | |l|d]; try (split; reflexivity).
  - rewrite skeleton_list. cbn [velems vkeys]. split; [reflexivity | apply map_length].
  - rewrite skeleton_dict. split; [apply keys_map_values | reflexivity].
Qed.

(* expanded with the old catalogue, then with the new (well-formed) one: Action elements stay as they are ... *)
Theorem expand_tree_after_update cat cat' v : catalogue_spec cat' -> incl cat cat' ->
  expand_tree cat' (expand_tree cat v) = walk (expand cat) (fun ps => expand_not cat' (expand_not cat ps)) v.
Proof.
  intros Hc Hi. unfold expand_tree. rewrite walk_compose. apply walk_ext; intros ps; [|reflexivity].
  apply (expand_fixed_after_update cat cat' ps Hc Hi).
Qed.
(* ... so the whole tree does, when it holds no NotAction text; and only NotAction text can differ otherwise *)
Theorem expand_tree_fixed_after_update cat cat' v : catalogue_spec cat' -> incl cat cat' ->
  (has_notaction_text v = false -> expand_tree cat' (expand_tree cat v) = expand_tree cat v) /\
  frame_rel is_notaction_key (expand_tree cat v) (expand_tree cat' (expand_tree cat v)).
Proof.
  intros Hc Hi. rewrite (expand_tree_after_update cat cat' v Hc Hi). split.
  - intros H. unfold expand_tree. apply walk_ext_action; [reflexivity | exact H].
  - unfold expand_tree. apply walk_same_action_frame.
Qed.

Fixpoint iterate (k : nat) (f : value -> value) (v : value) : value :=
  match k with O => v | S k' => f (iterate k' f v) end.

(* twice: Action elements as after once; NotAction elements hold the PLAIN expansion of their patterns *)
Theorem expand_tree_twice_is cat v : catalogue_spec cat ->
  expand_tree cat (expand_tree cat v) = walk (expand cat) (expand cat) v.
Proof.
  intros Hc. unfold expand_tree. rewrite walk_compose. apply walk_ext; intros ps.
  - apply expand_idem. exact Hc.
  - apply expand_not_involution. exact Hc.
Qed.
(* three times = once *)
Theorem expand_tree_thrice cat v : catalogue_spec cat ->
  expand_tree cat (expand_tree cat (expand_tree cat v)) = expand_tree cat v.
Proof.
  intros Hc. rewrite (expand_tree_twice_is cat v Hc). unfold expand_tree. rewrite walk_compose. apply walk_ext; intros ps.
  - apply expand_idem. exact Hc.
  - apply expand_not_of_expand. exact Hc.
Qed.
(* hence period two from the first application on *)
Theorem expand_tree_period cat v k : catalogue_spec cat ->
  iterate (S (S (S k))) (expand_tree cat) v = iterate (S k) (expand_tree cat) v.
Proof.
  intros Hc. induction k as [|k IH].
  - cbn [iterate]. apply expand_tree_thrice. exact Hc.
  - change (expand_tree cat (iterate (S (S (S k))) (expand_tree cat) v) = expand_tree cat (iterate (S k) (expand_tree cat) v)).
    rewrite IH. reflexivity.
Qed.
Theorem expand_tree_odd_even cat v k : catalogue_spec cat ->
  iterate (S (2 * k)) (expand_tree cat) v = expand_tree cat v /\
  iterate (S (S (2 * k))) (expand_tree cat) v = expand_tree cat (expand_tree cat v).
Proof.
  intros Hc. induction k as [|k [IH1 IH2]]; [split; reflexivity|].
  replace (2 * S k)%nat with (S (S (2 * k))) by lia. split.
  - rewrite (expand_tree_period cat v (2 * k) Hc). exact IH1.
  - rewrite (expand_tree_period cat v (S (2 * k)) Hc). exact IH2.
Qed.

(* the same SET of patterns up to equivalence: order, repetition and spelling set aside *)
Definition pats_equiv (ps qs : list str) : Prop := covers ps qs /\ covers qs ps.

Lemma pats_equiv_refl ps : pats_equiv ps ps.
Proof. split; apply covers_incl, incl_refl. Qed.
Lemma pats_equiv_sym ps qs : pats_equiv ps qs -> pats_equiv qs ps.
Proof. intros [H1 H2]. split; assumption. Qed.
Lemma pats_equiv_trans ps qs rs : pats_equiv ps qs -> pats_equiv qs rs -> pats_equiv ps rs.
Proof. intros [H1 H2] [H3 H4]. split; eapply covers_trans; eassumption. Qed.
Lemma pats_equiv_same_members ps qs : (forall p, In p ps <-> In p qs) -> pats_equiv ps qs.
Proof. intros H. split; apply covers_incl; intros p Hp; apply H; exact Hp. Qed.
Lemma pats_equiv_perm ps qs : Permutation ps qs -> pats_equiv ps qs.
Proof.
  intros H. apply pats_equiv_same_members. intros p. split; apply Permutation_in; [exact H | apply Permutation_sym, H].
Qed.
Lemma pats_equiv_dup ps : pats_equiv (ps ++ ps) ps.
Proof. apply pats_equiv_same_members. intros p. rewrite in_app_iff. tauto. Qed.
Lemma pats_equiv_spelling ps qs : Forall2 ci_equiv ps qs -> pats_equiv ps qs.
Proof. apply covers_spelling. Qed.
Theorem pats_equiv_expand cat ps qs : pats_equiv ps qs ->
  expand cat ps = expand cat qs /\ expand_not cat ps = expand_not cat qs.
Proof. intros [H1 H2]. apply expand_equiv_sets; assumption. Qed.

(* [pat_rel v w]: the same tree, except that an Action / NotAction member holding action text in both may hold the
   patterns written differently (an equivalent set) *)
Inductive pat_rel : value -> value -> Prop :=
| PR_same v : pat_rel v v
| PR_list l l' : Forall2 pat_rel l l' -> pat_rel (VList l) (VList l')
| PR_dict d d' :
    Forall2 (fun kv kv' =>
               fst kv = fst kv' /\
               (pat_rel (snd kv) (snd kv') \/
                (is_action_key (fst kv) = true /\
                 exists ps qs, action_text (snd kv) = Some ps /\ action_text (snd kv') = Some qs /\ pats_equiv ps qs))) d d' ->
    pat_rel (VDict d) (VDict d').

Lemma pat_rel_all_strs l l' : Forall2 pat_rel l l' -> all_strs l = all_strs l'.
Proof.
  induction 1 as [|x y l l' Hxy HF IHF]; [reflexivity|]. inversion Hxy; subst; [|reflexivity|reflexivity].
  destruct y; try reflexivity. cbn [all_strs]. rewrite IHF. reflexivity.
Qed.
Lemma pat_rel_action_text x y : pat_rel x y -> action_text x = action_text y.
Proof.
  intros H. inversion H as [|l l' HF|d d' HF]; subst; [reflexivity| |reflexivity].
  cbn [action_text]. apply pat_rel_all_strs. exact HF.
Qed.

Section PatRel.
Variable expA expN : list str -> list str.
Hypothesis HR : forall ps qs, pats_equiv ps qs -> expA ps = expA qs /\ expN ps = expN qs.
Notation walk := (walk expA expN).
Notation walk_member := (walk_member expA expN).

Lemma walk_member_pats k x y ps qs :
  is_action_key k = true -> action_text x = Some ps -> action_text y = Some qs -> pats_equiv ps qs ->
  walk_member k x = walk_member k y.
Proof.
  intros HK E1 E2 HE. destruct (HR ps qs HE) as [RA RN].
  rewrite (walk_member_text _ _ k x ps HK E1), (walk_member_text _ _ k y qs HK E2), RA, RN. reflexivity.
Qed.

Theorem walk_pat_rel v : forall w, pat_rel v w -> walk v = walk w.
Proof.
  induction v as [| | | | | |l IH|d IH] using value_ind'; intros w H; inversion H as [|? l' HF|? d' HF]; subst;
    try reflexivity.
  - rewrite !walk_list. f_equal. exact (map_eq_Forall2 _ _ _ _ _ HF IH).
  - rewrite !walk_dict. f_equal. apply (map_eq_Forall2 _ _ _ _ _ HF). revert IH. apply Forall_impl.
    intros [k x] Hx [k' y] [E Hxy]. cbn [fst snd] in *. subst k'. f_equal.
    destruct Hxy as [Hxy|(HK & ps & qs & E1 & E2 & HE)]; [|exact (walk_member_pats k x y ps qs HK E1 E2 HE)].
    unfold Tree.walk_member. rewrite (pat_rel_action_text x y Hxy), (Hx y Hxy). reflexivity.
Qed.
End PatRel.

(* one element, written two ways *)
Theorem expand_member_pats cat k x y ps qs :
  is_action_key k = true -> action_text x = Some ps -> action_text y = Some qs -> pats_equiv ps qs ->
  walk_member (expand cat) (expand_not cat) k x = walk_member (expand cat) (expand_not cat) k y.
Proof. apply walk_member_pats. apply pats_equiv_expand. Qed.

(* [pat_rel] passes to an object from one of its members, whichever way that member is related *)
Lemma pat_rel_one_member d1 k x y d2 :
  pat_rel x y \/ (is_action_key k = true /\
                  exists ps qs, action_text x = Some ps /\ action_text y = Some qs /\ pats_equiv ps qs) ->
  pat_rel (VDict (d1 ++ (k, x) :: d2)) (VDict (d1 ++ (k, y) :: d2)).
Proof.
  intros H. apply PR_dict, Forall2_app; [|constructor; [split; [reflexivity | exact H]|]];
    apply Forall2_same; intros kv; (split; [reflexivity | left; apply PR_same]).
Qed.

(* replacing one Action / NotAction element, anywhere among its siblings, by an equivalent one *)
Theorem pat_rel_member d1 k x y d2 ps qs :
  is_action_key k = true -> action_text x = Some ps -> action_text y = Some qs -> pats_equiv ps qs ->
  pat_rel (VDict (d1 ++ (k, x) :: d2)) (VDict (d1 ++ (k, y) :: d2)).
Proof. intros HK E1 E2 HE. apply pat_rel_one_member. right. split; [exact HK|]. exists ps, qs. auto. Qed.
