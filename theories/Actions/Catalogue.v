(* C09 / C10 -- invariants of an action catalogue: a boolean check and what it means.
   The check is run on the shipped catalogue in Actions/CatalogueChecks.v (re-proved on every run). *)
From Coq Require Import List Bool Arith NArith Lia Sorting.Sorted Permutation Sorting.Mergesort Orders.
From PV Require Import Base.Str Run.RState Actions.Expand.
Import ListNotations.
Local Open Scope N_scope.

(* merge sort (Coq.Sorting.Mergesort) on strings; only its Permutation property is used: the result is
   CHECKED to be strictly increasing, which is what gives duplicate-freeness *)
Module StrOrder <: TotalLeBool.
  Definition t := str.
  Definition leb (a b : str) : bool := negb (str_ltb b a).
  Theorem leb_total : forall a b, leb a b = true \/ leb b a = true.
  Proof.
    intros a b. unfold leb. destruct (str_ltb b a) eqn:E; [|left; reflexivity].
    right. rewrite (str_ltb_asym _ _ E). reflexivity.
  Qed.
End StrOrder.
Module StrSort := Sort StrOrder.

Definition COLON : N := 58.
Definition is_nil {A} (l : list A) : bool := match l with [] => true | _ => false end.
Fixpoint count_cp (c : N) (s : str) : nat :=
  match s with [] => O | x :: r => Nat.add (if N.eqb x c then 1%nat else 0%nat) (count_cp c r) end.
Fixpoint before (c : N) (s : str) : str :=
  match s with [] => [] | x :: r => if x =? c then [] else x :: before c r end.
Fixpoint after (c : N) (s : str) : str :=
  match s with [] => [] | x :: r => if x =? c then r else after c r end.

(* service:Name -- exactly one ':', something on both sides, no wildcard character, plain ASCII *)
Definition entry_ok (a : str) : bool :=
  Nat.eqb (count_cp COLON a) 1 && negb (is_nil (before COLON a)) && negb (is_nil (after COLON a))
  && forallb (fun c => negb (c =? STAR) && negb (c =? QM) && (c <? 128)) a.

Definition catalogue_ok (c : list str) : bool :=
  strictly_sorted c && strictly_sorted (StrSort.sort (map lower c)) && forallb entry_ok c.

Definition entry_spec (a : str) : Prop :=
  (exists svc name, a = svc ++ COLON :: name /\ svc <> [] /\ name <> [] /\ ~ In COLON svc /\ ~ In COLON name)
  /\ ~ In STAR a /\ ~ In QM a /\ Forall (fun c => c < 128) a.

Definition catalogue_spec (c : list str) : Prop :=
  StronglySorted str_lt c            (* sorted in code-point order, strictly ... *)
  /\ NoDup c                          (* ... hence duplicate-free *)
  /\ NoDup (map lower c)              (* duplicate-free also when letter case is ignored *)
  /\ Forall entry_spec c.             (* every entry has the form service:Name *)

Lemma count_zero_notin c s : count_cp c s = O <-> ~ In c s.
Proof.
  induction s as [|x r IH]; simpl; [tauto|].
  destruct (N.eqb_spec x c) as [E|E]; simpl.
  - split; [discriminate | intros H; exfalso; apply H; auto].
  - rewrite IH. split; [intros H [C|C]; [contradiction | tauto] | tauto].
Qed.
Lemma split_at c s : (count_cp c s >= 1)%nat -> s = before c s ++ c :: after c s.
Proof.
  induction s as [|x r IH]; simpl; [lia|].
  destruct (N.eqb_spec x c) as [E|E]; simpl; [subst; reflexivity|].
  intros H. f_equal. apply IH. exact H.
Qed.
Lemma before_notin c s : ~ In c (before c s).
Proof.
  induction s as [|x r IH]; simpl; [tauto|].
  destruct (N.eqb_spec x c) as [E|E]; simpl; [tauto|]. intros [C|C]; [contradiction | tauto].
Qed.
Lemma count_after c s : (count_cp c s >= 1)%nat -> count_cp c (after c s) = (count_cp c s - 1)%nat.
Proof.
  induction s as [|x r IH]; simpl; [lia|].
  destruct (N.eqb_spec x c) as [E|E]; simpl; [lia|]. exact IH.
Qed.

Lemma entry_ok_spec a : entry_ok a = true -> entry_spec a.
Proof.
  unfold entry_ok. rewrite !andb_true_iff. intros [[[Hc Hb] Ha] Hf].
  apply Nat.eqb_eq in Hc.
  assert (Hge : (count_cp COLON a >= 1)%nat) by lia.
  rewrite forallb_forall in Hf.
  split; [|split; [|split]].
  - exists (before COLON a), (after COLON a). split; [apply split_at; exact Hge|].
    split; [destruct (before COLON a); [discriminate | congruence]|].
    split; [destruct (after COLON a); [discriminate | congruence]|].
    split; [apply before_notin|]. apply count_zero_notin. rewrite count_after by exact Hge. lia.
  - intros Hin. specialize (Hf _ Hin). rewrite N.eqb_refl in Hf. discriminate.
  - intros Hin. specialize (Hf _ Hin). rewrite N.eqb_refl, andb_false_r in Hf. discriminate.
  - apply Forall_forall. intros c Hin. specialize (Hf _ Hin).
    rewrite !andb_true_iff in Hf. destruct Hf as [_ Hlt]. apply N.ltb_lt in Hlt. exact Hlt.
Qed.

Theorem catalogue_ok_spec c : catalogue_ok c = true -> catalogue_spec c.
Proof.
  unfold catalogue_ok. rewrite !andb_true_iff. intros [[Hs Hl] He].
  apply strictly_sorted_ok in Hs. apply strictly_sorted_ok in Hl.
  split; [exact Hs|]. split; [apply ssorted_NoDup; exact Hs|]. split.
  - apply (Permutation_NoDup (l := StrSort.sort (map lower c))).
    + apply Permutation_sym, StrSort.Permuted_sort.
    + apply ssorted_NoDup; exact Hl.
  - apply Forall_forall. intros a Ha. rewrite forallb_forall in He. apply entry_ok_spec, He, Ha.
Qed.

(* A cheaper route to [catalogue_ok c = true] for a long catalogue.  The merge sort of the definition need not be run: it
   returns a sorted permutation, which is strictly sorted as soon as the list has no duplicates; and [nodup_sort], which
   drops duplicates, keeps the length exactly when there are none (it is fast on a list that is nearly sorted already, as
   the lower-cased catalogue is). *)
Lemma NoDup_by_sort l : (length l <= length (nodup_sort l))%nat -> NoDup l.
Proof.
  intros H. apply (@NoDup_incl_NoDup _ (nodup_sort l)); [apply ssorted_NoDup, nodup_sort_sorted | exact H |].
  intros x. apply nodup_sort_In.
Qed.
Lemma sorted_NoDup_strict l : Sorted (fun a b => is_true (StrOrder.leb a b)) l -> NoDup l -> strictly_sorted l = true.
Proof.
  induction 1 as [|a l Hs IH Hd]; [reflexivity|]. intros Hn. inversion Hn as [|? ? Ha Hn']; subst.
  destruct Hd as [|b l Hab]; [reflexivity|].
  change (strictly_sorted (a :: b :: l)) with (str_ltb a b && strictly_sorted (b :: l)). rewrite (IH Hn'), andb_true_r.
  unfold StrOrder.leb in Hab. apply negb_true_iff in Hab. destruct (str_ltb a b) eqn:E; [reflexivity|].
  exfalso. apply Ha. left. symmetry. apply str_ltb_total; assumption.
Qed.
Lemma catalogue_ok_by_parts c :
  strictly_sorted c = true -> (length c <=? length (nodup_sort (map lower c)))%nat = true -> forallb entry_ok c = true ->
  catalogue_ok c = true.
Proof.
  intros Hs Hl He. unfold catalogue_ok. rewrite Hs, He, andb_true_r. cbn [andb].
  apply sorted_NoDup_strict; [apply StrSort.Sorted_sort|].
  apply (Permutation_NoDup (StrSort.Permuted_sort _)), NoDup_by_sort. rewrite map_length. apply Nat.leb_le, Hl.
Qed.
