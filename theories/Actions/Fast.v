(* Staged twins of the C09/C10 model functions, used by the extracted runner: each pattern is tokenised once per call
   and each catalogue entry is lower-cased once per sweep (instead of once per (pattern, entry) pair).
   Every twin is proved EQUAL to the plain definition the theorems are about. *)
From Coq Require Import List Bool NArith.
From PV Require Import Base.Str Base.Value Glob.Glob Run.RState Actions.Expand Actions.Tree.
Import ListNotations.
Local Open Scope N_scope.

Definition ptok := list (tok N).
Definition ptoks (p : str) : ptok := tokens N N.eqb STAR QM (map lower_cp p).
Definition any_tok (tps : list ptok) (la : str) : bool := existsb (fun tp => gmb N N.eqb tp la) tps.

Lemma existsb_map_ext {A B} (f : B -> bool) (g : A -> bool) (h : A -> B) l :
  (forall x, f (h x) = g x) -> existsb f (map h l) = existsb g l.
Proof. intros H. induction l as [|x l IH]; [reflexivity|]. cbn [map existsb]. rewrite H, IH. reflexivity. Qed.

Lemma any_tok_ok ps a : any_tok (map ptoks ps) (map lower_cp a) = any_match ps a.
Proof. apply existsb_map_ext. reflexivity. Qed.

Definition expand_fast (cat ps : list str) : list str :=
  let tps := map ptoks ps in nodup_sort (filter (fun a => any_tok tps (map lower_cp a)) cat).
Definition expand_not_fast (cat ps : list str) : list str :=
  let tps := map ptoks ps in nodup_sort (filter (fun a => negb (any_tok tps (map lower_cp a))) cat).

Lemma expand_fast_ok cat ps : expand_fast cat ps = expand cat ps.
Proof.
  unfold expand_fast, expand, expand_g. cbv zeta. f_equal. apply filter_ext. intros a. apply any_tok_ok.
Qed.
Lemma expand_not_fast_ok cat ps : expand_not_fast cat ps = expand_not cat ps.
Proof.
  unfold expand_not_fast, expand_not, expand_not_g. cbv zeta. f_equal. apply filter_ext. intros a.
  f_equal. apply any_tok_ok.
Qed.

Definition expand_action_fast (cat : list str) (p : str) (na : bool) : list str :=
  if na then expand_not_fast cat [p] else expand_fast cat [p].
Definition expand_actions_fast (cat : list str) (x : action_arg) (na : bool) : list str :=
  match x with
  | OneAction p => expand_action_fast cat p na
  | ManyActions ps => if na then expand_not_fast cat ps else expand_fast cat ps
  end.
Lemma expand_action_fast_ok cat p na : expand_action_fast cat p na = expand_action cat p na.
Proof. unfold expand_action_fast, expand_action. rewrite expand_fast_ok, expand_not_fast_ok. reflexivity. Qed.
Lemma expand_actions_fast_ok cat x na : expand_actions_fast cat x na = expand_actions cat x na.
Proof.
  destruct x; cbn [expand_actions_fast expand_actions];
    rewrite ?expand_action_fast_ok, ?expand_fast_ok, ?expand_not_fast_ok; reflexivity.
Qed.

Record pstmt := { p_allow : bool; p_acts : list ptok; p_nots : option (list ptok) }.
Definition prep_stmt (s : stmt) : pstmt :=
  {| p_allow := is_allow s; p_acts := map ptoks (s_actions s);
     p_nots := match s_notactions s with Some ns => Some (map ptoks ns) | None => None end |}.
Definition pstmt_has (ps : pstmt) (la : str) : bool :=
  any_tok (p_acts ps) la || match p_nots ps with Some t => negb (any_tok t la) | None => false end.

Lemma pstmt_has_ok s a : pstmt_has (prep_stmt s) (map lower_cp a) = stmt_has s a.
Proof.
  unfold pstmt_has, prep_stmt, stmt_has, stmt_pred. cbn [p_acts p_nots]. rewrite any_tok_ok.
  destruct (s_notactions s) as [ns|]; [rewrite any_tok_ok|]; reflexivity.
Qed.

Definition stmt_list_fast (cat : list str) (s : stmt) : list str :=
  let ps := prep_stmt s in nodup_sort (filter (fun a => pstmt_has ps (map lower_cp a)) cat).
Lemma stmt_list_fast_ok cat s : stmt_list_fast cat s = stmt_list cat s.
Proof.
  unfold stmt_list_fast, stmt_list, stmt_expanded. cbv zeta. f_equal. apply filter_ext. intros a.
  apply pstmt_has_ok.
Qed.

Definition allowed_actions_fast (cat : list str) (ss : list stmt) : list str :=
  let pss := map prep_stmt ss in
  nodup_sort (filter (fun a => let la := map lower_cp a in existsb (fun ps => p_allow ps && pstmt_has ps la) pss) cat).
Definition iam_actions_fast (cat : list str) (ss : list stmt) : list str :=
  let pss := map prep_stmt ss in
  nodup_sort (filter (fun a => starts_with S_IAM a &&
                               (let la := map lower_cp a in existsb (fun ps => pstmt_has ps la) pss)) cat).

Lemma allowed_actions_fast_ok cat ss : allowed_actions_fast cat ss = allowed_actions cat ss.
Proof.
  unfold allowed_actions_fast, allowed_actions. cbv zeta. f_equal. apply filter_ext. intros a.
  apply existsb_map_ext. intros s. rewrite pstmt_has_ok. reflexivity.
Qed.
Lemma iam_actions_fast_ok cat ss : iam_actions_fast cat ss = iam_actions cat ss.
Proof.
  unfold iam_actions_fast, iam_actions. cbv zeta. f_equal. apply filter_ext. intros a. f_equal.
  apply existsb_map_ext. intros s. apply pstmt_has_ok.
Qed.

(* the tree walk depends on the two expansion functions only through their values ([walk_ext]); so does the model-level walk *)
Lemma walk_model_ext (eA eN eA' eN' : list str -> list str) :
  (forall ps, eA ps = eA' ps) -> (forall ps, eN ps = eN' ps) -> forall t, walk_model eA eN t = walk_model eA' eN' t.
Proof.
  intros HA HN t. unfold walk_model. destruct t; try reflexivity. f_equal.
  apply map_ext. intros [k x]. cbn [fst snd]. destruct (str_eqb k K_RESOURCES); [|reflexivity].
  destruct x; try reflexivity. f_equal. f_equal. apply map_ext. intros [n r]. cbn [fst snd]. f_equal.
  apply walk_ext; assumption.
Qed.

Definition expand_model_fast (cat : list str) : value -> value := walk_model (expand_fast cat) (expand_not_fast cat).
Lemma expand_model_fast_ok cat t : expand_model_fast cat t = expand_model cat t.
Proof. apply walk_model_ext; intros ps; [apply expand_fast_ok | apply expand_not_fast_ok]. Qed.

(* Second stage, for the tree walk (one sweep per Action element): the catalogue is lower-cased ONCE per walk. *)
Definition prelower (cat : list str) : list (str * str) := map (fun a => (a, map lower_cp a)) cat.
Definition expand_pre (lcat : list (str * str)) (ps : list str) : list str :=
  let tps := map ptoks ps in nodup_sort (map fst (filter (fun al => any_tok tps (snd al)) lcat)).
Definition expand_not_pre (lcat : list (str * str)) (ps : list str) : list str :=
  let tps := map ptoks ps in nodup_sort (map fst (filter (fun al => negb (any_tok tps (snd al))) lcat)).

Lemma filter_prelower (f : str -> bool) cat :
  map fst (filter (fun al => f (snd al)) (prelower cat)) = filter (fun a => f (map lower_cp a)) cat.
Proof.
  induction cat as [|a cat IH]; [reflexivity|].
  change (prelower (a :: cat)) with ((a, map lower_cp a) :: prelower cat). cbn [filter snd].
  destruct (f (map lower_cp a)); cbn [map fst]; rewrite IH; reflexivity.
Qed.
Lemma expand_pre_ok cat ps : expand_pre (prelower cat) ps = expand cat ps.
Proof.
  rewrite <- expand_fast_ok. unfold expand_pre, expand_fast. cbv zeta.
  rewrite (filter_prelower (any_tok (map ptoks ps))). reflexivity.
Qed.
Lemma expand_not_pre_ok cat ps : expand_not_pre (prelower cat) ps = expand_not cat ps.
Proof.
  rewrite <- expand_not_fast_ok. unfold expand_not_pre, expand_not_fast. cbv zeta.
  rewrite (filter_prelower (fun la => negb (any_tok (map ptoks ps) la))). reflexivity.
Qed.

Definition expand_tree_pre (cat : list str) (v : value) : value :=
  let lcat := prelower cat in walk (expand_pre lcat) (expand_not_pre lcat) v.
Definition expand_model_pre (cat : list str) (t : value) : value :=
  let lcat := prelower cat in walk_model (expand_pre lcat) (expand_not_pre lcat) t.
Definition expand_model_twice_pre (cat : list str) (t : value) : value :=
  let lcat := prelower cat in
  walk_model (expand_pre lcat) (expand_not_pre lcat) (walk_model (expand_pre lcat) (expand_not_pre lcat) t).

Lemma expand_tree_pre_ok cat v : expand_tree_pre cat v = expand_tree cat v.
Proof. apply walk_ext; intros ps; [apply expand_pre_ok | apply expand_not_pre_ok]. Qed.
Lemma expand_model_pre_ok cat t : expand_model_pre cat t = expand_model cat t.
Proof. apply walk_model_ext; intros ps; [apply expand_pre_ok | apply expand_not_pre_ok]. Qed.
Lemma expand_model_twice_pre_ok cat t : expand_model_twice_pre cat t = expand_model cat (expand_model cat t).
Proof.
  unfold expand_model_twice_pre. cbv zeta.
  rewrite (walk_model_ext _ _ (expand cat) (expand_not cat) (expand_pre_ok cat) (expand_not_pre_ok cat)).
  fold (expand_model cat). f_equal.
  apply walk_model_ext; intros ps; [apply expand_pre_ok | apply expand_not_pre_ok].
Qed.
