(* C10 -- frame, object-valued Action, other sections, fusion of two walks, idempotence. *)
From Coq Require Import List Bool NArith Sorting.Sorted.
From PV Require Import Base.Str Base.ListFacts Base.Value Run.RState Actions.Expand Actions.ExpandThm Actions.Catalogue Actions.Tree.
Import ListNotations.
Local Open Scope N_scope.

(* [frame_rel may v w]: w has the shape of v -- same constructor, same keys in the same order, same list lengths,
   members related -- and differs from v at most in members whose key satisfies [may] and whose value in v is
   action text (a string / list of strings); such a member holds a list of strings in w. *)
Inductive frame_rel (may : str -> bool) : value -> value -> Prop :=
| FR_same v : frame_rel may v v
| FR_list l l' : Forall2 (frame_rel may) l l' -> frame_rel may (VList l) (VList l')
| FR_dict d d' :
    Forall2 (fun kv kv' =>
               fst kv = fst kv' /\
               (frame_rel may (snd kv) (snd kv') \/
                (may (fst kv) = true /\ action_text (snd kv) <> None /\ exists ss, snd kv' = vstrs ss))) d d' ->
    frame_rel may (VDict d) (VDict d').

Lemma all_strs_map l : all_strs (map VStr l) = Some l.
Proof. induction l as [|s l IH]; simpl; [reflexivity|]. rewrite IH. reflexivity. Qed.
Lemma action_text_vstrs l : action_text (vstrs l) = Some l.
Proof. apply all_strs_map. Qed.

Fixpoint has_action_text (v : value) : bool :=
  match v with
  | VDict d =>
      (fix go (d : list (str * value)) : bool :=
         match d with
         | [] => false
         | (k, x) :: r =>
             (is_action_key k && match action_text x with Some _ => true | None => false end)
             || has_action_text x || go r
         end) d
  | VList l => existsb has_action_text l
  | _ => false
  end.

Definition is_notaction_key (k : str) : bool := str_eqb k K_NOTACTION.

Fixpoint has_notaction_text (v : value) : bool :=
  match v with
  | VDict d =>
      (fix go (d : list (str * value)) : bool :=
         match d with
         | [] => false
         | (k, x) :: r =>
             (is_notaction_key k && match action_text x with Some _ => true | None => false end)
             || has_notaction_text x || go r
         end) d
  | VList l => existsb has_notaction_text l
  | _ => false
  end.

(* both flags scan the members of an object in the same way; what a scan that finds nothing says of one member *)
Definition members_flag (key : str -> bool) (h : value -> bool) : list (str * value) -> bool :=
  fix go (d : list (str * value)) : bool :=
    match d with
    | [] => false
    | (k, x) :: r => (key k && match action_text x with Some _ => true | None => false end) || h x || go r
    end.
Lemma members_flag_false key h d k x : members_flag key h d = false -> In (k, x) d ->
  (key k = false \/ action_text x = None) /\ h x = false.
Proof.
  induction d as [|[k' x'] r IH]; [intros _ []|]. cbn [members_flag]. intros H Hin.
  apply orb_false_iff in H. destruct H as [H H3]. destruct Hin as [E|Hin]; [|exact (IH H3 Hin)]. inversion E; subst.
  apply orb_false_iff in H. destruct H as [H1 H2]. split; [|exact H2].
  destruct (key k); [right | left; reflexivity]. destruct (action_text x); [discriminate H1 | reflexivity].
Qed.
Lemma has_action_text_member d k x : has_action_text (VDict d) = false -> In (k, x) d ->
  (is_action_key k = false \/ action_text x = None) /\ has_action_text x = false.
Proof. exact (members_flag_false is_action_key has_action_text d k x). Qed.
Lemma has_notaction_text_member d k x : has_notaction_text (VDict d) = false -> In (k, x) d ->
  (is_notaction_key k = false \/ action_text x = None) /\ has_notaction_text x = false.
Proof. exact (members_flag_false is_notaction_key has_notaction_text d k x). Qed.

Section WalkFacts.
Variable expA expN : list str -> list str.
Notation walk := (walk expA expN).
Notation walk_member := (walk_member expA expN).
Notation walk_model := (walk_model expA expN).

(* FRAME *)
Theorem walk_frame v : frame_rel is_action_key v (walk v).
Proof.
  induction v as [| | | | | |l IH|d IH] using value_ind'; try apply FR_same.
  - rewrite walk_list. apply FR_list. rewrite <- (map_id l) at 1. apply Forall2_maps. exact IH.
  - rewrite walk_dict. apply FR_dict. rewrite <- (map_id d) at 1. apply Forall2_maps. revert IH. apply Forall_impl.
    intros [k x] Hx. cbn [fst snd] in *. split; [reflexivity|]. destruct (member_cases k x) as [(HK & ps & ET)|HP].
    + right. split; [exact HK|]. split; [rewrite ET; discriminate|]. rewrite (walk_member_text _ _ k x ps HK ET). eexists; reflexivity.
    + left. rewrite walk_member_plain by exact HP. exact Hx.
Qed.

(* a tree without action text under an Action/NotAction key is returned unchanged *)
Theorem walk_no_text v : has_action_text v = false -> walk v = v.
Proof.
  induction v as [| | | | | |l IH|d IH] using value_ind'; try reflexivity; intros H; rewrite Forall_forall in IH.
  - rewrite walk_list. f_equal. rewrite <- (map_id l) at 2. apply map_ext_in. intros x Hx.
    exact (IH x Hx (proj1 (existsb_false_iff _ _) H x Hx)).
  - rewrite walk_dict. f_equal. rewrite <- (map_id d) at 2. apply map_ext_in. intros [k x] Hkx.
    destruct (has_action_text_member d k x H Hkx) as [HP Hx]. cbn [fst snd]. f_equal.
    rewrite walk_member_plain by exact HP. exact (IH _ Hkx Hx).
Qed.

(* OTHER SECTIONS: the model-level function keeps the keys and every section but Resources *)
Definition vlookup (k : str) (v : value) : option value := match v with VDict d => lookup k d | _ => None end.
Definition vkeys (v : value) : list str := match v with VDict d => keys d | _ => [] end.

Theorem walk_model_other t k : k <> K_RESOURCES -> vlookup k (walk_model t) = vlookup k t.
Proof.
  intros Hk. destruct t as [| | | | | | |d]; try reflexivity. cbn [Tree.walk_model vlookup].
  induction d as [|[k' x] r IH]; [reflexivity|]. cbn [map fst snd].
  destruct (str_eqb k' K_RESOURCES) eqn:E.
  - apply str_eqb_spec in E. subst k'.
    assert (Hne : str_eqb k K_RESOURCES = false) by (apply str_eqb_neq; exact Hk).
    destruct x; cbn [lookup fst snd]; rewrite Hne; exact IH.
  - cbn [lookup]. destruct (str_eqb k k'); [reflexivity | exact IH].
Qed.
Theorem walk_model_keys t : vkeys (walk_model t) = vkeys t.
Proof.
  destruct t as [| | | | | | |d]; try reflexivity. cbn [Tree.walk_model vkeys]. unfold keys. rewrite map_map.
  apply map_ext. intros [k x]. cbn [fst snd]. destruct (str_eqb k K_RESOURCES); [|reflexivity]. destruct x; reflexivity.
Qed.
(* ... and inside Resources every resource keeps its name and is walked on its own *)
Theorem walk_model_resources t rs :
  vlookup K_RESOURCES t = Some (VDict rs) ->
  vlookup K_RESOURCES (walk_model t) = Some (VDict (map (fun nr => (fst nr, walk (snd nr))) rs)).
Proof.
  destruct t as [| | | | | | |d]; try discriminate. cbn [Tree.walk_model vlookup].
  induction d as [|[k x] r IH]; [discriminate|]. cbn [map fst snd lookup].
  destruct (str_eqb k K_RESOURCES) eqn:E.
  - apply str_eqb_spec in E. subst k. rewrite str_eqb_refl. intros H. inversion H; subst.
    cbn [lookup fst snd]. rewrite str_eqb_refl. reflexivity.
  - rewrite str_eqb_sym in E. rewrite E. exact IH.
Qed.

(* the Type of a resource (a string) is untouched, so the resource is dispatched to the same class *)
Theorem walk_type_kept d t :
  lookup K_TYPE d = Some (VStr t) -> vlookup K_TYPE (walk (VDict d)) = Some (VStr t).
Proof.
  intros H. rewrite walk_dict. cbn [vlookup]. rewrite (lookup_map_values walk_member), H. reflexivity.
Qed.

(* walking keeps the "is action text" status of a value *)
Lemma all_strs_walk l : all_strs (map walk l) = all_strs l.
Proof.
  induction l as [|x l IH]; [reflexivity|]. destruct x; try reflexivity.
  cbn [map Tree.walk all_strs]. fold (Tree.walk expA expN). rewrite IH. reflexivity.
Qed.
Lemma action_text_walk x : action_text (walk x) = action_text x.
Proof. destruct x; try reflexivity. rewrite walk_list. cbn [action_text]. apply all_strs_walk. Qed.
End WalkFacts.

(* FUSION: a walk after a walk is one walk with the composed functions; what does not depend on the NotAction function *)

Theorem walk_compose a n f g v : walk f g (walk a n v) = walk (fun ps => f (a ps)) (fun ps => g (n ps)) v.
Proof.
  induction v as [| | | | | |l IH|d IH] using value_ind'; try reflexivity.
  - rewrite !walk_list, map_map. f_equal. apply map_ext_Forall. exact IH.
  - rewrite !walk_dict, map_map. f_equal. apply map_ext_Forall. revert IH. apply Forall_impl. intros [k x] Hx.
    cbn [fst snd] in *. f_equal. destruct (member_cases k x) as [(HK & ps & ET)|HP].
    + rewrite (walk_member_text a n k x ps HK ET), (walk_member_text f g k _ _ HK (action_text_vstrs _)).
      rewrite (walk_member_text _ _ k x ps HK ET). destruct (str_eqb k K_ACTION); reflexivity.
    + rewrite (walk_member_plain a n k x HP), (walk_member_plain _ _ k x HP), walk_member_plain; [exact Hx|].
      rewrite action_text_walk. exact HP.
Qed.

(* without NotAction text the NotAction function is never called *)
Theorem walk_ext_action a n a' n' v :
  (forall ps, a ps = a' ps) -> has_notaction_text v = false -> walk a n v = walk a' n' v.
Proof.
  intros HA. induction v as [| | | | | |l IH|d IH] using value_ind'; try reflexivity; intros H; rewrite Forall_forall in IH.
  - rewrite !walk_list. f_equal. apply map_ext_in. intros x Hx. exact (IH x Hx (proj1 (existsb_false_iff _ _) H x Hx)).
  - rewrite !walk_dict. f_equal. apply map_ext_in. intros [k x] Hkx.
    destruct (has_notaction_text_member d k x H Hkx) as [HN Hx]. cbn [fst snd]. f_equal.
    destruct (member_cases k x) as [(HK & ps & ET)|HP].
    + rewrite (walk_member_text a n k x ps HK ET), (walk_member_text a' n' k x ps HK ET).
      unfold is_action_key, is_notaction_key in HK, HN. destruct (str_eqb k K_ACTION); [rewrite HA; reflexivity|].
      cbn [orb] in HK. destruct HN as [HN|HN]; congruence.
    + rewrite !walk_member_plain by exact HP. exact (IH _ Hkx Hx).
Qed.

(* two walks with the same Action function differ in NotAction text only *)
Theorem walk_same_action_frame a n n' v : frame_rel is_notaction_key (walk a n v) (walk a n' v).
Proof.
  induction v as [| | | | | |l IH|d IH] using value_ind'; try apply FR_same.
  - rewrite !walk_list. apply FR_list. apply Forall2_maps. exact IH.
  - rewrite !walk_dict. apply FR_dict. apply Forall2_maps. revert IH. apply Forall_impl. intros [k x] Hx.
    cbn [fst snd] in *. split; [reflexivity|]. destruct (member_cases k x) as [(HK & ps & ET)|HP].
    + rewrite (walk_member_text a n k x ps HK ET), (walk_member_text a n' k x ps HK ET).
      unfold is_action_key in HK. destruct (str_eqb k K_ACTION); [left; apply FR_same | right].
      split; [exact HK|]. split; [rewrite action_text_vstrs; discriminate | eexists; reflexivity].
    + left. rewrite !walk_member_plain by exact HP. exact Hx.
Qed.

(* IDEMPOTENCE on Action elements: if expanding an expanded Action list gives the same list, then a second walk
   can only change NotAction text, and changes nothing where there is none *)
Section WalkIdem.
Variable expA expN : list str -> list str.
Hypothesis HA : forall ps, expA (expA ps) = expA ps.
Notation walk := (walk expA expN).

Theorem walk_twice v : frame_rel is_notaction_key (walk v) (walk (walk v)).
Proof.
  rewrite walk_compose, (walk_ext _ _ expA (fun ps => expN (expN ps)) HA (fun _ => eq_refl)).
  apply walk_same_action_frame.
Qed.

Theorem walk_idem_no_notaction v : has_notaction_text v = false -> walk (walk v) = walk v.
Proof. intros H. rewrite walk_compose. apply walk_ext_action; assumption. Qed.
End WalkIdem.

(* catalogue entries used as patterns: each matches exactly itself (needs the catalogue invariants) *)

Lemma entry_matches_itself_only cat : catalogue_spec cat ->
  forall p a, In p cat -> In a cat -> (glob_ci p a = true <-> a = p).
Proof.
  intros (_ & _ & Hl & He) p a Hp Ha. rewrite Forall_forall in He.
  destruct (He p Hp) as (_ & H1 & H2 & _). rewrite (glob_ci_literal p a H1 H2). split.
  - intros E. exact (NoDup_map_inj lower cat a p Hl Ha Hp E).
  - intros ->. reflexivity.
Qed.

(* a list of patterns each of which, within the catalogue, matches itself and nothing else: as Action it expands to
   itself (once sorted), as NotAction to its complement *)
Section SelfMatching.
Variables cat l : list str.
Hypothesis Hself : forall p a, In p l -> In a cat -> (glob_ci p a = true <-> a = p).
Hypothesis Hincl : incl l cat.

Lemma expand_self : StronglySorted str_lt l -> expand cat l = l.
Proof.
  intros Hs. apply ssorted_ext; [apply nodup_sort_sorted | exact Hs |]. intros a. rewrite action_mem. split.
  - intros [Ha (p & Hp & Hm)]. apply (Hself p a Hp Ha) in Hm. subst. exact Hp.
  - intros Ha. split; [apply Hincl; exact Ha|]. exists a. split; [exact Ha|]. apply (Hself a a Ha (Hincl a Ha)). reflexivity.
Qed.
Lemma expand_not_self a : In a (expand_not cat l) <-> In a cat /\ ~ In a l.
Proof.
  rewrite notaction_mem. split; intros [Ha H]; (split; [exact Ha|]).
  - intros Hl. specialize (H a Hl). rewrite (proj2 (Hself a a Hl Ha) eq_refl) in H. discriminate.
  - intros p Hp. destruct (glob_ci p a) eqn:E; [|reflexivity]. apply (Hself p a Hp Ha) in E. subst. contradiction.
Qed.
End SelfMatching.

(* over a well-formed catalogue, a strictly sorted list of entries expands to itself ... *)
Theorem expand_entries_fixed cat l : catalogue_spec cat -> StronglySorted str_lt l -> incl l cat -> expand cat l = l.
Proof.
  intros Hc Hs Hi. apply expand_self; [|exact Hi | exact Hs]. intros p a Hp. exact (entry_matches_itself_only cat Hc p a (Hi p Hp)).
Qed.
(* ... and its NotAction expansion is its complement *)
Theorem expand_not_entries cat l a : catalogue_spec cat -> incl l cat ->
  (In a (expand_not cat l) <-> In a cat /\ ~ In a l).
Proof.
  intros Hc Hi. apply expand_not_self. intros p b Hp. exact (entry_matches_itself_only cat Hc p b (Hi p Hp)).
Qed.

Theorem expand_idem cat ps : catalogue_spec cat -> expand cat (expand cat ps) = expand cat ps.
Proof. intros Hc. apply expand_entries_fixed; [exact Hc | apply nodup_sort_sorted | apply expand_incl_cat]. Qed.

(* NotAction is not idempotent but an involution: the complement of the complement is the expansion *)
Theorem expand_not_involution cat ps : catalogue_spec cat -> expand_not cat (expand_not cat ps) = expand cat ps.
Proof.
  intros Hc. apply ssorted_ext; try apply nodup_sort_sorted. intros a.
  rewrite (expand_not_entries cat _ a Hc (proj2 (expand_incl_cat cat ps))). symmetry. apply expand_complement.
Qed.

(* the complement of an expansion is the complement of its patterns *)
Lemma expand_not_of_expand cat ps : catalogue_spec cat -> expand_not cat (expand cat ps) = expand_not cat ps.
Proof.
  intros Hc. apply ssorted_ext; try apply nodup_sort_sorted. intros a.
  rewrite (expand_not_entries cat _ a Hc (proj1 (expand_incl_cat cat ps))). symmetry. apply expand_not_complement.
Qed.

Theorem expand_tree_twice cat v : catalogue_spec cat ->
  frame_rel is_notaction_key (expand_tree cat v) (expand_tree cat (expand_tree cat v)).
Proof. intros Hc. apply walk_twice. intros ps. apply expand_idem. exact Hc. Qed.

(* without NotAction text the second application is the identity *)
Theorem expand_tree_idem cat v : catalogue_spec cat -> has_notaction_text v = false ->
  expand_tree cat (expand_tree cat v) = expand_tree cat v.
Proof. intros Hc H. apply walk_idem_no_notaction; [intros ps; apply expand_idem; exact Hc | exact H]. Qed.

(* what a NotAction element becomes on the second application: the expansion itself (involution) *)
Theorem notaction_twice cat x ps : catalogue_spec cat -> action_text x = Some ps ->
  walk_member (expand cat) (expand_not cat) K_NOTACTION (walk_member (expand cat) (expand_not cat) K_NOTACTION x)
  = vstrs (expand cat ps).
Proof.
  intros Hc H. rewrite (walk_member_text _ _ K_NOTACTION x ps eq_refl H).
  rewrite (walk_member_text _ _ K_NOTACTION _ _ eq_refl (action_text_vstrs _)). cbn [str_eqb K_NOTACTION K_ACTION N.eqb Pos.eqb andb].
  rewrite expand_not_involution by exact Hc. reflexivity.
Qed.
