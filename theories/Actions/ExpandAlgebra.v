(* C09 corollaries of the pattern algebra (Glob/GlobAlgebra.v): patterns that are equivalent as globs -- under the matcher used
   for action names, blind to ASCII letter case -- have the SAME expansion over ANY catalogue, in every entry point.
   Hence "a**" expands as "a*", "a*?" as "a?*", a pattern as its normal form. *)
From Coq Require Import List Bool NArith.
From PV Require Import Base.Str Glob.GlobAlgebra Run.RState Actions.Expand Actions.ExpandThm.
Import ListNotations.
Local Open Scope N_scope.

(* the normal form of GlobAlgebra at the running instance: code points, '*' = 42, '?' = 63 *)
Definition norm_pat (p : str) : str := norm N N.eqb STAR QM p.

(* equivalent as action patterns: they match the same names *)
Definition ci_equiv (p q : str) : Prop := forall a, glob_ci p a = glob_ci q a.

Lemma ci_equiv_refl p : ci_equiv p p.
Proof. intros a. reflexivity. Qed.
Lemma ci_equiv_sym p q : ci_equiv p q -> ci_equiv q p.
Proof. intros H a. symmetry. apply H. Qed.
Lemma ci_equiv_trans p q r : ci_equiv p q -> ci_equiv q r -> ci_equiv p r.
Proof. intros H1 H2 a. rewrite H1. apply H2. Qed.

Theorem ci_equiv_star_run p q n : ci_equiv (p ++ repeat STAR (S n) ++ q) (p ++ [STAR] ++ q).
Proof. intros a. exact (ci_star_run N N.eqb N.eqb_eq STAR QM lower_cp lower_cp_star p q n a). Qed.
Theorem ci_equiv_star_star p q : ci_equiv (p ++ [STAR; STAR] ++ q) (p ++ [STAR] ++ q).
Proof. exact (ci_equiv_star_run p q 1). Qed.
Theorem ci_equiv_star_qm p q : ci_equiv (p ++ [STAR; QM] ++ q) (p ++ [QM; STAR] ++ q).
Proof. intros a. exact (ci_star_qm_commute N N.eqb N.eqb_eq STAR QM lower_cp lower_cp_star lower_cp_qm p q a). Qed.
Theorem ci_equiv_norm p : ci_equiv (norm_pat p) p.
Proof. intros a. exact (ci_norm_correct N N.eqb N.eqb_eq STAR QM lower_cp lower_cp_star lower_cp_qm p a). Qed.
Theorem ci_equiv_case p : ci_equiv (lower p) p.
Proof. intros a. exact (glob_ci_fold_pattern N N.eqb STAR QM lower_cp p a lower_cp_idem). Qed.

(* set-wise: every member of one list has an equivalent member in the other *)
Definition covers (ps qs : list str) : Prop := forall p, In p ps -> exists q, In q qs /\ ci_equiv p q.

Lemma covers_incl ps qs : incl ps qs -> covers ps qs.
Proof. intros H p Hp. exists p. split; [apply H; exact Hp | apply ci_equiv_refl]. Qed.
Lemma covers_trans ps qs rs : covers ps qs -> covers qs rs -> covers ps rs.
Proof.
  intros H1 H2 p Hp. destruct (H1 p Hp) as (q & Hq & E1). destruct (H2 q Hq) as (r & Hr & E2).
  exists r. split; [exact Hr | exact (ci_equiv_trans _ _ _ E1 E2)].
Qed.
Lemma covers_spelling ps qs : Forall2 ci_equiv ps qs -> covers ps qs /\ covers qs ps.
Proof.
  induction 1 as [|p q ps qs Hpq _ [IH1 IH2]]; [split; intros p []|].
  split; (intros r [<-|Hr]; [eexists; split; [left; reflexivity|] | ]).
  - exact Hpq.
  - destruct (IH1 r Hr) as (r' & Hr' & E). exists r'. split; [right; exact Hr' | exact E].
  - apply ci_equiv_sym. exact Hpq.
  - destruct (IH2 r Hr) as (r' & Hr' & E). exists r'. split; [right; exact Hr' | exact E].
Qed.

(* a list matches whatever a list it is covered by matches *)
Lemma any_match_mono ps qs a : covers ps qs -> any_match ps a = true -> any_match qs a = true.
Proof.
  intros H. rewrite !any_match_true. intros (p & Hp & Hm). destruct (H p Hp) as (q & Hq & E).
  exists q. rewrite <- (E a). split; assumption.
Qed.
Lemma any_match_covers ps qs : covers ps qs -> covers qs ps -> forall a, any_match ps a = any_match qs a.
Proof. intros H1 H2 a. apply eq_true_iff_eq. split; apply any_match_mono; assumption. Qed.
Lemma any_match_equiv ps qs : Forall2 ci_equiv ps qs -> forall a, any_match ps a = any_match qs a.
Proof. intros H. apply covers_spelling in H. destruct H. apply any_match_covers; assumption. Qed.

(* the patterns enter an expansion only through what they match *)
Lemma expand_of_any_match cat ps qs : (forall a, any_match ps a = any_match qs a) ->
  expand cat ps = expand cat qs /\ expand_not cat ps = expand_not cat qs.
Proof.
  intros H. unfold expand, expand_not, expand_g, expand_not_g. split; f_equal; apply filter_ext; intros a.
  - exact (H a).
  - f_equal. exact (H a).
Qed.

(* expansion of a list depends only on the SET of patterns up to equivalence (Action and NotAction alike) *)
Theorem expand_equiv_sets cat ps qs : covers ps qs -> covers qs ps ->
  expand cat ps = expand cat qs /\ expand_not cat ps = expand_not cat qs.
Proof. intros H1 H2. apply expand_of_any_match. apply any_match_covers; assumption. Qed.

Theorem expand_equiv cat ps qs : Forall2 ci_equiv ps qs ->
  expand cat ps = expand cat qs /\ expand_not cat ps = expand_not cat qs.
Proof. intros H. apply expand_of_any_match. apply any_match_equiv. exact H. Qed.

(* one pattern, every entry point *)
Theorem expand_action_equiv cat p q na : ci_equiv p q -> expand_action cat p na = expand_action cat q na.
Proof.
  intros H. assert (HF : Forall2 ci_equiv [p] [q]) by (constructor; [exact H | constructor]).
  destruct (expand_equiv cat [p] [q] HF) as [H1 H2]. unfold expand_action. destruct na; assumption.
Qed.

Inductive arg_equiv : action_arg -> action_arg -> Prop :=
| ae_one p q : ci_equiv p q -> arg_equiv (OneAction p) (OneAction q)
| ae_many ps qs : Forall2 ci_equiv ps qs -> arg_equiv (ManyActions ps) (ManyActions qs).

Theorem expand_actions_equiv cat x y na : arg_equiv x y -> expand_actions cat x na = expand_actions cat y na.
Proof.
  intros H. destruct H as [p q Hpq|ps qs HF]; cbn [expand_actions].
  - apply expand_action_equiv. exact Hpq.
  - destruct (expand_equiv cat ps qs HF) as [H1 H2]. destruct na; assumption.
Qed.

(* a statement: whatever relation [R] between pattern lists preserves what they match, statements whose Action lists and
   whose NotAction lists (both present or both absent) are related expand alike *)
Lemma stmt_expanded_rel (R : list str -> list str -> Prop) cat acts acts' nots nots' :
  (forall ps qs, R ps qs -> forall a, any_match ps a = any_match qs a) ->
  R acts acts' ->
  match nots, nots' with
  | Some ns, Some ns' => R ns ns'
  | None, None => True
  | _, _ => False
  end ->
  stmt_expanded cat acts nots = stmt_expanded cat acts' nots'.
Proof.
  intros HR Ha Hn. unfold stmt_expanded. f_equal. apply filter_ext. intros a. unfold stmt_pred.
  rewrite (HR _ _ Ha a). f_equal.
  destruct nots as [ns|], nots' as [ns'|]; try contradiction; [|reflexivity]. rewrite (HR _ _ Hn a). reflexivity.
Qed.
Theorem stmt_expanded_equiv cat acts acts' nots nots' :
  Forall2 ci_equiv acts acts' ->
  match nots, nots' with
  | Some ns, Some ns' => Forall2 ci_equiv ns ns'
  | None, None => True
  | _, _ => False
  end ->
  stmt_expanded cat acts nots = stmt_expanded cat acts' nots'.
Proof. apply stmt_expanded_rel. exact any_match_equiv. Qed.

Theorem expand_norm cat p na : expand_action cat (norm_pat p) na = expand_action cat p na.
Proof. apply expand_action_equiv. apply ci_equiv_norm. Qed.

Lemma Forall2_map_equiv (f : str -> str) ps : (forall p, ci_equiv (f p) p) -> Forall2 ci_equiv (map f ps) ps.
Proof. intros H. induction ps as [|p ps IH]; cbn [map]; constructor; [apply H | exact IH]. Qed.

Theorem expand_norm_list cat ps :
  expand cat (map norm_pat ps) = expand cat ps /\ expand_not cat (map norm_pat ps) = expand_not cat ps.
Proof. apply expand_equiv. apply Forall2_map_equiv. exact ci_equiv_norm. Qed.
Theorem expand_lower_list cat ps :
  expand cat (map lower ps) = expand cat ps /\ expand_not cat (map lower ps) = expand_not cat ps.
Proof. apply expand_equiv. apply Forall2_map_equiv. exact ci_equiv_case. Qed.
