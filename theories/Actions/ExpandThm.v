(* C09 -- theorems about the running instance (glob_ci) and the entry-point models. *)
From Coq Require Import List Bool NArith Sorting.Sorted Permutation.
From PV Require Import Base.Str Glob.Glob Run.RState Actions.Expand.
Import ListNotations.
Local Open Scope N_scope.

(* ASCII case folding leaves every character below 'A' alone, the two wildcards among them *)
Lemma lower_cp_star c : N.eqb (lower_cp c) STAR = N.eqb c STAR.
Proof. apply lower_cp_eqb. reflexivity. Qed.
Lemma lower_cp_qm c : N.eqb (lower_cp c) QM = N.eqb c QM.
Proof. apply lower_cp_eqb. reflexivity. Qed.
Lemma STAR_neq_QM : STAR <> QM.
Proof. discriminate. Qed.

Lemma glob_ci_star a : glob_ci [STAR] a = true.
Proof. exact (glob_star_any N N.eqb N.eqb_eq STAR QM (map lower_cp a)). Qed.

(* a pattern without wildcards matches the names that are the pattern up to letter case *)
Lemma glob_ci_literal p a : ~ In STAR p -> ~ In QM p -> (glob_ci p a = true <-> lower a = lower p).
Proof.
  intros H1 H2. apply (glob_literal N N.eqb N.eqb_eq STAR QM (map lower_cp p)). apply Forall_forall.
  intros c Hc. apply in_map_iff in Hc. destruct Hc as (c0 & <- & Hc0).
  rewrite <- !N.eqb_neq, lower_cp_star, lower_cp_qm, !N.eqb_neq. split; intros ->; contradiction.
Qed.

Lemma any_match_true ps a : any_match ps a = true <-> exists p, In p ps /\ glob_ci p a = true.
Proof. apply existsb_exists. Qed.

Theorem action_mem cat ps a :
  In a (expand cat ps) <-> In a cat /\ exists p, In p ps /\ glob_ci p a = true.
Proof. apply action_mem_g. Qed.

Theorem notaction_mem cat ps a :
  In a (expand_not cat ps) <-> In a cat /\ forall p, In p ps -> glob_ci p a = false.
Proof. apply notaction_mem_g. Qed.

Lemma action_mem_one cat p a : In a (expand cat [p]) <-> In a cat /\ glob_ci p a = true.
Proof. rewrite action_mem. split; [intros [Hc (q & [<-|[]] & Hm)] | intros [Hc Hm]]; eauto using in_eq. Qed.
Lemma notaction_mem_one cat p a : In a (expand_not cat [p]) <-> In a cat /\ glob_ci p a = false.
Proof.
  rewrite notaction_mem. split; intros [Hc H]; (split; [exact Hc|]); [apply H, in_eq | intros q [<-|[]]; exact H].
Qed.

Theorem sorted_nodup cat ps :
  StronglySorted str_lt (expand cat ps) /\ NoDup (expand cat ps) /\
  StronglySorted str_lt (expand_not cat ps) /\ NoDup (expand_not cat ps).
Proof.
  destruct (sorted_nodup_g glob_ci cat ps) as [H1 H2].
  repeat split; try assumption; apply ssorted_NoDup; assumption.
Qed.

Theorem partition cat ps :
  (forall a, In a (expand cat ps) -> In a (expand_not cat ps) -> False) /\
  (forall a, In a cat <-> In a (expand cat ps) \/ In a (expand_not cat ps)) /\
  Permutation (expand cat ps ++ expand_not cat ps) (nodup_sort cat).
Proof.
  split; [|split].
  - apply partition_disjoint_g.
  - apply partition_cover_g.
  - apply partition_perm_g.
Qed.

Theorem expand_incl_cat cat ps : incl (expand cat ps) cat /\ incl (expand_not cat ps) cat.
Proof.
  split; intros a Ha.
  - apply action_mem in Ha. tauto.
  - apply notaction_mem in Ha. tauto.
Qed.

(* each of the two expansions is the complement of the other within the catalogue *)
Lemma expand_complement cat ps a : In a (expand cat ps) <-> In a cat /\ ~ In a (expand_not cat ps).
Proof.
  destruct (partition cat ps) as (D & C & _). rewrite (C a). split.
  - intros H. split; [left; exact H | exact (D a H)].
  - intros [[H|H] N]; [exact H | contradiction].
Qed.
Lemma expand_not_complement cat ps a : In a (expand_not cat ps) <-> In a cat /\ ~ In a (expand cat ps).
Proof.
  destruct (partition cat ps) as (D & C & _). rewrite (C a). split.
  - intros H. split; [right; exact H | intros N; exact (D a N H)].
  - intros [[H|H] N]; [contradiction | exact H].
Qed.

Theorem union_law cat ps qs : expand cat (ps ++ qs) = nodup_sort (expand cat ps ++ expand cat qs).
Proof. apply union_law_g. Qed.

Theorem demorgan_law cat ps qs :
  expand_not cat (ps ++ qs) = inter (expand_not cat ps) (expand_not cat qs).
Proof. apply demorgan_law_g. Qed.

Theorem expand_is_filter cat ps :
  StronglySorted str_lt cat ->
  expand cat ps = filter (any_match ps) cat /\
  expand_not cat ps = filter (fun a => negb (any_match ps a)) cat.
Proof. intros H. split; [apply expand_g_filter | apply expand_not_g_filter]; exact H. Qed.

Theorem api_single_vs_list cat p na :
  expand_action cat p na = expand_actions cat (ManyActions [p]) na /\
  expand_actions cat (OneAction p) na = expand_actions cat (ManyActions [p]) na.
Proof. split; destruct na; reflexivity. Qed.

Theorem api_list cat ps :
  expand_actions cat (ManyActions ps) false = expand cat ps /\
  expand_actions cat (ManyActions ps) true = expand_not cat ps.
Proof. split; reflexivity. Qed.

Lemma stmt_expanded_In cat acts nots a :
  In a (stmt_expanded cat acts nots) <-> In a cat /\ stmt_pred acts nots a = true.
Proof. unfold stmt_expanded. rewrite nodup_sort_In. apply filter_In. Qed.

Theorem api_statement cat acts nots :
  stmt_expanded cat acts nots =
    nodup_sort (expand cat acts ++ match nots with Some ns => expand_not cat ns | None => [] end).
Proof.
  apply ssorted_ext; try apply nodup_sort_sorted. intros a.
  rewrite stmt_expanded_In, nodup_sort_In, in_app_iff. unfold stmt_pred, expand, expand_not, expand_g, expand_not_g.
  rewrite orb_true_iff, nodup_sort_In, filter_In. destruct nots as [ns|].
  - rewrite nodup_sort_In, filter_In. tauto.
  - cbn [In]. intuition discriminate.
Qed.
Theorem api_statement_action_only cat acts : stmt_expanded cat acts None = expand cat acts.
Proof. unfold stmt_expanded, expand, expand_g. f_equal. apply filter_ext. intros a. apply orb_false_r. Qed.
Theorem api_statement_notaction_only cat ns : stmt_expanded cat [] (Some ns) = expand_not cat ns.
Proof. reflexivity. Qed.

Lemma stmt_list_In cat s a : In a (stmt_list cat s) <-> In a cat /\ stmt_has s a = true.
Proof. apply stmt_expanded_In. Qed.

Theorem allowed_actions_In cat ss a :
  In a (allowed_actions cat ss) <-> exists s, In s ss /\ is_allow s = true /\ In a (stmt_list cat s).
Proof.
  unfold allowed_actions. rewrite nodup_sort_In, filter_In, existsb_exists.
  setoid_rewrite stmt_list_In. setoid_rewrite andb_true_iff. split.
  - intros [Hc (s & Hs & H1 & H2)]. eauto.
  - intros (s & Hs & H1 & Hc & H2). split; [exact Hc|]. exists s. auto.
Qed.
Theorem api_allowed cat ss :
  allowed_actions cat ss = nodup_sort (flat_map (stmt_list cat) (filter is_allow ss)).
Proof.
  apply ssorted_ext; try apply nodup_sort_sorted. intros a.
  rewrite allowed_actions_In, nodup_sort_In, in_flat_map. setoid_rewrite filter_In. split.
  - intros (s & Hs & H1 & H2). eauto.
  - intros (s & [Hs H1] & H2). eauto.
Qed.

Theorem iam_actions_In cat ss a :
  In a (iam_actions cat ss) <-> (exists r, a = S_IAM ++ r) /\ exists s, In s ss /\ In a (stmt_list cat s).
Proof.
  unfold iam_actions. rewrite nodup_sort_In, filter_In, andb_true_iff, starts_with_spec, existsb_exists.
  setoid_rewrite stmt_list_In. split.
  - intros [Hc [Hp (s & Hs & H)]]. eauto.
  - intros [Hp (s & Hs & Hc & H)]. split; [exact Hc|]. split; [exact Hp|]. exists s. auto.
Qed.
Theorem api_iam cat ss :
  iam_actions cat ss = nodup_sort (filter (starts_with S_IAM) (flat_map (stmt_list cat) ss)).
Proof.
  apply ssorted_ext; try apply nodup_sort_sorted. intros a.
  rewrite iam_actions_In, nodup_sort_In, filter_In, in_flat_map, starts_with_spec. tauto.
Qed.
