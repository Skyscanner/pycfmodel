(* C09 / C10 -- what happens to an expansion when the CATALOGUE changes (an upstream release adds actions).
   [cat] the old catalogue, [cat'] the new one, every entry of [cat] an entry of [cat'] ([incl cat cat']).
   * MONOTONE: the expansion over [cat] is the expansion over [cat'] restricted to [cat], for Action and for NotAction alike
     -- for ANY two lists, no well-formedness needed (expansion sorts and de-duplicates on its own);
   * FIXED POINT: a strictly sorted list of entries of a well-formed catalogue expands to itself; hence an expansion made with
     the old catalogue is unchanged by an expansion with the new one, PROVIDED the new one is well-formed; the exact condition
     (old catalogue well-formed): no entry of the new catalogue differs from an old entry by letter case only;
   * canonical form: the length of an expansion is at most the length of the catalogue. *)
From Coq Require Import List Bool NArith Lia Permutation.
From PV Require Import Base.Str Base.ListFacts Base.Value Run.RState.
From PV Require Import Actions.Expand Actions.ExpandThm Actions.Catalogue Actions.TreeThm.
Import ListNotations.
Local Open Scope N_scope.

Lemma ins_length x l : (length (ins x l) <= S (length l))%nat.
Proof.
  induction l as [|y l IH]; cbn [ins length]; [lia|].
  destruct (str_ltb x y); cbn [length]; [lia|]. destruct (str_eqb x y); cbn [length]; lia.
Qed.
Lemma nodup_sort_length l : (length (nodup_sort l) <= length l)%nat.
Proof.
  induction l as [|x l IH]; cbn [nodup_sort fold_right length]; [lia|].
  fold (nodup_sort l). pose proof (ins_length x (nodup_sort l)) as H. lia.
Qed.

(* whatever is selected from the catalogue, sorted and de-duplicated, is no longer than the catalogue *)
Lemma selection_length (f : str -> bool) cat : (length (nodup_sort (filter f cat)) <= length cat)%nat.
Proof. pose proof (nodup_sort_length (filter f cat)). pose proof (filter_length_le f cat). lia. Qed.

Theorem expand_length cat ps : (length (expand cat ps) <= length cat)%nat.
Proof. apply selection_length. Qed.
Theorem expand_not_length cat ps : (length (expand_not cat ps) <= length cat)%nat.
Proof. apply selection_length. Qed.
(* Action and NotAction of the same patterns together: exactly the distinct entries of the catalogue *)
Theorem expand_lengths_add cat ps :
  (length (expand cat ps) + length (expand_not cat ps) = length (nodup_sort cat))%nat.
Proof.
  destruct (partition cat ps) as (_ & _ & HP). apply Permutation_length in HP. rewrite app_length in HP. exact HP.
Qed.

(* MONOTONE in the catalogue: holds of any selection [nodup_sort (filter f cat)], so of Action and NotAction alike *)

(* every entry of [cat] is an entry of [cat'], as a check *)
Definition sub_catalogue (cat cat' : list str) : bool := forallb (fun a => mem_str a cat') cat.
Lemma sub_catalogue_incl cat cat' : sub_catalogue cat cat' = true <-> incl cat cat'.
Proof. unfold sub_catalogue, incl. rewrite forallb_forall. split; intros H a Ha; apply mem_str_In, H, Ha. Qed.

(* the members of [l] that are entries of [cat], in the order of [l] *)
Definition restrict (cat l : list str) : list str := filter (fun a => mem_str a cat) l.
Lemma restrict_In cat l a : In a (restrict cat l) <-> In a l /\ In a cat.
Proof. unfold restrict. rewrite filter_In, mem_str_In. tauto. Qed.

Lemma selection_mono (f : str -> bool) cat cat' : incl cat cat' ->
  nodup_sort (filter f cat) = restrict cat (nodup_sort (filter f cat')).
Proof.
  intros Hi. apply ssorted_ext; [apply nodup_sort_sorted | apply ssorted_filter, nodup_sort_sorted |].
  intros a. rewrite restrict_In, !nodup_sort_In, !filter_In. specialize (Hi a). tauto.
Qed.
Theorem expand_mono_catalogue cat cat' ps : incl cat cat' -> expand cat ps = restrict cat (expand cat' ps).
Proof. apply selection_mono. Qed.
Theorem expand_not_mono_catalogue cat cat' ps : incl cat cat' -> expand_not cat ps = restrict cat (expand_not cat' ps).
Proof. apply selection_mono. Qed.

(* said member by member: nothing returned before disappears; whatever is new in the result is new in the catalogue *)
Lemma restrict_members cat cat' l l' : l = restrict cat l' -> incl l' cat' ->
  (forall a, In a l -> In a l') /\ (forall a, In a l' -> ~ In a l -> In a cat' /\ ~ In a cat).
Proof.
  intros -> Hi. split; intros a Ha.
  - apply restrict_In in Ha. tauto.
  - intros Hn. split; [exact (Hi a Ha)|]. intros Hc. apply Hn, restrict_In. tauto.
Qed.

(* two catalogues with the same entries (any order, any repetition) expand alike *)
Lemma selection_same_entries (f : str -> bool) cat cat' : (forall a, In a cat <-> In a cat') ->
  nodup_sort (filter f cat) = nodup_sort (filter f cat').
Proof.
  intros H. apply ssorted_ext; try apply nodup_sort_sorted. intros a. rewrite !nodup_sort_In, !filter_In, (H a). tauto.
Qed.
Theorem expand_same_entries cat cat' ps : (forall a, In a cat <-> In a cat') ->
  expand cat ps = expand cat' ps /\ expand_not cat ps = expand_not cat' ps.
Proof. intros H. split; apply selection_same_entries, H. Qed.

(* idempotence survives a catalogue update: what was expanded with the old catalogue is a fixed point of expansion with
   the new one, when the NEW catalogue is well-formed (nothing is asked of the old one beyond being a part of the new) *)
Theorem expand_fixed_after_update cat cat' ps : catalogue_spec cat' -> incl cat cat' ->
  expand cat' (expand cat ps) = expand cat ps /\ expand cat' (expand_not cat ps) = expand_not cat ps.
Proof.
  intros Hc Hi. destruct (expand_incl_cat cat ps) as [IA IN].
  split; (apply expand_entries_fixed; [exact Hc | apply nodup_sort_sorted |]); intros a Ha; apply Hi; [apply IA | apply IN]; exact Ha.
Qed.

(* a NotAction element expanded with the old catalogue and expanded AGAIN with the new one: the actions matched by the
   patterns (the involution) together with every action the update added *)
Theorem expand_not_twice_after_update cat cat' ps a : catalogue_spec cat' -> incl cat cat' ->
  (In a (expand_not cat' (expand_not cat ps)) <-> In a (expand cat ps) \/ (In a cat' /\ ~ In a cat)).
Proof.
  intros Hc Hi. destruct (expand_incl_cat cat ps) as [_ IN].
  rewrite (expand_not_entries cat' (expand_not cat ps) a Hc) by (intros b Hb; exact (Hi b (IN b Hb))).
  rewrite (expand_complement cat ps a). specialize (Hi a). specialize (IN a). destruct (in_dec str_eq_dec a cat); tauto.
Qed.

(* THE EXACT CONDITION (old catalogue well-formed): expansions over [cat] are fixed points of expansion over [cat'] for every
   pattern list IF AND ONLY IF no entry of [cat'] differs from an entry of [cat] by ASCII letter case only *)
Definition no_case_variant (cat cat' : list str) : Prop :=
  forall q a, In q cat -> In a cat' -> lower a = lower q -> a = q.

(* an entry has no wildcard: as a pattern it matches the names that are the entry up to letter case *)
Lemma entry_literal cat q a : catalogue_spec cat -> In q cat -> (glob_ci q a = true <-> lower a = lower q).
Proof.
  intros (_ & _ & _ & He) Hq. rewrite Forall_forall in He. destruct (He q Hq) as (_ & H1 & H2 & _).
  exact (glob_ci_literal q a H1 H2).
Qed.

Theorem fixed_after_update_iff cat cat' : catalogue_spec cat -> incl cat cat' ->
  ((forall ps, expand cat' (expand cat ps) = expand cat ps) <-> no_case_variant cat cat').
Proof.
  intros Hc Hi. split.
  - intros H q a Hq Ha E.
    assert (Hqq : In q (expand cat [q])).
    { apply action_mem. split; [exact Hq|]. exists q. split; [left; reflexivity|]. apply (entry_literal cat q q Hc Hq). reflexivity. }
    assert (Haa : In a (expand cat' (expand cat [q]))).
    { apply action_mem. split; [exact Ha|]. exists q. split; [exact Hqq|]. apply (entry_literal cat q a Hc Hq). exact E. }
    rewrite (H [q]) in Haa. apply action_mem in Haa. destruct Haa as [Hac (p & [<-|[]] & Hm)].
    apply (entry_matches_itself_only cat Hc q a Hq Hac). exact Hm.
  - intros H ps. destruct (expand_incl_cat cat ps) as [IA _]. apply expand_self; [| |apply nodup_sort_sorted].
    + intros p a Hp Ha. rewrite (entry_literal cat p a Hc (IA p Hp)). split; [exact (H p a (IA p Hp) Ha) | intros ->; reflexivity].
    + intros a Ha. exact (Hi a (IA a Ha)).
Qed.

(* a well-formed new catalogue has no case variants (of anything in it) *)
Lemma ok_no_case_variant cat cat' : catalogue_spec cat' -> incl cat cat' -> no_case_variant cat cat'.
Proof.
  intros (_ & _ & Hl & _) Hi q a Hq Ha E. exact (NoDup_map_inj lower cat' a q Hl Ha (Hi q Hq) E).
Qed.
