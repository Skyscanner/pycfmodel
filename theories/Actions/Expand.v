(* C09 -- action expansion as set algebra over an ARBITRARY catalogue.
   Model of pycfmodel/action_expander.py (_expand_action, _expand_actions), Statement.get_expanded_action_list,
   PolicyDocument.get_allowed_actions / get_iam_actions.  Executable definitions and their laws. *)
From Coq Require Import List Bool NArith Sorting.Sorted Permutation.
From PV Require Import Base.Str Base.ListFacts Base.Value Run.RState.
From PV Require Policy.StrSet.
Import ListNotations.
Local Open Scope N_scope.

(* [STAR], [QM], [glob_cs], [glob_ci], [strs_of] of this model are defined in Run/RState.v, with the runner's state.
   sorted(set(l)) : Python's sorted() on str is code-point lexicographic order = str_ltb *)

Fixpoint ins (x : str) (l : list str) : list str :=
  match l with
  | [] => [x]
  | y :: ys => if str_ltb x y then x :: l else if str_eqb x y then l else y :: ins x ys
  end.
Definition nodup_sort (l : list str) : list str := fold_right ins [] l.

Definition ssorted : list str -> Prop := StronglySorted str_lt.

(* [ins] and [nodup_sort] are [StrSet.insert_u] and [StrSet.sort_dedup] under the names this model uses *)
Lemma nodup_sort_In y l : In y (nodup_sort l) <-> In y l.
Proof. exact (StrSet.In_sort_dedup l y). Qed.
Lemma nodup_sort_sorted l : ssorted (nodup_sort l).
Proof. exact (StrSet.sort_dedup_sorted l). Qed.

(* strongly sorted lists with the same members are EQUAL: the canonical form of a finite set of strings *)
Lemma ssorted_ext l1 : forall l2, ssorted l1 -> ssorted l2 -> (forall x, In x l1 <-> In x l2) -> l1 = l2.
Proof. exact (StrSet.sorted_unique l1). Qed.

Lemma ssorted_NoDup l : ssorted l -> NoDup l.
Proof. exact (StrSet.sorted_NoDup l). Qed.

(* sorting an already strictly sorted list changes nothing *)
Lemma nodup_sort_id l : ssorted l -> nodup_sort l = l.
Proof.
  induction 1 as [|a l Hs IH Ha]; [reflexivity|]. simpl. rewrite IH.
  destruct l as [|b l]; [reflexivity|]. simpl.
  inversion Ha as [|? ? Hab _]; subst. unfold str_lt in Hab. rewrite Hab. reflexivity.
Qed.
Lemma ssorted_filter (f : str -> bool) l : ssorted l -> ssorted (filter f l).
Proof.
  induction 1 as [|a l Hs IH Ha]; simpl; [constructor|].
  destruct (f a); [|assumption]. constructor; [assumption|].
  apply Forall_forall. intros x Hx. apply filter_In in Hx. rewrite Forall_forall in Ha. apply Ha. tauto.
Qed.
Lemma nodup_sort_idem l : nodup_sort (nodup_sort l) = nodup_sort l.
Proof. apply nodup_sort_id, nodup_sort_sorted. Qed.

(* boolean check of strict sortedness (used for the catalogue and in examples) *)
Fixpoint strictly_sorted (l : list str) : bool :=
  match l with
  | [] => true
  | a :: l' => match l' with [] => true | b :: _ => str_ltb a b && strictly_sorted l' end
  end.
Lemma strictly_sorted_ok l : strictly_sorted l = true -> ssorted l.
Proof.
  induction l as [|a l IH]; [constructor|]. destruct l as [|b l]; [repeat constructor|].
  cbn [strictly_sorted]. rewrite andb_true_iff. intros [Hab Hr]. specialize (IH Hr).
  constructor; [assumption|]. constructor; [exact Hab|].
  inversion IH as [|? ? _ Hb]; subst. eapply Forall_impl; [|exact Hb].
  intros c Hc. exact (str_ltb_trans _ _ _ Hab Hc).
Qed.

(* set intersection of two lists, in the order of the first *)
Definition inter (l m : list str) : list str := filter (fun a => mem_str a m) l.
Lemma inter_In a l m : In a (inter l m) <-> In a l /\ In a m.
Proof. unfold inter. rewrite filter_In, mem_str_In. tauto. Qed.

(* the set laws, for an abstract matcher *)

Section Laws.
Variable matches : str -> str -> bool.      (* matches pattern action *)
Variable cat : list str.

Definition any_match_g (ps : list str) (a : str) : bool := existsb (fun p => matches p a) ps.
Definition expand_g (ps : list str) : list str := nodup_sort (filter (any_match_g ps) cat).
Definition expand_not_g (ps : list str) : list str := nodup_sort (filter (fun a => negb (any_match_g ps a)) cat).

Lemma any_match_g_false ps a : any_match_g ps a = false <-> forall p, In p ps -> matches p a = false.
Proof. apply existsb_false_iff. Qed.

Theorem action_mem_g ps a : In a (expand_g ps) <-> In a cat /\ exists p, In p ps /\ matches p a = true.
Proof. unfold expand_g. rewrite nodup_sort_In, filter_In. unfold any_match_g. rewrite existsb_exists. tauto. Qed.

Theorem notaction_mem_g ps a : In a (expand_not_g ps) <-> In a cat /\ forall p, In p ps -> matches p a = false.
Proof. unfold expand_not_g. rewrite nodup_sort_In, filter_In, negb_true_iff, any_match_g_false. tauto. Qed.

Theorem sorted_nodup_g ps : ssorted (expand_g ps) /\ ssorted (expand_not_g ps).
Proof. split; apply nodup_sort_sorted. Qed.

Theorem partition_disjoint_g ps a : In a (expand_g ps) -> In a (expand_not_g ps) -> False.
Proof.
  rewrite action_mem_g, notaction_mem_g. intros [_ (p & Hp & Hm)] [_ H]. rewrite (H p Hp) in Hm. discriminate.
Qed.
Theorem partition_cover_g ps a : In a cat <-> In a (expand_g ps) \/ In a (expand_not_g ps).
Proof.
  unfold expand_g, expand_not_g. rewrite !nodup_sort_In, !filter_In. destruct (any_match_g ps a); simpl; intuition.
Qed.
Theorem partition_perm_g ps : Permutation (expand_g ps ++ expand_not_g ps) (nodup_sort cat).
Proof.
  apply NoDup_Permutation.
  - apply NoDup_app; try (apply ssorted_NoDup, nodup_sort_sorted). intros a. exact (partition_disjoint_g ps a).
  - apply ssorted_NoDup, nodup_sort_sorted.
  - intros a. rewrite in_app_iff, nodup_sort_In. symmetry. apply partition_cover_g.
Qed.

Theorem union_law_g ps qs : expand_g (ps ++ qs) = nodup_sort (expand_g ps ++ expand_g qs).
Proof.
  apply ssorted_ext; try apply nodup_sort_sorted. intros a. unfold expand_g, any_match_g.
  rewrite !nodup_sort_In, in_app_iff, !nodup_sort_In, !filter_In, existsb_app, orb_true_iff. tauto.
Qed.
Theorem demorgan_mem_g ps qs a :
  In a (expand_not_g (ps ++ qs)) <-> In a (expand_not_g ps) /\ In a (expand_not_g qs).
Proof.
  unfold expand_not_g, any_match_g. rewrite !nodup_sort_In, !filter_In, existsb_app, negb_orb, andb_true_iff. tauto.
Qed.
Theorem demorgan_law_g ps qs : expand_not_g (ps ++ qs) = inter (expand_not_g ps) (expand_not_g qs).
Proof.
  apply ssorted_ext; [apply nodup_sort_sorted | apply ssorted_filter, nodup_sort_sorted |].
  intros a. rewrite inter_In. apply demorgan_mem_g.
Qed.
(* on a catalogue that is already strictly sorted, expansion is the plain filter, in catalogue order *)
Theorem expand_g_filter ps : ssorted cat -> expand_g ps = filter (any_match_g ps) cat.
Proof. intros H. apply nodup_sort_id, ssorted_filter, H. Qed.
Theorem expand_not_g_filter ps : ssorted cat -> expand_not_g ps = filter (fun a => negb (any_match_g ps a)) cat.
Proof. intros H. apply nodup_sort_id, ssorted_filter, H. Qed.
End Laws.

(* the instance that runs: patterns are IAM globs matched without regard to ASCII letter case (C08) *)

Definition any_match (ps : list str) (a : str) : bool := any_match_g glob_ci ps a.
Definition expand (cat ps : list str) : list str := expand_g glob_ci cat ps.
Definition expand_not (cat ps : list str) : list str := expand_not_g glob_ci cat ps.

(* action_expander._expand_action(action, not_action): one pattern *)
Definition expand_action (cat : list str) (p : str) (not_action : bool) : list str :=
  if not_action then expand_not cat [p] else expand cat [p].

(* action_expander._expand_actions(actions, not_action): a string or a list of strings *)
Inductive action_arg := OneAction (p : str) | ManyActions (ps : list str).
Definition expand_actions (cat : list str) (x : action_arg) (not_action : bool) : list str :=
  match x with
  | OneAction p => expand_action cat p not_action
  | ManyActions ps => if not_action then expand_not cat ps else expand cat ps
  end.

(* An Action / NotAction element as it appears in a statement: absent, one string, or a list. *)
Definition pats_of_value (v : value) : option (list str) :=
  match v with
  | VStr s => Some [s]
  | VList l => Some (strs_of v)
  | _ => None
  end.
Definition pats_or_nil (o : option (list str)) : list str := match o with Some l => l | None => [] end.

(* Statement.get_expanded_action_list(), SPECIFIED: the Action patterns expand to their union; a NotAction
   element, when present, expands to the catalogue entries matched by NONE of its patterns. *)
Definition stmt_pred (acts : list str) (nots : option (list str)) (a : str) : bool :=
  any_match acts a || match nots with Some ns => negb (any_match ns a) | None => false end.
Definition stmt_expanded (cat : list str) (acts : list str) (nots : option (list str)) : list str :=
  nodup_sort (filter (stmt_pred acts nots) cat).

(* what the code computed before the repair: the UNION of the per-pattern complements (kept to state the defect) *)
Definition stmt_expanded_defect (cat : list str) (acts : list str) (nots : option (list str)) : list str :=
  nodup_sort (expand cat acts ++ flat_map (fun p => expand_not cat [p]) (pats_or_nil nots)).

(* PolicyDocument, as patterns over a catalogue (C09).  Policy/Policy.v defines [stmt], [is_allow], [allowed_actions],
   [iam_actions] a second time, on the parsed document with an expansion function as parameter (C16); no lemma relates
   the two. *)
Record stmt := { s_effect : str; s_actions : list str; s_notactions : option (list str) }.
Definition S_ALLOW : str := [97; 108; 108; 111; 119].        (* "allow" *)
Definition S_IAM : str := [105; 97; 109; 58].                (* "iam:" *)
Definition is_allow (s : stmt) : bool := str_eqb (lower (s_effect s)) S_ALLOW.
Definition stmt_has (s : stmt) (a : str) : bool := stmt_pred (s_actions s) (s_notactions s) a.
Definition stmt_list (cat : list str) (s : stmt) : list str := stmt_expanded cat (s_actions s) (s_notactions s).

Definition allowed_actions (cat : list str) (ss : list stmt) : list str :=
  nodup_sort (filter (fun a => existsb (fun s => is_allow s && stmt_has s a) ss) cat).
Definition iam_actions (cat : list str) (ss : list stmt) : list str :=
  nodup_sort (filter (fun a => starts_with S_IAM a && existsb (fun s => stmt_has s a) ss) cat).
