(* C09: the set laws of action expansion as ORDER laws over the pattern list, for every catalogue and every list of patterns:
   the order of the patterns and repeated patterns are irrelevant (as EQUAL result lists), Action is monotone and NotAction
   antitone in the pattern set; the same for the pattern lists of a statement and the statements of a document. *)
From Coq Require Import List Bool NArith Permutation.
From PV Require Import Base.ListFacts Run.RState Actions.Expand Actions.ExpandThm Actions.ExpandAlgebra.
Import ListNotations.

(* same SET of patterns, same expansion: order and multiplicity of the patterns never matter *)
Theorem expand_same_set cat ps qs : incl ps qs -> incl qs ps ->
  expand cat ps = expand cat qs /\ expand_not cat ps = expand_not cat qs.
Proof. intros H1 H2. apply expand_equiv_sets; apply covers_incl; assumption. Qed.

Theorem expand_perm cat ps qs : Permutation ps qs ->
  expand cat ps = expand cat qs /\ expand_not cat ps = expand_not cat qs.
Proof. intros H. destruct (perm_incl _ _ H). apply expand_same_set; assumption. Qed.

Theorem expand_rev cat ps : expand cat (rev ps) = expand cat ps /\ expand_not cat (rev ps) = expand_not cat ps.
Proof. apply expand_perm. apply Permutation_sym. apply Permutation_rev. Qed.

(* Action grows, NotAction shrinks, when patterns are added *)
Theorem expand_mono_patterns cat ps qs : incl ps qs ->
  incl (expand cat ps) (expand cat qs) /\ incl (expand_not cat qs) (expand_not cat ps).
Proof.
  intros H. split; intros a.
  - rewrite !action_mem. intros (Hc & p & Hp & Hm). eauto.
  - rewrite !notaction_mem. intros (Hc & Hn). auto.
Qed.

Example lattice_nonvacuous :
  let cat := [[97%N; 58%N; 98%N]; [97%N; 58%N; 99%N]; [100%N; 58%N; 101%N]] in
  expand cat [[97%N; 58%N; STAR]; [100%N; 58%N; 101%N]] = expand cat [[100%N; 58%N; 101%N]; [97%N; 58%N; STAR]; [97%N; 58%N; STAR]] /\
  expand cat [[97%N; 58%N; STAR]] = [[97%N; 58%N; 98%N]; [97%N; 58%N; 99%N]] /\
  expand_not cat [[97%N; 58%N; STAR]] = [[100%N; 58%N; 101%N]].
Proof. vm_compute. repeat split. Qed.

(* the same at the level of one statement (Action and NotAction side by side): only the SETS of patterns matter *)
Theorem stmt_expanded_same_sets cat acts acts' nots nots' :
  incl acts acts' -> incl acts' acts ->
  match nots, nots' with
  | Some ns, Some ns' => incl ns ns' /\ incl ns' ns
  | None, None => True
  | _, _ => False
  end ->
  stmt_expanded cat acts nots = stmt_expanded cat acts' nots'.
Proof.
  intros Ha1 Ha2. apply (stmt_expanded_rel (fun ps qs => incl ps qs /\ incl qs ps)); [|split; assumption].
  intros ps qs [H1 H2]. apply any_match_covers; apply covers_incl; assumption.
Qed.

(* the same at the level of a policy document: only the SET of statements matters -- their order and repetitions do not --
   and adding a statement can only add allowed / IAM actions *)
Theorem doc_mono cat ss ss' : incl ss ss' ->
  incl (allowed_actions cat ss) (allowed_actions cat ss') /\ incl (iam_actions cat ss) (iam_actions cat ss').
Proof.
  intros H1. split; intros a.
  - rewrite !allowed_actions_In. intros (s & Hs & H). eauto.
  - rewrite !iam_actions_In. intros (Hp & s & Hs & H). eauto.
Qed.

Theorem doc_same_statements cat ss ss' : incl ss ss' -> incl ss' ss ->
  allowed_actions cat ss = allowed_actions cat ss' /\ iam_actions cat ss = iam_actions cat ss'.
Proof.
  intros H1 H2. split; (apply ssorted_ext; [apply nodup_sort_sorted | apply nodup_sort_sorted |]); intros a; split; apply doc_mono; assumption.
Qed.
