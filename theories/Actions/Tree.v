(* C10 -- the walk of expand_actions() over a dumped model.  SPECIFIED behaviour: inside any object, a member named
   Action / NotAction whose value is action text (a string, or a list of strings only) is replaced by its expansion;
   every other value is walked recursively (objects member by member, lists element by element); leaves are kept.
   Robust/Validators.v has its own [all_strs] and an [expand_tree guard exp] into [res value] (C05, the walk as the code
   guards it); no lemma relates the two. *)
From Coq Require Import List Bool NArith.
From PV Require Import Base.Str Base.Value Actions.Expand.
Import ListNotations.
Local Open Scope N_scope.

Definition K_ACTION : str := [65; 99; 116; 105; 111; 110].                         (* "Action" *)
Definition K_NOTACTION : str := [78; 111; 116; 65; 99; 116; 105; 111; 110].        (* "NotAction" *)
Definition K_RESOURCES : str := [82; 101; 115; 111; 117; 114; 99; 101; 115].       (* "Resources" *)
Definition K_TYPE : str := [84; 121; 112; 101].                                     (* "Type" *)

(* a list made of strings only *)
Fixpoint all_strs (l : list value) : option (list str) :=
  match l with
  | [] => Some []
  | VStr s :: r => match all_strs r with Some ss => Some (s :: ss) | None => None end
  | _ :: _ => None
  end.
(* action text: a string or a list of strings (action_expander._is_action_text) *)
Definition action_text (v : value) : option (list str) :=
  match v with
  | VStr s => Some [s]
  | VList l => all_strs l
  | _ => None
  end.
Definition vstrs (l : list str) : value := VList (map VStr l).

Section Walk.
(* what an Action / a NotAction pattern list is replaced by *)
Variable expA expN : list str -> list str.

Definition is_action_key (k : str) : bool := str_eqb k K_ACTION || str_eqb k K_NOTACTION.

Fixpoint walk (v : value) : value :=
  match v with
  | VDict d =>
      VDict ((fix go (d : list (str * value)) : list (str * value) :=
                match d with
                | [] => []
                | (k, x) :: r =>
                    (k, if str_eqb k K_ACTION then
                          match action_text x with Some ps => vstrs (expA ps) | None => walk x end
                        else if str_eqb k K_NOTACTION then
                          match action_text x with Some ps => vstrs (expN ps) | None => walk x end
                        else walk x) :: go r
                end) d)
  | VList l => VList (map walk l)
  | _ => v
  end.

(* the same thing said member by member *)
Definition walk_member (k : str) (x : value) : value :=
  if str_eqb k K_ACTION then match action_text x with Some ps => vstrs (expA ps) | None => walk x end
  else if str_eqb k K_NOTACTION then match action_text x with Some ps => vstrs (expN ps) | None => walk x end
  else walk x.
Lemma walk_dict d : walk (VDict d) = VDict (map (fun kv => (fst kv, walk_member (fst kv) (snd kv))) d).
Proof.
  cbn [walk]. f_equal. induction d as [|[k x] r IH]; [reflexivity|]. cbn [map fst snd]. rewrite <- IH. reflexivity.
Qed.
Lemma walk_list l : walk (VList l) = VList (map walk l).
Proof. reflexivity. Qed.

(* a member is either action text under one of the two keys, replaced by a list of strings, or it is walked *)
Lemma walk_member_text k x ps : is_action_key k = true -> action_text x = Some ps ->
  walk_member k x = vstrs (if str_eqb k K_ACTION then expA ps else expN ps).
Proof.
  unfold is_action_key, walk_member. intros HK ->. destruct (str_eqb k K_ACTION); [reflexivity|].
  cbn [orb] in HK. rewrite HK. reflexivity.
Qed.
Lemma walk_member_plain k x : is_action_key k = false \/ action_text x = None -> walk_member k x = walk x.
Proof.
  unfold is_action_key, walk_member. intros [HK| ->].
  - apply orb_false_iff in HK. destruct HK as [-> ->]. reflexivity.
  - destruct (str_eqb k K_ACTION), (str_eqb k K_NOTACTION); reflexivity.
Qed.

(* CFModel.expand_actions(): only the members of the Resources section are walked *)
Definition walk_model (t : value) : value :=
  match t with
  | VDict d =>
      VDict (map (fun kv =>
                    if str_eqb (fst kv) K_RESOURCES then
                      match snd kv with
                      | VDict rs => (fst kv, VDict (map (fun nr => (fst nr, walk (snd nr))) rs))
                      | _ => kv
                      end
                    else kv) d)
  | _ => t
  end.
End Walk.

Lemma member_cases k x :
  (is_action_key k = true /\ exists ps, action_text x = Some ps) \/ (is_action_key k = false \/ action_text x = None).
Proof. destruct (is_action_key k); [|auto]. destruct (action_text x) as [ps|]; [left; eauto | auto]. Qed.

(* the walk depends on the two replacement functions only through their values *)
Lemma walk_ext (a n a' n' : list str -> list str) :
  (forall ps, a ps = a' ps) -> (forall ps, n ps = n' ps) -> forall v, walk a n v = walk a' n' v.
Proof.
  intros HA HN v. induction v as [| | | | | |l IH|d IH] using value_ind'; try reflexivity.
  - rewrite !walk_list. f_equal. apply map_ext_Forall. exact IH.
  - rewrite !walk_dict. f_equal. apply map_ext_Forall. revert IH. apply Forall_impl. intros [k x] Hx.
    cbn [fst snd] in *. unfold walk_member. rewrite Hx. destruct (action_text x); [rewrite HA, HN|]; reflexivity.
Qed.

Definition expand_tree (cat : list str) : value -> value := walk (expand cat) (expand_not cat).
Definition expand_model (cat : list str) : value -> value := walk_model (expand cat) (expand_not cat).
