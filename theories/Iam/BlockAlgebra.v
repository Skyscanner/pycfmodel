(* C12 / C11 -- the ALGEBRA of condition blocks: what the laws of eval_block / eval_key / value_ok in Properties/C12.v are
   proved from, for ALL blocks and contexts, any leaf comparison [test], any operator table [ord], about the evaluation
   AS DEFINED in Iam/Block.v, i.e. with the three-valued verdict  Some true | Some false | None (undetermined: __call__
   caught an exception).

   Python's all()/any() over a generator stop at the first decisive member and an exception aborts them, so
   False-versus-None depends on evaluation order while "True" never does.  Every law therefore comes in three parts:
     - the part that holds UNCONDITIONALLY (always about "= Some true", or about "= Some false" for any());
     - FULL equality of the three-valued verdicts under a definedness / comparability hypothesis;
     - a REFUTATION of full equality without that hypothesis (concrete witnesses on the live table: Properties/C12.v).
   all() and any() are the one loop [sc d] of Iam/ShortCircuit.v; a law about the values of a positive / negated
   operator, or about ForAnyValue / ForAllValues, is stated once, for the verdict [d] that ends the loop. *)
From Coq Require Import List Bool ZArith Permutation.
From PV Require Import Base.Str Base.ListFacts Base.Value Iam.IpNet Iam.Ops Iam.OpNames Iam.Block Iam.ShortCircuit Iam.BlockFacts.
From PVGen Require Import Operators.
Import ListNotations.

(* Python's all()/any() with exceptions, as three-valued connectives *)

(* x and-then y / x or-else y, LEFT TO RIGHT: the right operand is looked at only when the left one does not decide;
   an undetermined left operand makes the whole undetermined (the exception escapes before y is evaluated) *)
Definition and_sc (x y : option bool) : option bool :=
  match x with Some true => y | Some false => Some false | None => None end.
Definition or_sc (x y : option bool) : option bool :=
  match x with Some true => Some true | Some false => y | None => None end.

Lemma seq_and x y : seq false x y = and_sc x y.
Proof. destruct x as [[|]|]; reflexivity. Qed.
Lemma seq_or x y : seq true x y = or_sc x y.
Proof. destruct x as [[|]|]; reflexivity. Qed.

(* r is a conjunction of r1 and r2 whose members were evaluated in an UNKNOWN interleaving:
     true  and y     = y            x and true  = x
     false and false = false        None and None = None
     false and None, None and false: false OR None (whichever member is met first decides) *)
Definition and3_spec (r1 r2 r : option bool) : Prop :=
  match r1, r2 with
  | Some true, _ => r = r2
  | _, Some true => r = r1
  | Some false, Some false => r = Some false
  | None, None => r = None
  | _, _ => r = Some false \/ r = None
  end.

Lemma and3_spec_true r1 r2 r : and3_spec r1 r2 r -> (r = Some true <-> r1 = Some true /\ r2 = Some true).
Proof.
  unfold and3_spec. destruct r1 as [[|]|], r2 as [[|]|]; intros H; subst;
    try (destruct H as [H|H]; subst); split; try tauto; try (intros [? ?]; congruence); try discriminate.
Qed.
Lemma and3_spec_false r1 r2 r : and3_spec r1 r2 r -> r = Some false -> r1 = Some false \/ r2 = Some false.
Proof.
  unfold and3_spec. destruct r1 as [[|]|], r2 as [[|]|]; intros H E; subst;
    try (destruct H as [H|H]); try discriminate; auto.
Qed.
Lemma and3_spec_none r1 r2 r : and3_spec r1 r2 r -> r = None -> r1 = None \/ r2 = None.
Proof.
  unfold and3_spec. destruct r1 as [[|]|], r2 as [[|]|]; intros H E; subst;
    try (destruct H as [H|H]); try discriminate; auto.
Qed.
Lemma and3_spec_sym r1 r2 r : and3_spec r1 r2 r -> and3_spec r2 r1 r.
Proof. destruct r1 as [[|]|], r2 as [[|]|]; simpl; auto. Qed.
Lemma and3_spec_and_sc x y : and3_spec x y (and_sc x y).
Proof. destruct x as [[|]|], y as [[|]|]; simpl; auto. Qed.
Lemma and3_spec_and_sc_rev x y : and3_spec x y (and_sc y x).
Proof. apply and3_spec_sym, and3_spec_and_sc. Qed.
(* a member evaluated before everything else, whichever part it belongs to *)
Lemma and3_spec_cons_l x r1 r2 r : and3_spec r1 r2 r -> and3_spec (and_sc x r1) r2 (and_sc x r).
Proof. intros H. destruct x as [[|]|]; simpl; [exact H | |]; destruct r2 as [[|]|]; simpl; auto. Qed.
Lemma and3_spec_cons_r x r1 r2 r : and3_spec r1 r2 r -> and3_spec r1 (and_sc x r2) (and_sc x r).
Proof. intros H. apply and3_spec_sym, and3_spec_cons_l, and3_spec_sym, H. Qed.
(* a part that cannot even be built (a function object in it) makes the whole undetermined *)
Lemma and3_spec_guard (u1 u2 : bool) r1 r2 r : and3_spec r1 r2 r ->
  and3_spec (if u1 then None else r1) (if u2 then None else r2) (if u1 || u2 then None else r).
Proof.
  intros H. destruct u1, u2; simpl; [reflexivity | | | exact H].
  - destruct r2 as [[|]|]; simpl; auto.
  - destruct r1 as [[|]|]; simpl; auto.
Qed.

Section Sc.
Context {A : Type}.
Variable f : A -> option bool.

(* every member can be evaluated: the same predicate as [ShortCircuit.defined f] (which lives in a Section there);
   [comparable_vals] below is its instance for the comparisons of one value list, and the lemmas of ShortCircuit.v
   are applied to both by conversion *)
Definition defined_on (l : list A) : Prop := forall x, In x l -> f x <> None.

Lemma all_sc_cons x l : all_sc f (x :: l) = and_sc (f x) (all_sc f l).
Proof. simpl. destruct (f x) as [[|]|]; reflexivity. Qed.
Lemma any_sc_perm l l' : Permutation l l' -> defined_on l -> any_sc f l = any_sc f l'.
Proof. rewrite !any_sc_sc. apply sc_perm. Qed.
End Sc.

(* "a function object anywhere => None, else all()" over two lists related member by member: the guard and the
   verdict are the same when they are the same member by member ... *)
Lemma guarded_congr {A B} (P : A -> B -> Prop) (h : A -> bool) (h' : B -> bool) f f' l l' :
  Forall2 P l l' -> (forall x y, P x y -> h x = h' y /\ f x = f' y) ->
  existsb h l = existsb h' l' /\ all_sc f l = all_sc f' l'.
Proof.
  intros HP H. induction HP as [|x y l l' Hxy _ [IH1 IH2]]; simpl; [auto|].
  destruct (H x y Hxy) as [-> ->]. rewrite IH1, IH2. auto.
Qed.
(* ... and "no function object" and "True" are kept when they are kept member by member *)
Lemma guarded_congr_true {A B} (P : A -> B -> Prop) (h : A -> bool) (h' : B -> bool) f f' l l' :
  Forall2 P l l' -> (forall x y, P x y -> (h x = false -> h' y = false) /\ (f x = Some true -> f' y = Some true)) ->
  (existsb h l = false -> existsb h' l' = false) /\ (all_sc f l = Some true -> all_sc f' l' = Some true).
Proof.
  intros HP H. induction HP as [|x y l l' Hxy _ [IH1 IH2]]; simpl; [auto|]. destruct (H x y Hxy) as [H1 H2]. split.
  - rewrite !orb_false_iff. intros [E1 E2]. auto.
  - destruct (f x) as [[|]|]; try discriminate. rewrite (H2 eq_refl). exact IH2.
Qed.
Section Algebra.
Variable test : base_op -> cval -> cval -> option bool.
Notation value_ok := (value_ok test).
Notation eval_inner := (eval_inner test).
Notation eval_key := (eval_key test).
Notation eval_entry := (eval_entry test).
Notation eval_block := (eval_block test).

(* The policy values listed under one key: a DISJUNCTION for a positive operator, a CONJUNCTION for a negated one.
   value_ok o ps c  is the verdict of ONE context value c against the listed policy values ps: the loop [sc d] over
   ps, where [Some d] is the verdict a single value can force (BlockFacts.value_ok_sc: negated o = negb d). *)

(* every listed policy value can be compared with the context value c *)
Definition comparable_vals (o : base_op) (ps : list cval) (c : cval) : Prop := forall p, In p ps -> test o p c <> None.

(* exact, with the undetermined case: left-to-right or-else / and-then *)
Theorem value_ok_cons o p ps c :
  value_ok o (p :: ps) c = (if negated o then and_sc else or_sc) (test o p c) (value_ok o ps c).
Proof. unfold Block.value_ok. destruct (negated o); simpl; destruct (test o p c) as [[|]|]; reflexivity. Qed.
Theorem value_ok_nil o c : value_ok o [] c = Some (negated o).
Proof. unfold Block.value_ok. destruct (negated o); reflexivity. Qed.

Lemma value_ok_defined o ps c : comparable_vals o ps c -> value_ok o ps c <> None.
Proof. rewrite (value_ok_sc_o test). apply sc_defined. Qed.

(* [Some (negb d)] needs all the values, [Some d] is forced by one of them -- the first, unless all can be compared:
   d = true, positive operator: the values are ALTERNATIVES; d = false, negated operator: they are JOINTLY EXCLUDED *)
Theorem values_polar d o ps c : negated o = negb d ->
  (value_ok o ps c = Some (negb d) <-> forall p, In p ps -> test o p c = Some (negb d)) /\
  (value_ok o ps c = Some d -> exists p, In p ps /\ test o p c = Some d) /\
  (comparable_vals o ps c -> (value_ok o ps c = Some d <-> exists p, In p ps /\ test o p c = Some d)).
Proof.
  intros Hn. rewrite (value_ok_sc test d o ps c Hn).
  split; [apply sc_through | split; [apply sc_found, stop_neq | apply sc_stop_total]].
Qed.

(* MONOTONE: more values can only turn [Some (negb d)] into [Some d] (False into True under a positive operator,
   True into False under a negated one) ... *)
Theorem values_mono d o ps qs c : negated o = negb d -> incl ps qs ->
  (value_ok o qs c = Some (negb d) -> value_ok o ps c = Some (negb d)) /\
  (comparable_vals o qs c -> value_ok o ps c = Some d -> value_ok o qs c = Some d).
Proof.
  intros Hn Hi. rewrite !(fun l => value_ok_sc test d o l c Hn).
  split; [apply sc_through_incl, Hi | intros Hc; apply sc_stop_incl; assumption].
Qed.
(* ... appended values never need the hypothesis (they are looked at only after the old ones did not decide) *)
Theorem values_mono_app d o ps qs c : negated o = negb d ->
  value_ok o ps c = Some d -> value_ok o (ps ++ qs) c = Some d.
Proof. intros Hn. rewrite !(fun l => value_ok_sc test d o l c Hn), sc_app. intros ->. apply seq_stop_l. Qed.
Theorem values_add_one d o p ps c : negated o = negb d -> test o p c <> None ->
  value_ok o ps c = Some d -> value_ok o (p :: ps) c = Some d.
Proof.
  intros Hn Hp. rewrite !(fun l => value_ok_sc test d o l c Hn). simpl. intros ->.
  destruct (test o p c) as [[|]|], d; try reflexivity; congruence.
Qed.
Theorem negated_values_add_one o p ps c : negated o = true -> test o p c <> None ->
  value_ok o ps c = Some false -> value_ok o (p :: ps) c = Some false.
Proof. exact (values_add_one false o p ps c). Qed.

(* the value list is a SET: order and repetition are irrelevant when the comparisons are defined *)
Theorem values_same_set o ps qs c : (forall p, In p ps <-> In p qs) -> comparable_vals o ps c ->
  value_ok o ps c = value_ok o qs c.
Proof. rewrite !(value_ok_sc_o test). apply sc_same_set. Qed.

(* the same at the level of one (operator, key) group with a value LIST *)

(* every comparison the group of key k can make in this context is defined *)
Definition comparable_key (o : base_op) (ps : list cval) (ctx : context) (k : str) : Prop :=
  forall x c, ctx_get ctx k = Some x -> In c (as_list x) -> comparable_vals o ps c.

Lemma comparable_key_of o ps ctx k x : ctx_get ctx k = Some x ->
  Forall (fun c => Forall (fun p => test o p c <> None) ps) (as_list x) -> comparable_key o ps ctx k.
Proof.
  intros Hx H v c Hv Hin p Hp. rewrite Hx in Hv. injection Hv as <-.
  rewrite Forall_forall in H. specialize (H c Hin). rewrite Forall_forall in H. exact (H p Hp).
Qed.

(* the context values of the key are walked by [sc d] with d = False under ForAllValues, True otherwise *)
Definition q_stop (q : qual) : bool := match q with QAll => false | _ => true end.
Lemma eval_inner_many q o k ps ctx :
  eval_inner q o k (PMany ps) ctx =
  match ctx_get ctx k with None => None | Some x => sc (q_stop q) (value_ok o ps) (as_list x) end.
Proof.
  unfold Block.eval_inner. destruct q; simpl; destruct (ctx_get ctx k); try reflexivity;
    first [apply any_sc_sc | apply all_sc_sc].
Qed.

Lemma key_values_looser e k ps ps' ctx :
  (forall x c, ctx_get ctx k = Some x -> In c (as_list x) ->
     value_ok (e_base e) ps c = Some true -> value_ok (e_base e) ps' c = Some true) ->
  (forall x c, ctx_get ctx k = Some x -> In c (as_list x) -> value_ok (e_base e) ps' c <> None) ->
  eval_key e k (PMany ps) ctx = Some true -> eval_key e k (PMany ps') ctx = Some true.
Proof.
  intros Hv Hd. unfold Block.eval_key. destruct (e_ifx e && negb (present ctx k)); [auto|].
  rewrite !eval_inner_many. destruct (ctx_get ctx k) as [x|]; [|discriminate].
  apply sc_true_mono; intros c; [apply (Hv x c eq_refl) | apply (Hd x c eq_refl)].
Qed.

End Algebra.

(* Association lists, find_last, active *)

Lemma find_last_nil n : find_last n [] = None.
Proof. reflexivity. Qed.
Lemma find_last_app n b1 b2 :
  find_last n (b1 ++ b2) = match find_last n b2 with Some g => Some g | None => find_last n b1 end.
Proof. unfold find_last. rewrite rev_app_distr, lookup_app. reflexivity. Qed.
Lemma find_last_cons n x b :
  find_last n (x :: b) =
  match find_last n b with Some g => Some g | None => if str_eqb n (fst x) then Some (snd x) else None end.
Proof. destruct x as [m g]. apply (find_last_app n [(m, g)] b). Qed.
Lemma find_last_None n b : find_last n b = None <-> ~ In n (map fst b).
Proof.
  unfold find_last. rewrite lookup_None. unfold keys. rewrite map_rev, <- in_rev. reflexivity.
Qed.
Lemma find_last_In n b g : find_last n b = Some g -> In (n, g) b.
Proof. unfold find_last. intros H. apply lookup_In in H. apply in_rev. exact H. Qed.
Lemma find_last_perm n b b' : NoDup (map fst b) -> Permutation b b' -> find_last n b = find_last n b'.
Proof.
  intros Hnd Hp. unfold find_last. apply lookup_Permutation.
  - unfold keys. rewrite map_rev. apply (Permutation_NoDup (Permutation_rev (map fst b))). exact Hnd.
  - apply (perm_trans (Permutation_sym (Permutation_rev b))). apply (perm_trans Hp). apply Permutation_rev.
Qed.
Lemma norm_block_app b1 b2 : norm_block (b1 ++ b2) = norm_block b1 ++ norm_block b2.
Proof. unfold norm_block. apply map_app. Qed.

(* the entry a table row contributes to the evaluation *)
Definition pick {E G} (F : E -> option G) (e : E) : list (E * G) := match F e with Some g => [(e, g)] | None => [] end.
Lemma active_pick ord b : active ord b = flat_map (pick (fun e => find_last (e_name e) (norm_block b))) ord.
Proof. reflexivity. Qed.

Definition grp_has_fn (g : groups) : bool := existsb (fun kp => pv_has_fn (snd kp)) g.
Lemma has_fn_unfold act : has_fn act = existsb (fun eg => grp_has_fn (snd eg)) act.
Proof. reflexivity. Qed.

(* rows picked by F1 and rows picked by F2, no row by both: the rows picked by either, in the order of the table *)
Definition either {E G} (F1 F2 : E -> option G) (e : E) : option G :=
  match F2 e with Some g => Some g | None => F1 e end.

Section Merge.
Context {E G : Type} (F1 F2 : E -> option G).
Hypothesis Hdis : forall e, F1 e <> None -> F2 e = None.

Lemma merge_and3 (f : E * G -> option bool) l :
  and3_spec (all_sc f (flat_map (pick F1) l)) (all_sc f (flat_map (pick F2) l))
            (all_sc f (flat_map (pick (either F1 F2)) l)).
Proof.
  (* open [pick] at the head of each of the three lists only; inside the tails it must stay folded for IH *)
  induction l as [|e l IH]; simpl; [reflexivity|]. unfold pick at 1 3 5, either. specialize (Hdis e).
  destruct (F1 e) as [g1|], (F2 e) as [g2|]; cbn [app].
  - discriminate Hdis. discriminate.
  - rewrite !all_sc_cons. apply and3_spec_cons_l, IH.
  - rewrite !all_sc_cons. apply and3_spec_cons_r, IH.
  - exact IH.
Qed.
Lemma merge_existsb (h : E * G -> bool) l :
  existsb h (flat_map (pick (either F1 F2)) l) = existsb h (flat_map (pick F1) l) || existsb h (flat_map (pick F2) l).
Proof.
  induction l as [|e l IH]; simpl; [reflexivity|]. rewrite !existsb_app, IH. unfold pick, either. specialize (Hdis e).
  destruct (F1 e) as [g1|], (F2 e) as [g2|]; simpl.
  - discriminate Hdis. discriminate.
  - destruct (h (e, g1)); reflexivity.
  - destruct (h (e, g2)); simpl; [symmetry; apply orb_true_r | reflexivity].
  - reflexivity.
Qed.
End Merge.

Section Blocks.
Variable test : base_op -> cval -> cval -> option bool.
Notation value_ok := (value_ok test).
Notation eval_inner := (eval_inner test).
Notation eval_key := (eval_key test).
Notation eval_entry := (eval_entry test).
Notation eval_block := (eval_block test).

(* Congruence: two blocks with the same operator names, position by position, whose groups are related by G *)
Definition block_rel (G : str -> groups -> groups -> Prop) (b b' : block) : Prop :=
  Forall2 (fun ng ng' => fst ng = fst ng' /\ G (norm_name (fst ng)) (snd ng) (snd ng')) b b'.
Definition opt_rel {X} (R : X -> X -> Prop) (x y : option X) : Prop :=
  match x, y with Some u, Some v => R u v | None, None => True | _, _ => False end.

Lemma find_last_rel G b b' n : block_rel G b b' ->
  opt_rel (G n) (find_last n (norm_block b)) (find_last n (norm_block b')).
Proof.
  induction 1 as [|[m g] [m' g'] b b' [Hm Hg] _ IH]; [exact I|].
  simpl in Hm, Hg. subst m'. unfold norm_block. simpl map. fold (norm_block b). fold (norm_block b').
  rewrite !find_last_cons. simpl fst. simpl snd.
  destruct (find_last n (norm_block b)) as [u|], (find_last n (norm_block b')) as [v|]; simpl in IH; try contradiction.
  - exact IH.
  - destruct (str_eqb n (norm_name m)) eqn:E; [|exact I]. apply str_eqb_spec in E. subst n. exact Hg.
Qed.

(* the operators set in two related blocks are the same rows of the table, with related groups *)
Definition entry_rel (ord : list op_entry) (b : block) (G : str -> groups -> groups -> Prop)
           (eg eg' : op_entry * groups) : Prop :=
  fst eg = fst eg' /\ is_set ord b (fst eg) (snd eg) /\ G (e_name (fst eg)) (snd eg) (snd eg').

Lemma active_rel ord G b b' : block_rel G b b' -> Forall2 (entry_rel ord b G) (active ord b) (active ord b').
Proof.
  intros Hr. rewrite !active_pick.
  assert (H : forall l, incl l ord ->
              Forall2 (entry_rel ord b G) (flat_map (pick (fun e => find_last (e_name e) (norm_block b))) l)
                      (flat_map (pick (fun e => find_last (e_name e) (norm_block b'))) l)); [|apply H, incl_refl].
  induction l as [|e l IH]; simpl; intros Hin; [constructor|].
  apply Forall2_app; [|apply IH; intros x Hx; apply Hin; right; exact Hx].
  unfold pick. pose proof (find_last_rel G b b' (e_name e) Hr) as H.
  destruct (find_last (e_name e) (norm_block b)) as [u|] eqn:Eu, (find_last (e_name e) (norm_block b')) as [v|];
    simpl in H; try contradiction; constructor; [|constructor].
  split; [reflexivity|]. split; [split; [apply Hin; left; reflexivity | exact Eu] | exact H].
Qed.

(* related groups give the same entry verdict => the same block verdict (three-valued) *)
Theorem block_congr ord G b b' ctx : block_rel G b b' ->
  (forall e g g', is_set ord b e g -> G (e_name e) g g' ->
     grp_has_fn g = grp_has_fn g' /\ eval_entry ctx (e, g) = eval_entry ctx (e, g')) ->
  eval_block ord b ctx = eval_block ord b' ctx.
Proof.
  intros Hr HG. unfold Block.eval_block. rewrite (has_fn_unfold (active ord b)), (has_fn_unfold (active ord b')).
  destruct (guarded_congr _ (fun eg => grp_has_fn (snd eg)) (fun eg => grp_has_fn (snd eg)) (eval_entry ctx) (eval_entry ctx)
              _ _ (active_rel ord G b b' Hr)) as [-> ->]; [|reflexivity].
  intros [e g] [e' g'] (He & Hs & Hg). simpl in *. subst e'. exact (HG e g g' Hs Hg).
Qed.
(* related groups keep the entry satisfied => the block stays satisfied *)
Theorem block_congr_true ord G b b' ctx : block_rel G b b' ->
  (forall e g g', is_set ord b e g -> G (e_name e) g g' ->
     (grp_has_fn g = false -> grp_has_fn g' = false) /\
     (eval_entry ctx (e, g) = Some true -> eval_entry ctx (e, g') = Some true)) ->
  eval_block ord b ctx = Some true -> eval_block ord b' ctx = Some true.
Proof.
  intros Hr HG. unfold Block.eval_block. rewrite (has_fn_unfold (active ord b)), (has_fn_unfold (active ord b')).
  destruct (guarded_congr_true _ (fun eg => grp_has_fn (snd eg)) (fun eg => grp_has_fn (snd eg)) (eval_entry ctx) (eval_entry ctx)
              _ _ (active_rel ord G b b' Hr)) as [Hf Ht].
  - intros [e g] [e' g'] (He & Hs & Hg). simpl in *. subst e'. exact (HG e g g' Hs Hg).
  - destruct (existsb _ (active ord b)); [discriminate|]. rewrite (Hf eq_refl). exact Ht.
Qed.

(* groups related key by key (same keys, position by position) *)
Definition groups_rel (R : str -> pvals -> pvals -> Prop) (g g' : groups) : Prop :=
  Forall2 (fun kp kp' => fst kp = fst kp' /\ R (fst kp) (snd kp) (snd kp')) g g'.

Theorem block_congr_keys ord (R : str -> str -> pvals -> pvals -> Prop) b b' ctx :
  block_rel (fun n => groups_rel (R n)) b b' ->
  (forall e k pv pv', In e ord -> R (e_name e) k pv pv' ->
     pv_has_fn pv = pv_has_fn pv' /\ eval_key e k pv ctx = eval_key e k pv' ctx) ->
  eval_block ord b ctx = eval_block ord b' ctx.
Proof.
  intros Hr HR. apply (block_congr ord _ b b' ctx Hr). intros e g g' [He _] Hg. apply (guarded_congr _ _ _ _ _ _ _ Hg).
  intros [k pv] [k' pv'] [Hk Hp]. simpl in *. subst k'. exact (HR e k pv pv' He Hp).
Qed.
Theorem block_congr_keys_true ord (R : str -> str -> pvals -> pvals -> Prop) b b' ctx :
  block_rel (fun n => groups_rel (R n)) b b' ->
  (forall e k pv pv', In e ord -> R (e_name e) k pv pv' ->
     (pv_has_fn pv = false -> pv_has_fn pv' = false) /\
     (eval_key e k pv ctx = Some true -> eval_key e k pv' ctx = Some true)) ->
  eval_block ord b ctx = Some true -> eval_block ord b' ctx = Some true.
Proof.
  intros Hr HR. apply (block_congr_true ord _ b b' ctx Hr). intros e g g' [He _] Hg. apply (guarded_congr_true _ _ _ _ _ _ _ Hg).
  intros [k pv] [k' pv'] [Hk Hp]. simpl in *. subst k'. exact (HR e k pv pv' He Hp).
Qed.
End Blocks.

Section Laws.
Variable test : base_op -> cval -> cval -> option bool.
Notation value_ok := (value_ok test).
Notation eval_inner := (eval_inner test).
Notation eval_key := (eval_key test).
Notation eval_entry := (eval_entry test).
Notation eval_block := (eval_block test).

(* Value lists, lifted to blocks.  b' is obtained from b by changing value LISTS only: under a positive operator values were
   ADDED, under a negated operator values were REMOVED (in any order / multiplicity), the comparisons of the larger
   list being defined.  Then b' is at least as permissive as b (proved as Properties/C12.v C12_block_looser). *)
Definition looser (ord : list op_entry) (ctx : context) (n k : str) (pv pv' : pvals) : Prop :=
  pv = pv' \/
  exists ps ps', pv = PMany ps /\ pv' = PMany ps' /\ ~ In CFn ps' /\
    forall e, In e ord -> e_name e = n ->
      (negated (e_base e) = false /\ incl ps ps' /\ comparable_key test (e_base e) ps' ctx k) \/
      (negated (e_base e) = true /\ incl ps' ps /\ comparable_key test (e_base e) ps ctx k).

(* the value lists of b and b' have the same members (order, repetition may differ), comparisons defined:
   the same three-valued verdict (C12_block_values_set) *)
Definition same_values (ord : list op_entry) (ctx : context) (n k : str) (pv pv' : pvals) : Prop :=
  pv = pv' \/
  exists ps ps', pv = PMany ps /\ pv' = PMany ps' /\ (forall p, In p ps <-> In p ps') /\
    forall e, In e ord -> e_name e = n -> comparable_key test (e_base e) ps ctx k.

(* The order of the KEYS under one operator.  all() stops at the first key that is not satisfied: "satisfied"
   does not depend on the order, but WHICH of False / None comes out does (refuted in general:
   C12_key_order_refuted); with every key's verdict defined the order is irrelevant altogether.
   (Keys are an association list; a repeated key is simply evaluated twice, no side condition is needed.) *)
Theorem entry_perm_true e g g' ctx : Permutation g g' ->
  (eval_entry ctx (e, g) = Some true <-> eval_entry ctx (e, g') = Some true).
Proof. unfold Block.eval_entry. rewrite !all_sc_sc. apply (sc_perm_through false). Qed.
Theorem entry_perm e g g' ctx : Permutation g g' ->
  (forall k pv, In (k, pv) g -> eval_key e k pv ctx <> None) ->
  eval_entry ctx (e, g) = eval_entry ctx (e, g').
Proof.
  intros Hp Hd. unfold Block.eval_entry. rewrite !all_sc_sc. apply sc_perm; [exact Hp|].
  intros [k pv] Hin. apply Hd, Hin.
Qed.
Theorem entry_perm_weak e g g' ctx : Permutation g g' ->
  eval_entry ctx (e, g) = eval_entry ctx (e, g') \/
  (eval_entry ctx (e, g) <> Some true /\ eval_entry ctx (e, g') <> Some true).
Proof. intros Hp. apply iff_weak. apply entry_perm_true. exact Hp. Qed.

Lemma grp_has_fn_perm g g' : Permutation g g' -> grp_has_fn g = grp_has_fn g'.
Proof. intros Hp. unfold grp_has_fn. apply existsb_Permutation. exact Hp. Qed.

(* same operators position by position, each with its keys permuted (laws: C12_key_order_blind, _defined, _weak) *)
Definition keys_permuted (b b' : block) : Prop := block_rel (fun _ g g' => Permutation g g') b b'.
Lemma keys_permuted_sym b b' : keys_permuted b b' -> keys_permuted b' b.
Proof.
  unfold keys_permuted, block_rel. induction 1 as [|ng ng' b b' [Hn Hp] _ IH]; constructor; [|exact IH].
  split; [symmetry; exact Hn | apply Permutation_sym; exact Hp].
Qed.

(* Blocks are conjunctions.  The operators of b1 ++ b2 are evaluated in the declaration order of the class, i.e. in
   an interleaving of those of b1 and b2: the verdict is the three-valued AND of the two verdicts in the sense of
   and3_spec (False and None combine to False or to None, whichever member comes first in the class).  The operator
   names of the two parts must be different (else b2's replaces b1's).  The laws are C12_app, C12_app_true / _false / _none. *)
Definition ops_disjoint (b1 b2 : block) : Prop :=
  forall n, In n (map fst (norm_block b1)) -> ~ In n (map fst (norm_block b2)).

(* Qualifiers.  Over a LIST of request values a qualified operator is the loop [sc d] over them, with d = False
   for ForAllValues and d = True for ForAnyValue (with or without IfExists: a list is a present value). *)
Lemma eval_key_list (d : bool) e k pv ctx cs : e_qual e = (if d then QAny else QAll) -> ctx_get ctx k = Some (XMany cs) ->
  eval_key e k pv ctx = sc d (value_ok (e_base e) (plist pv)) cs.
Proof.
  intros Hq Hx. unfold Block.eval_key, present, Block.eval_inner. rewrite Hq, Hx, andb_false_r. simpl.
  destruct d, pv; first [apply any_sc_sc | apply all_sc_sc].
Qed.

(* MONOTONE in the request values: more of them can only turn [Some (negb d)] into [Some d]
   (ForAnyValue: False into True; ForAllValues: True into False) ... *)
Theorem qualifier_mono (d : bool) e k pv ctx ctx' cs cs' : e_qual e = (if d then QAny else QAll) ->
  ctx_get ctx k = Some (XMany cs) -> ctx_get ctx' k = Some (XMany cs') -> incl cs cs' ->
  (eval_key e k pv ctx' = Some (negb d) -> eval_key e k pv ctx = Some (negb d)) /\
  ((forall c, In c cs' -> value_ok (e_base e) (plist pv) c <> None) ->
   eval_key e k pv ctx = Some d -> eval_key e k pv ctx' = Some d).
Proof.
  intros Hq H H' Hi. rewrite (eval_key_list d e k pv ctx cs Hq H), (eval_key_list d e k pv ctx' cs' Hq H').
  split; [apply sc_through_incl, Hi | intros Hd; apply sc_stop_incl; assumption].
Qed.
(* ... appended values never need the definedness hypothesis *)
Theorem qualifier_mono_app (d : bool) e k pv ctx ctx' cs ds : e_qual e = (if d then QAny else QAll) ->
  ctx_get ctx k = Some (XMany cs) -> ctx_get ctx' k = Some (XMany (cs ++ ds)) ->
  eval_key e k pv ctx = Some d -> eval_key e k pv ctx' = Some d.
Proof.
  intros Hq H H'. rewrite (eval_key_list d e k pv ctx cs Hq H), (eval_key_list d e k pv ctx' _ Hq H'), sc_app.
  intros ->. apply seq_stop_l.
Qed.

(* the keys mentioned anywhere in the block (C12_context_irrelevant_keys: only their context values matter) *)
Definition block_keys (b : block) : list str := flat_map (fun ng => map fst (snd ng)) b.
Lemma is_set_in_block ord b e g : is_set ord b e g -> exists n, In (n, g) b.
Proof.
  intros [_ H]. apply find_last_In in H. unfold norm_block in H. apply in_map_iff in H.
  destruct H as ([n g'] & [= _ ->] & Hin). exists n. exact Hin.
Qed.

(* A block whose operators list no key -- in particular a block with no operator -- is True *)
Theorem block_no_keys ord b ctx : (forall n g, In (n, g) b -> g = []) -> eval_block ord b ctx = Some true.
Proof.
  intros H. apply block_true_iff.
  split; intros e g k pv Hs Hk; destruct (is_set_in_block ord b e g Hs) as (n & Hn); rewrite (H n g Hn) in Hk; contradiction.
Qed.
End Laws.

(* The Null operator, with the leaf comparison of C11 (op_test, any fold).
   As implemented -- and pinned by the library's tests --  {"Null": {k: true}}  holds iff k is PRESENT (the reverse of
   the AWS wording; DESIGN.md, property C11).  "Present" = in the context and not None; a context never holds the marker
   CAbsent as a value (ctx_real). *)
Section NullOp.
Variable fold : str -> str.
Notation ekey := (eval_key (op_test fold)).

Definition ctx_real (ctx : context) (k : str) : Prop := ctx_get ctx k <> Some (XOne CAbsent).
Definition null_plain (e : op_entry) : Prop := e_base e = ONull /\ e_qual e = QNone /\ e_ifx e = false.

Lemma is_present_leaf ctx k : ctx_real ctx k -> is_present (leaf_of (ctx_get ctx k)) = present ctx k.
Proof.
  unfold ctx_real, present. intros Hr. destruct (ctx_get ctx k) as [[c|cs]|]; simpl; try reflexivity.
  destruct c; simpl; try reflexivity. exfalso. apply Hr. reflexivity.
Qed.

Theorem null_key_presence e k pb ctx : null_plain e -> ctx_real ctx k ->
  ekey e k (POne (CBool pb)) ctx = Some (Bool.eqb (present ctx k) pb).
Proof.
  intros (Hb & Hq & Hi) Hr. unfold Block.eval_key, Block.eval_inner. rewrite Hb, Hq, Hi. simpl.
  rewrite (is_present_leaf ctx k Hr). reflexivity.
Qed.
Theorem null_iff e k pb ctx : null_plain e -> ctx_real ctx k ->
  (ekey e k (POne (CBool pb)) ctx = Some true <-> present ctx k = pb).
Proof.
  intros He Hr. rewrite (null_key_presence e k pb ctx He Hr). destruct (present ctx k), pb; simpl; split; congruence.
Qed.

End NullOp.

(* WHEN can the comparability side condition fail?  Only when the listed values disagree on whether
   the context value can be compared at all.  With C11's comparison that happens for one operator group only: the
   four Date ORDERING operators (naive and aware datetimes in one list).  For every other operator and policy values
   of the operator's type, the value list is a SET unconditionally, undetermined case included. *)
Section Uniform.
Variable test : base_op -> cval -> cval -> option bool.

Definition uniform_vals (o : base_op) (ps : list cval) (c : cval) : Prop :=
  (forall p, In p ps -> test o p c = None) \/ comparable_vals test o ps c.

Theorem values_same_set_uniform o ps qs c : uniform_vals o ps c -> (forall p, In p ps <-> In p qs) ->
  value_ok test o ps c = value_ok test o qs c.
Proof.
  intros [Hn|Hc] Hs; [|apply values_same_set; assumption].
  destruct ps as [|p ps], qs as [|q qs].
  - reflexivity.
  - exfalso. apply (proj2 (Hs q)). left. reflexivity.
  - exfalso. apply (proj1 (Hs p)). left. reflexivity.
  - rewrite !value_ok_cons. rewrite (Hn p (or_introl eq_refl)).
    rewrite (Hn q (proj2 (Hs q) (or_introl eq_refl))). destruct (negated o); reflexivity.
Qed.
Theorem values_perm_uniform o ps qs c : uniform_vals o ps c -> Permutation ps qs ->
  value_ok test o ps c = value_ok test o qs c.
Proof. intros Hu Hp. apply values_same_set_uniform; [exact Hu | apply Permutation_same_set; exact Hp]. Qed.
End Uniform.

Definition uniform_op (o : base_op) : bool :=
  match o with
  | ODateLessThan | ODateLessThanEquals | ODateGreaterThan | ODateGreaterThanEquals => false
  | _ => true
  end.

Theorem op_test_uniform fold o p q c :
  uniform_op o = true -> has_fam (family o) p = true -> has_fam (family o) q = true ->
  (op_test fold o p c = None <-> op_test fold o q c = None).
Proof.
  intros Hu Hp Hq.
  destruct o; simpl in Hu; try discriminate Hu; clear Hu;
    destruct p; simpl in Hp; try discriminate Hp; clear Hp;
    destruct q; simpl in Hq; try discriminate Hq; clear Hq;
    destruct c; simpl; split; intros H;
      solve [reflexivity | discriminate H | exact H
             | match goal with |- context [ipver_eqb ?x ?y] => destruct (ipver_eqb x y) end; discriminate
             | match type of H with context [ipver_eqb ?x ?y] => destruct (ipver_eqb x y) end; discriminate H].
Qed.

Theorem typed_values_uniform fold o ps c :
  uniform_op o = true -> (forall p, In p ps -> has_fam (family o) p = true) -> uniform_vals (op_test fold) o ps c.
Proof.
  intros Hu Hf. destruct ps as [|p0 ps]; [right; intros p []|].
  destruct (op_test fold o p0 c) as [r|] eqn:E.
  - right. intros p Hp Hn.
    apply (op_test_uniform fold o p p0 c Hu (Hf p Hp) (Hf p0 (or_introl eq_refl))) in Hn. congruence.
  - left. intros p Hp. apply (op_test_uniform fold o p0 p c Hu (Hf p0 (or_introl eq_refl)) (Hf p Hp)). exact E.
Qed.

(* Constants of the witnesses on the LIVE operator table by which Properties/C12.v shows that the side conditions
   above are needed: the unconditional versions are FALSE of the evaluation as defined (and of the Python code, which
   answers each witness in the same way). *)
Module Witness.
Local Open Scope N_scope.
Definition idf (s : str) : str := s.
Definition ev := eval_block (op_test idf) OPERATORS.
Definition S (c : N) : cval := CStr [c].
Definition n_StringEquals : str := base_name OStringEquals.
Definition n_String_Equals : str := [83; 116; 114; 105; 110; 103; 58; 69; 113; 117; 97; 108; 115].   (* "String:Equals" *)
Definition n_StringLike : str := base_name OStringLike.
Definition n_IpAddress : str := base_name OIpAddress.
Definition n_NotIpAddress : str := base_name ONotIpAddress.
Definition n_Null : str := base_name ONull.
Definition k1 : str := [107; 49].
Definition k2 : str := [107; 50].
Definition a := 97. Definition b := 98. Definition x := 120.
Definition net10 : cval := CNet (Net V4 167772160 8).          (* 10.0.0.0/8 *)
Definition net6all : cval := CNet (Net V6 0 0).                (* ::/0 *)
Definition host10 : cval := CNet (Net V4 167837953 32).        (* 10.1.1.1/32 *)
Definition dt2030 (aware : bool) : cval := CDate aware 1893456000000000.   (* 2030-01-01T00:00:00, with / without a zone *)
Definition dt2020 : cval := CDate true 1577836800000000.                   (* 2020-01-01T00:00:00Z *)
Definition n_DateLessThan : str := base_name ODateLessThan.

(* ranges of both IP versions in one list are alternatives in any order (the library's repair of finding F30, DESIGN.md 7.3:
   {"IpAddress": {"k1": ["10.0.0.0/8", "::/0"]}} on 10.1.1.1/32 is True whichever range comes first, and on an IPv6 address too) *)
Example ip_mixed_versions_any_order :
  value_ok (op_test idf) OIpAddress [net10; net6all] host10 = Some true /\
  value_ok (op_test idf) OIpAddress [net6all; net10] host10 = Some true /\
  value_ok (op_test idf) OIpAddress [net10; net6all] (CNet (Net V6 1 128)) = Some true /\
  value_ok (op_test idf) ONotIpAddress [net6all; net10] host10 = Some false.
Proof. vm_compute. repeat split. Qed.
End Witness.
