(* C11 -- the 27 base IAM condition operators of pycfmodel's StatementCondition, as tests on TYPED operands.
   Executable definitions only; the theorems are in Iam/OpsFacts.v.

   Code modelled: statement_condition.build_evaluator.  Each operator becomes a Python lambda
       lambda kwargs: kwargs[key] <comparison> policy_value
   The model is  op_test fold o p c : option bool  with  p = the typed policy value (what pydantic stored in the
   validated model), c = the context value kwargs[key] (CAbsent when the key is missing) and
       Some b = the lambda returned b,      None = the lambda (or building it) raised
   (KeyError for a missing key, TypeError for `<` between unrelated types, AttributeError for .casefold()/.subnet_of()
   on a value that has no such method, re's TypeError for a non-string candidate, ...). *)
From Coq Require Import List ZArith.
From PV Require Import Base.Str Run.RState Iam.IpNet.
Import ListNotations.

Inductive base_op :=
| OStringEquals | OStringNotEquals | OStringEqualsIgnoreCase | OStringNotEqualsIgnoreCase | OStringLike | OStringNotLike
| ONumericEquals | ONumericNotEquals | ONumericLessThan | ONumericLessThanEquals | ONumericGreaterThan | ONumericGreaterThanEquals
| ODateEquals | ODateNotEquals | ODateLessThan | ODateLessThanEquals | ODateGreaterThan | ODateGreaterThanEquals
| OBool | OBinaryEquals | OIpAddress | ONotIpAddress
| OArnEquals | OArnLike | OArnNotEquals | OArnNotLike
| ONull.

Definition all_base_ops : list base_op :=
  [OStringEquals; OStringNotEquals; OStringEqualsIgnoreCase; OStringNotEqualsIgnoreCase; OStringLike; OStringNotLike;
   ONumericEquals; ONumericNotEquals; ONumericLessThan; ONumericLessThanEquals; ONumericGreaterThan; ONumericGreaterThanEquals;
   ODateEquals; ODateNotEquals; ODateLessThan; ODateLessThanEquals; ODateGreaterThan; ODateGreaterThanEquals;
   OBool; OBinaryEquals; OIpAddress; ONotIpAddress; OArnEquals; OArnLike; OArnNotEquals; OArnNotLike; ONull].

Definition base_op_eq_dec (a b : base_op) : {a = b} + {a <> b}.
Proof. decide equality. Defined.
Definition base_op_eqb (a b : base_op) : bool := if base_op_eq_dec a b then true else false.
Lemma base_op_eqb_eq a b : base_op_eqb a b = true <-> a = b.
Proof. unfold base_op_eqb. destruct (base_op_eq_dec a b); split; congruence. Qed.

(* value family of an operator = the type pydantic gives its policy values
   (FBool1: Null takes ONE boolean, never a list; FArn is the same Python type as FStr: `ResolvableArn = ResolvableStr`) *)
Inductive fam := FStr | FArn | FInt | FDate | FBool | FBool1 | FBytes | FIp.
Definition fam_eqb (a b : fam) : bool :=
  match a, b with
  | FStr, FStr | FArn, FArn | FInt, FInt | FDate, FDate | FBool, FBool | FBool1, FBool1 | FBytes, FBytes | FIp, FIp => true
  | _, _ => false
  end.

Definition family (o : base_op) : fam :=
  match o with
  | OStringEquals | OStringNotEquals | OStringEqualsIgnoreCase | OStringNotEqualsIgnoreCase | OStringLike | OStringNotLike => FStr
  | ONumericEquals | ONumericNotEquals | ONumericLessThan | ONumericLessThanEquals | ONumericGreaterThan
  | ONumericGreaterThanEquals => FInt
  | ODateEquals | ODateNotEquals | ODateLessThan | ODateLessThanEquals | ODateGreaterThan | ODateGreaterThanEquals => FDate
  | OBool => FBool
  | OBinaryEquals => FBytes
  | OIpAddress | ONotIpAddress => FIp
  | OArnEquals | OArnLike | OArnNotEquals | OArnNotLike => FArn
  | ONull => FBool1
  end.

(* the negated operators and their positive counterparts *)
Definition neg_of (o : base_op) : option base_op :=
  match o with
  | OStringEquals => Some OStringNotEquals
  | OStringEqualsIgnoreCase => Some OStringNotEqualsIgnoreCase
  | OStringLike => Some OStringNotLike
  | ONumericEquals => Some ONumericNotEquals
  | ODateEquals => Some ODateNotEquals
  | OArnEquals => Some OArnNotEquals
  | OArnLike => Some OArnNotLike
  | OIpAddress => Some ONotIpAddress
  | _ => None
  end.
Definition negated (o : base_op) : bool :=
  match o with
  | OStringNotEquals | OStringNotEqualsIgnoreCase | OStringNotLike | ONumericNotEquals | ODateNotEquals
  | OArnNotEquals | OArnNotLike | ONotIpAddress => true
  | _ => false
  end.

(* qualifiers and rows of the generated operator table (gen/Operators.v) *)
Inductive qual := QNone | QAll | QAny.
Definition qual_eqb (a b : qual) : bool :=
  match a, b with QNone, QNone | QAll, QAll | QAny, QAny => true | _, _ => false end.
Record op_entry := { e_name : str; e_qual : qual; e_ifx : bool; e_base : base_op; e_fam : fam }.

(* Typed operands.  A datetime is (aware?, microseconds since the epoch): for an aware datetime the UTC instant, for a
   naive one its wall-clock fields read as if UTC (Python compares naive datetimes by their fields).
   COther = a Python list or dict (what the harness hands over where one value is expected): equal to nothing below, not
   orderable, no string/network methods.  Other objects are not modelled: a float would compare with an int, an
   ipaddress address would be tested against a network.
   CFn = a policy value that is still a CloudFormation function object (building the evaluator raises). *)
Inductive cval :=
| CAbsent                      (* the key is not in the context *)
| CNone                        (* Python None *)
| CBool (b : bool)
| CInt (z : Z)
| CStr (s : str)
| CDate (aware : bool) (us : Z)
| CNet (n : net)
| CBytes (bs : list N)
| COther
| CFn.

(* Python: bool is a subclass of int (True == 1, True < 2) *)
Definition as_int (c : cval) : option Z :=
  match c with CInt z => Some z | CBool b => Some (if b then 1 else 0)%Z | _ => None end.

(* Python `a == b` on these values: never raises; different types are simply unequal; a naive and an aware datetime
   are unequal *)
Definition py_eq (a b : cval) : bool :=
  match as_int a, as_int b with
  | Some x, Some y => Z.eqb x y
  | _, _ =>
      match a, b with
      | CNone, CNone => true
      | CStr x, CStr y => str_eqb x y
      | CDate a1 u1, CDate a2 u2 => Bool.eqb a1 a2 && Z.eqb u1 u2
      | CNet n, CNet m => net_eqb n m
      | CBytes x, CBytes y => str_eqb x y
      | _, _ => false
      end
  end.

(* Python `a < b`, `a <= b` ... for the operand types the ordering operators can meet: integers (and bools) among
   themselves, datetimes of the same awareness among themselves; everything else raises TypeError (None).
   (The policy operand of an ordering operator is an int or a datetime by validation.) *)
Definition py_cmp (a b : cval) : option comparison :=
  match as_int a, as_int b with
  | Some x, Some y => Some (x ?= y)%Z
  | _, _ =>
      match a, b with
      | CDate a1 u1, CDate a2 u2 => if Bool.eqb a1 a2 then Some (u1 ?= u2)%Z else None
      | _, _ => None
      end
  end.
Definition is_lt (c : comparison) : bool := match c with Lt => true | _ => false end.
Definition is_le (c : comparison) : bool := match c with Gt => false | _ => true end.
Definition is_gt (c : comparison) : bool := match c with Gt => true | _ => false end.
Definition is_ge (c : comparison) : bool := match c with Lt => false | _ => true end.

(* kwargs[key]: KeyError when the key is missing *)
Definition on_present (c : cval) (r : option bool) : option bool :=
  match c with CAbsent => None | _ => r end.
(* kwargs.get(key) is not None *)
Definition is_present (c : cval) : bool :=
  match c with CAbsent | CNone => false | _ => true end.

Section WithFold.
(* normalize("NFKD", s.casefold()) -- Unicode data, a leaf oracle: theorems hold for every [fold] *)
Variable fold : str -> str.

Definition test_order (pick : comparison -> bool) (p c : cval) : option bool :=
  on_present c (option_map pick (py_cmp c p)).

Definition test_like (p c : cval) : option bool :=
  match p, c with CStr ps, CStr cs => Some (glob_cs ps cs) | _, _ => None end.
Definition test_eq_fold (p c : cval) : option bool :=
  match p, c with CStr ps, CStr cs => Some (str_eqb (fold cs) (fold ps)) | _, _ => None end.
(* _ip_within(kwargs[key], policy): AttributeError unless the context value is a network; a network of the OTHER version lies in
   no network of this one (_ip_within tests the versions before it calls subnet_of, which raises TypeError across versions:
   the library's repair of finding F30, DESIGN.md 7.3).
   A policy value that is NOT a network (pydantic kept a string) makes BOTH IpAddress and NotIpAddress constantly
   False, without even reading the context -- this follows the code, such a value is outside the operator's type. *)
Definition test_ip (neg : bool) (p c : cval) : option bool :=
  match p with
  | CNet pn =>
      match c with
      | CNet cn => if ipver_eqb (n_ver cn) (n_ver pn) then Some (xorb neg (subnet_of cn pn)) else Some neg
      | _ => None
      end
  | _ => Some false
  end.

Definition op_test (o : base_op) (p c : cval) : option bool :=
  match p with
  | CFn => None
  | _ =>
    match o with
    | OStringEquals | OArnEquals | OBinaryEquals | ONumericEquals | ODateEquals => on_present c (Some (py_eq c p))
    | OStringNotEquals | OArnNotEquals | ONumericNotEquals | ODateNotEquals => on_present c (Some (negb (py_eq c p)))
    | ONumericLessThan | ODateLessThan => test_order is_lt p c
    | ONumericLessThanEquals | ODateLessThanEquals => test_order is_le p c
    | ONumericGreaterThan | ODateGreaterThan => test_order is_gt p c
    | ONumericGreaterThanEquals | ODateGreaterThanEquals => test_order is_ge p c
    | OStringEqualsIgnoreCase => test_eq_fold p c
    | OStringNotEqualsIgnoreCase => option_map negb (test_eq_fold p c)
    | OStringLike | OArnLike => test_like p c
    | OStringNotLike | OArnNotLike => option_map negb (test_like p c)
    | OIpAddress => test_ip false p c
    | ONotIpAddress => test_ip true p c
    (* kwargs[key] is policy_bool: identity with the singleton True/False *)
    | OBool => on_present c (Some (match p, c with CBool pb, CBool cb => Bool.eqb cb pb | _, _ => false end))
    (* (kwargs.get(key) is not None) is policy_bool *)
    | ONull => Some (match p with CBool pb => Bool.eqb (is_present c) pb | _ => false end)
    end
  end.
End WithFold.

(* operands of the operator's type *)
Definition has_fam (f : fam) (c : cval) : bool :=
  match f, c with
  | (FStr | FArn), CStr _ => true
  | FInt, CInt _ => true
  | FDate, CDate _ _ => true
  | (FBool | FBool1), CBool _ => true
  | FBytes, CBytes _ => true
  | FIp, CNet _ => true
  | _, _ => false
  end.
(* what validation can leave in the policy position of an operator: a value of its family, for IpAddress also a plain
   string, anywhere a function object *)
Definition policy_ok (o : base_op) (p : cval) : bool :=
  has_fam (family o) p || match p with CFn => true | CStr _ => fam_eqb (family o) FIp | _ => false end.
