(* C11 -- the ORDER / EQUIVALENCE theory of the single IAM condition operators: laws of [op_test] (Iam/Ops.v) for ALL
   values, every [fold], on top of what each operator computes (Iam/OpsFacts.v).

   Reading of   op_test fold o p c   (from statement_condition.build_evaluator:  lambda kwargs: kwargs[key] <cmp> policy):
       p = the POLICY value   (the value written in the condition block, after validation)
       c = the REQUEST value  (kwargs[key], the context; CAbsent when the key is missing)
       {"NumericLessThan": {key: p}} holds on a request with request[key] = c   iff   c < p         (ord_sem)
   Results are three-valued:  Some true | Some false | None (the lambda raised: the operands are not comparable).

   The ordering laws are stated for the Numeric* operators: op_test has ONE branch for each Numeric* / Date* pair (the code
   has one lambda for both), so [op_test fold ODateLessThan p c] and [op_test fold ONumericLessThan p c] are convertible and
   every law is the law of the Date* operator as it stands.
   The Numeric* and Date* operators are the order of Z read through [ord_view]; the ...Equals operators are equality of
   canonical values ([canon]); IpAddress is the subnet preorder; then, per class of operators, when the answer is None.
   The IpAddress part also holds the bridge between the two models of IP networks, Iam/IpNet.v (used here) and Net/Arith.v
   (C17): [blk_bridge] (equal block sizes for prefixes within the width), [wf_bridge] (wf_net n <-> Net.Arith.wf), and
   [net_at], the masking mk_net of Net/Arith.v as a network of IpNet, with [net_at_wf], [net_at_contains], [net_at_mono]. *)
From Coq Require Import List Bool ZArith Lia.
From PV Require Net.Arith.
From PV Require Import Base.Str Glob.Glob Run.RState Iam.IpNet Iam.Ops Iam.OpsFacts.
Import ListNotations.

(* pointwise lifting of a boolean connective to results that may be undefined *)
Definition lift2 (f : bool -> bool -> bool) (a b : option bool) : option bool :=
  match a, b with Some x, Some y => Some (f x y) | _, _ => None end.

(* COMPARABLE operands: two numbers (Python: bool is an int), or two datetimes that are both aware or both naive.
   [comparable c p] names the request value first, as the Python code does (kwargs[key] < policy). *)
Definition comparable (c p : cval) : Prop :=
  (exists x y, as_int c = Some x /\ as_int p = Some y) \/ (exists a x y, c = CDate a x /\ p = CDate a y).

(* sort key: the kind of an orderable value (None = number, Some a = datetime of awareness a) and its place in Z *)
Definition okey (c : cval) : option (option bool * Z) :=
  match c with
  | CInt z => Some (None, z)
  | CBool b => Some (None, if b then 1 else 0)%Z
  | CDate a u => Some (Some a, u)
  | _ => None
  end.
Definition kind_eqb (k1 k2 : option bool) : bool :=
  match k1, k2 with None, None => true | Some a, Some b => Bool.eqb a b | _, _ => false end.
Lemma kind_eqb_eq k1 k2 : kind_eqb k1 k2 = true <-> k1 = k2.
Proof. destruct k1 as [[|]|], k2 as [[|]|]; simpl; split; congruence. Qed.
Lemma kind_eqb_refl k : kind_eqb k k = true.
Proof. apply kind_eqb_eq. reflexivity. Qed.

(* (x, y) = (place of the request value, place of the policy value) when the two are comparable *)
Definition ord_view (p c : cval) : option (Z * Z) :=
  match okey c, okey p with
  | Some (k1, x), Some (k2, y) => if kind_eqb k1 k2 then Some (x, y) else None
  | _, _ => None
  end.

Lemma ord_view_spec p c x y :
  ord_view p c = Some (x, y) <->
  (as_int c = Some x /\ as_int p = Some y) \/ (exists a, c = CDate a x /\ p = CDate a y).
Proof.
  unfold ord_view. split.
  - destruct c as [| |bc|zc|sc|ac uc|nc|bsc| |]; try discriminate;
      destruct p as [| |bp|zp|sp|ap up|np|bsp| |]; try discriminate; simpl.
    1-4: intros [= <- <-]; left; split; reflexivity.
    destruct (Bool.eqb ac ap) eqn:E; [|discriminate]. apply eqb_prop in E. subst ap.
    intros [= <- <-]. right. exists ac. auto.
  - intros [[Hc Hp]|[a [-> ->]]]; [|simpl; rewrite eqb_reflx; reflexivity].
    destruct c; try discriminate; injection Hc as <-; destruct p; try discriminate; injection Hp as <-; reflexivity.
Qed.

Lemma comparable_view c p : comparable c p <-> exists x y, ord_view p c = Some (x, y).
Proof.
  unfold comparable. split.
  - intros [(x & y & H)|(a & x & y & H)]; exists x, y; apply ord_view_spec; [left; exact H|right; exists a; exact H].
  - intros (x & y & H). apply ord_view_spec in H.
    destruct H as [H|[a H]]; [left; exists x, y; exact H|right; exists a, x, y; exact H].
Qed.

Lemma comparable_sym c p : comparable c p -> comparable p c.
Proof.
  intros [(x & y & H1 & H2)|(a & x & y & H1 & H2)]; [left; exists y, x; auto | right; exists a, y, x; auto].
Qed.

(* Python's three-way comparison and == are the ones of the sort keys *)
Lemma py_cmp_view a b :
  py_cmp a b = match ord_view b a with Some (x, y) => Some (x ?= y)%Z | None => None end.
Proof.
  unfold ord_view.
  destruct a as [| |ba|za|sa|aa ua|na|bsa| |]; destruct b as [| |bb|zb|sb|ab ub|nb|bsb| |]; try reflexivity.
  unfold py_cmp; simpl. destruct (Bool.eqb aa ab); reflexivity.
Qed.
Lemma py_eq_view a b x y : ord_view b a = Some (x, y) -> py_eq a b = (x =? y)%Z.
Proof.
  intros H. apply ord_view_spec in H. destruct H as [[Ha Hb]|[w [-> ->]]].
  - unfold py_eq. rewrite Ha, Hb. reflexivity.
  - unfold py_eq; simpl. rewrite eqb_reflx. reflexivity.
Qed.
Lemma ord_view_none_absent p : ord_view p CAbsent = None. Proof. reflexivity. Qed.
Lemma ord_view_none_fn c : ord_view CFn c = None. Proof. unfold ord_view. destruct (okey c) as [[? ?]|]; reflexivity. Qed.
Lemma ord_view_present p c x y : ord_view p c = Some (x, y) -> p <> CFn /\ c <> CAbsent.
Proof.
  intros E. split; intros ->; [rewrite ord_view_none_fn in E | rewrite ord_view_none_absent in E]; discriminate.
Qed.
Lemma ord_view_swap p c : ord_view c p = match ord_view p c with Some (x, y) => Some (y, x) | None => None end.
Proof.
  unfold ord_view. destruct (okey c) as [[k1 x]|], (okey p) as [[k2 y]|]; try reflexivity.
  replace (kind_eqb k2 k1) with (kind_eqb k1 k2) by (destruct k1 as [[|]|], k2 as [[|]|]; reflexivity).
  destruct (kind_eqb k1 k2); reflexivity.
Qed.
Lemma ord_view_chain a b c x y y' z :
  ord_view b a = Some (x, y) -> ord_view c b = Some (y', z) -> y' = y /\ ord_view c a = Some (x, z).
Proof.
  unfold ord_view.
  destruct (okey a) as [[ka xa]|]; [|discriminate]. destruct (okey b) as [[kb xb]|]; [|discriminate].
  destruct (kind_eqb ka kb) eqn:E1; [|discriminate]. intros [= -> ->].
  destruct (okey c) as [[kc xc]|]; [|discriminate].
  destruct (kind_eqb kb kc) eqn:E2; [|discriminate]. intros [= -> ->].
  apply kind_eqb_eq in E1. apply kind_eqb_eq in E2. subst kb kc. rewrite kind_eqb_refl. auto.
Qed.
Lemma ord_view_refl a : (exists k x, okey a = Some (k, x)) -> exists x, ord_view a a = Some (x, x).
Proof. intros (k & x & H). exists x. unfold ord_view. rewrite H, kind_eqb_refl. reflexivity. Qed.
Lemma ord_view_diag a x y : ord_view a a = Some (x, y) -> x = y.
Proof. intros E. destruct (ord_view_chain _ _ _ _ _ _ _ E E) as [-> _]. reflexivity. Qed.

Lemma is_lt_ltb x y : is_lt (x ?= y)%Z = (x <? y)%Z. Proof. reflexivity. Qed.
Lemma is_le_leb x y : is_le (x ?= y)%Z = (x <=? y)%Z. Proof. reflexivity. Qed.
Lemma is_gt_ltb x y : is_gt (x ?= y)%Z = (y <? x)%Z.
Proof. rewrite <- Z.gtb_ltb. reflexivity. Qed.
Lemma is_ge_leb x y : is_ge (x ?= y)%Z = (y <=? x)%Z.
Proof. rewrite <- Z.geb_leb. reflexivity. Qed.

(* a relation [r] of Z read through the view: the shape of the four orderings, for ALL operands *)
Definition by_view (r : Z -> Z -> bool) (p c : cval) : option bool :=
  match ord_view p c with Some (x, y) => Some (r x y) | None => None end.

Lemma by_view_defined r p c : by_view r p c <> None <-> comparable c p.
Proof.
  rewrite comparable_view. unfold by_view. destruct (ord_view p c) as [[x y]|].
  - split; [intros _; exists x, y; reflexivity | discriminate].
  - split; [congruence | intros (x & y & H); discriminate].
Qed.
Lemma by_view_none r p c : by_view r p c = None <-> ~ comparable c p.
Proof.
  rewrite <- (by_view_defined r). destruct (by_view r p c); [|tauto].
  split; [discriminate | intros H; exfalso; apply H; discriminate].
Qed.
Lemma by_view_swap r p c : by_view r c p = by_view (fun x y => r y x) p c.
Proof. unfold by_view. rewrite (ord_view_swap p c). destruct (ord_view p c) as [[x y]|]; reflexivity. Qed.
(* "= Some true" forces comparability, so laws of Z that chain two facts hold for ALL operands; the middle value b is
   once the policy and once the request value *)
Lemma by_view_chain (r1 r2 r3 : Z -> Z -> bool) a b c :
  (forall x y z, r1 x y = true -> r2 y z = true -> r3 x z = true) ->
  by_view r1 b a = Some true -> by_view r2 c b = Some true -> by_view r3 c a = Some true.
Proof.
  intros Hr. unfold by_view.
  destruct (ord_view b a) as [[x y]|] eqn:E1; [|discriminate]. destruct (ord_view c b) as [[y' z]|] eqn:E2; [|discriminate].
  destruct (ord_view_chain _ _ _ _ _ _ _ E1 E2) as [-> ->]. rewrite !some_true_iff. apply Hr.
Qed.

Lemma Zleb_ltb_eqb x y : (x <=? y)%Z = ((x <? y) || (x =? y))%Z.
Proof. rewrite Z.leb_compare, Z.ltb_compare, Z.eqb_compare. destruct (x ?= y)%Z; reflexivity. Qed.

Section Algebra.
Variable fold : str -> str.
Notation op_test := (op_test fold).

(* the four orderings through the view: where py_cmp is undefined (a missing key and a function object included) so is
   the view, which makes the two guards of op_test redundant *)
Lemma order_by_view pick r p c : (forall x y, pick (x ?= y)%Z = r x y) ->
  match p with CFn => None | _ => test_order pick p c end = by_view r p c.
Proof.
  intros Hr. transitivity (option_map pick (py_cmp c p)).
  - destruct p, c; reflexivity.
  - rewrite py_cmp_view. unfold by_view. destruct (ord_view p c) as [[x y]|]; [simpl; rewrite Hr|]; reflexivity.
Qed.
Lemma lt_by_view p c : op_test ONumericLessThan p c = by_view Z.ltb p c.
Proof. rewrite <- (order_by_view is_lt Z.ltb p c is_lt_ltb). reflexivity. Qed.
Lemma le_by_view p c : op_test ONumericLessThanEquals p c = by_view Z.leb p c.
Proof. rewrite <- (order_by_view is_le Z.leb p c is_le_leb). reflexivity. Qed.
Lemma gt_by_view p c : op_test ONumericGreaterThan p c = by_view (fun x y => y <? x)%Z p c.
Proof. rewrite <- (order_by_view is_gt _ p c is_gt_ltb). reflexivity. Qed.
Lemma ge_by_view p c : op_test ONumericGreaterThanEquals p c = by_view (fun x y => y <=? x)%Z p c.
Proof. rewrite <- (order_by_view is_ge _ p c is_ge_leb). reflexivity. Qed.
Lemma eq_by_view p c x y : ord_view p c = Some (x, y) -> op_test ONumericEquals p c = Some (x =? y)%Z.
Proof.
  intros E. rewrite (equals_sem fold ONumericEquals) by reflexivity. rewrite (py_eq_view c p x y E).
  apply guarded_some. destruct (ord_view_present _ _ _ _ E). auto.
Qed.
Lemma ne_is_not_eq p c : op_test ONumericNotEquals p c = option_map negb (op_test ONumericEquals p c).
Proof. apply guarded_negb. Qed.

(* ARGUMENT ORDER: x = the REQUEST value, y = the POLICY value;  {"NumericLessThan": {key: y}} holds iff request[key] < y *)
Theorem ord_sem p c x y :
  (as_int c = Some x /\ as_int p = Some y) \/ (exists a, c = CDate a x /\ p = CDate a y) ->
  op_test ONumericEquals p c = Some (x =? y)%Z /\
  op_test ONumericNotEquals p c = Some (negb (x =? y)%Z) /\
  op_test ONumericLessThan p c = Some (x <? y)%Z /\
  op_test ONumericLessThanEquals p c = Some (x <=? y)%Z /\
  op_test ONumericGreaterThan p c = Some (y <? x)%Z /\
  op_test ONumericGreaterThanEquals p c = Some (y <=? x)%Z.
Proof.
  intros H. apply ord_view_spec in H.
  rewrite ne_is_not_eq, lt_by_view, le_by_view, gt_by_view, ge_by_view, (eq_by_view p c x y H). unfold by_view. rewrite H.
  repeat split; reflexivity.
Qed.

Theorem ord_sem_prop p c x y :
  (as_int c = Some x /\ as_int p = Some y) \/ (exists a, c = CDate a x /\ p = CDate a y) ->
  (op_test ONumericEquals p c = Some true <-> x = y) /\
  (op_test ONumericNotEquals p c = Some true <-> x <> y) /\
  (op_test ONumericLessThan p c = Some true <-> (x < y)%Z) /\
  (op_test ONumericLessThanEquals p c = Some true <-> (x <= y)%Z) /\
  (op_test ONumericGreaterThan p c = Some true <-> (x > y)%Z) /\
  (op_test ONumericGreaterThanEquals p c = Some true <-> (x >= y)%Z).
Proof.
  intros H. destruct (ord_sem p c x y H) as (-> & -> & -> & -> & -> & ->).
  rewrite !some_true_iff, negb_true_iff, Z.eqb_eq, Z.eqb_neq, !Z.ltb_lt, !Z.leb_le. repeat split; intros; lia.
Qed.

Theorem ord_trichotomy p c : comparable c p ->
  (op_test ONumericLessThan p c = Some true /\ op_test ONumericEquals p c = Some false /\ op_test ONumericGreaterThan p c = Some false) \/
  (op_test ONumericLessThan p c = Some false /\ op_test ONumericEquals p c = Some true /\ op_test ONumericGreaterThan p c = Some false) \/
  (op_test ONumericLessThan p c = Some false /\ op_test ONumericEquals p c = Some false /\ op_test ONumericGreaterThan p c = Some true).
Proof.
  intros H. apply comparable_view in H. destruct H as (x & y & H).
  rewrite lt_by_view, gt_by_view, (eq_by_view p c x y H). unfold by_view. rewrite H.
  destruct (Z.ltb_spec x y), (Z.eqb_spec x y), (Z.ltb_spec y x); try lia; auto 6.
Qed.

Lemma py_eq_incomparable c p : ord_view p c = None -> okey p <> None -> py_eq c p = false.
Proof.
  unfold ord_view, py_eq.
  destruct c as [| |bc|zc|sc|ac uc|nc|bsc| |]; destruct p as [| |bp|zp|sp|ap up|np|bsp| |]; simpl; intros E Hk;
    try reflexivity; try congruence.
  destruct (Bool.eqb ac ap); [discriminate|reflexivity].
Qed.

(* identities for ALL operands, no hypothesis: both sides are undefined together *)
Theorem ord_le_is_lt_or_eq p c :
  op_test ONumericLessThanEquals p c = lift2 orb (op_test ONumericLessThan p c) (op_test ONumericEquals p c).
Proof.
  rewrite le_by_view, lt_by_view. unfold by_view. destruct (ord_view p c) as [[x y]|] eqn:E; [|reflexivity].
  rewrite (eq_by_view p c x y E). simpl. f_equal. apply Zleb_ltb_eqb.
Qed.
Theorem ord_ge_is_gt_or_eq p c :
  op_test ONumericGreaterThanEquals p c = lift2 orb (op_test ONumericGreaterThan p c) (op_test ONumericEquals p c).
Proof.
  rewrite ge_by_view, gt_by_view. unfold by_view. destruct (ord_view p c) as [[x y]|] eqn:E; [|reflexivity].
  rewrite (eq_by_view p c x y E), Z.eqb_sym. simpl. f_equal. apply Zleb_ltb_eqb.
Qed.
Theorem ord_ge_is_not_lt p c : op_test ONumericGreaterThanEquals p c = option_map negb (op_test ONumericLessThan p c).
Proof.
  rewrite ge_by_view, lt_by_view. unfold by_view. destruct (ord_view p c) as [[x y]|]; [|reflexivity]. simpl. f_equal.
  apply Z.leb_antisym.
Qed.
Theorem ord_gt_is_not_le p c : op_test ONumericGreaterThan p c = option_map negb (op_test ONumericLessThanEquals p c).
Proof.
  rewrite gt_by_view, le_by_view. unfold by_view. destruct (ord_view p c) as [[x y]|]; [|reflexivity]. simpl. f_equal.
  apply Z.ltb_antisym.
Qed.
Theorem ord_converse p c :
  op_test ONumericLessThan p c = op_test ONumericGreaterThan c p /\ op_test ONumericLessThanEquals p c = op_test ONumericGreaterThanEquals c p.
Proof. rewrite lt_by_view, le_by_view, gt_by_view, ge_by_view, !(by_view_swap _ p c). split; reflexivity. Qed.

Theorem ord_lt_trans a b c :
  op_test ONumericLessThan b a = Some true -> op_test ONumericLessThan c b = Some true -> op_test ONumericLessThan c a = Some true.
Proof. rewrite !lt_by_view. apply by_view_chain. intros x y z. rewrite !Z.ltb_lt. lia. Qed.
Theorem ord_le_trans a b c :
  op_test ONumericLessThanEquals b a = Some true -> op_test ONumericLessThanEquals c b = Some true -> op_test ONumericLessThanEquals c a = Some true.
Proof. rewrite !le_by_view. apply by_view_chain. intros x y z. rewrite !Z.leb_le. lia. Qed.
Theorem ord_lt_le_trans a b c :
  op_test ONumericLessThan b a = Some true -> op_test ONumericLessThanEquals c b = Some true -> op_test ONumericLessThan c a = Some true.
Proof. rewrite !lt_by_view, le_by_view. apply by_view_chain. intros x y z. rewrite !Z.ltb_lt, Z.leb_le. lia. Qed.
Theorem ord_le_lt_trans a b c :
  op_test ONumericLessThanEquals b a = Some true -> op_test ONumericLessThan c b = Some true -> op_test ONumericLessThan c a = Some true.
Proof. rewrite !lt_by_view, le_by_view. apply by_view_chain. intros x y z. rewrite !Z.ltb_lt, Z.leb_le. lia. Qed.
(* antisymmetry: mutual LessThanEquals is Equals (NOT identity of values: True <= 1 <= True, and True == 1) *)
Theorem ord_le_antisym a b :
  op_test ONumericLessThanEquals b a = Some true -> op_test ONumericLessThanEquals a b = Some true -> op_test ONumericEquals b a = Some true.
Proof.
  rewrite !le_by_view, (by_view_swap _ b a). unfold by_view.
  destruct (ord_view b a) as [[x y]|] eqn:E; [|discriminate]. rewrite (eq_by_view b a x y E).
  rewrite !some_true_iff, !Z.leb_le, Z.eqb_eq. lia.
Qed.
Theorem ord_lt_irrefl a : op_test ONumericLessThan a a <> Some true.
Proof.
  rewrite lt_by_view. unfold by_view. destruct (ord_view a a) as [[x y]|] eqn:E; [|discriminate].
  rewrite (ord_view_diag a x y E), Z.ltb_irrefl. discriminate.
Qed.
Theorem ord_lt_asym a b : op_test ONumericLessThan b a = Some true -> op_test ONumericLessThan a b = Some false.
Proof.
  rewrite !lt_by_view, (by_view_swap _ b a). unfold by_view. destruct (ord_view b a) as [[x y]|]; [|discriminate].
  rewrite some_true_iff, Z.ltb_lt. intros H. f_equal. apply Z.ltb_ge. lia.
Qed.
Theorem ord_le_refl a : comparable a a -> op_test ONumericLessThanEquals a a = Some true /\ op_test ONumericEquals a a = Some true.
Proof.
  intros H. apply comparable_view in H. destruct H as (x & y & E). pose proof (ord_view_diag a x y E) as <-.
  rewrite le_by_view, (eq_by_view a a x x E). unfold by_view. rewrite E, Z.leb_refl, Z.eqb_refl. auto.
Qed.
Theorem ord_le_total a b : comparable a b ->
  op_test ONumericLessThanEquals b a = Some true \/ op_test ONumericLessThanEquals a b = Some true.
Proof.
  intros H. apply comparable_view in H. destruct H as (x & y & E).
  rewrite !le_by_view, (by_view_swap _ b a). unfold by_view. rewrite E, !some_true_iff, !Z.leb_le. lia.
Qed.
(* on two operands of the operator's own type (two integers, two datetimes) Equals is identity of values *)
Theorem ord_le_antisym_typed o a b : is_equals o = true ->
  has_fam (family o) a = true -> has_fam (family o) b = true ->
  op_test ONumericLessThanEquals b a = Some true -> op_test ONumericLessThanEquals a b = Some true -> a = b.
Proof.
  intros Hq Ha Hb H1 H2. pose proof (ord_le_antisym a b H1 H2) as He.
  destruct (equals_correct fold o b a Hq Hb Ha) as (r & Hr & Hiff).
  rewrite (equals_sem fold o b a Hq), <- (equals_sem fold ONumericEquals b a eq_refl) in Hr.
  rewrite Hr in He. apply Hiff. congruence.
Qed.

(* The model stores an aware datetime as its UTC instant, so the UTC offset it was written with is not part of the value:
   [aware_at wall off] is the datetime whose wall clock reads [wall] (microseconds) in a zone [off] microseconds east of
   UTC.  Two spellings of one instant are Equal, and ordered as their instants (Properties/C11.v C11_date_same_instant). *)
Definition aware_at (wall off : Z) : cval := CDate true (wall - off).
Definition naive_at (wall : Z) : cval := CDate false wall.

(* Python == as modelled is equality of CANONICAL values: True/False are the numbers 1/0, every other value is itself;
   the three non-values (missing key, "some other object", function object) are equal to nothing, themselves included *)
Definition canon (v : cval) : option cval :=
  match v with
  | CAbsent | COther | CFn => None
  | CBool b => Some (CInt (if b then 1 else 0))
  | _ => Some v
  end.
Definition proper (v : cval) : Prop := v <> CAbsent /\ v <> COther /\ v <> CFn.

Lemma py_eq_canon a b : py_eq a b = true <-> exists n, canon a = Some n /\ canon b = Some n.
Proof.
  split.
  - destruct a as [| |ba|za|sa|aa ua|na|bsa| |]; destruct b as [| |bb|zb|sb|ab ub|nb|bsb| |]; unfold py_eq; simpl;
      try discriminate; rewrite ?andb_true_iff, ?eqb_true_iff, ?Z.eqb_eq, ?str_eqb_spec, ?net_eqb_eq;
      intros H; try destruct H; subst; eexists; split; reflexivity.
  - intros (n & Ha & Hb).
    destruct a as [| |ba|za|sa|aa ua|na|bsa| |]; try discriminate;
      destruct b as [| |bb|zb|sb|ab ub|nb|bsb| |]; try discriminate; simpl in Ha, Hb; unfold py_eq; simpl;
      rewrite ?andb_true_iff, ?eqb_true_iff, ?Z.eqb_eq, ?str_eqb_spec, ?net_eqb_eq; repeat split; congruence.
Qed.
Lemma canon_proper v : proper v <-> exists n, canon v = Some n.
Proof.
  unfold proper. destruct v; simpl; split; try (intros (H1 & H2 & H3); congruence); try (intros [n H]; discriminate);
    try (intros _; eexists; reflexivity); intros _; repeat split; discriminate.
Qed.
Lemma py_eq_refl v : proper v -> py_eq v v = true.
Proof. intros H. apply canon_proper in H. destruct H as [n H]. apply py_eq_canon. exists n. auto. Qed.
Lemma py_eq_sym a b : py_eq a b = py_eq b a.
Proof.
  apply eq_true_iff_eq. rewrite !py_eq_canon. split; intros (n & H1 & H2); exists n; auto.
Qed.
Lemma py_eq_trans a b c : py_eq a b = true -> py_eq b c = true -> py_eq a c = true.
Proof.
  rewrite !py_eq_canon. intros (n & H1 & H2) (m & H3 & H4). exists n. split; [exact H1|]. congruence.
Qed.

Theorem equals_true_iff o p c : is_equals o = true ->
  (op_test o p c = Some true <-> exists n, canon c = Some n /\ canon p = Some n).
Proof.
  intros Ho. rewrite (equals_sem fold o p c Ho), guarded_some, <- py_eq_canon. split; [tauto|].
  intros H. pose proof (proj1 (py_eq_canon c p) H) as (n & Hc & Hp).
  assert (Pc : proper c) by (apply canon_proper; eauto). assert (Pp : proper p) by (apply canon_proper; eauto).
  split; [apply Pp|]. split; [apply Pc|exact H].
Qed.

Theorem equals_refl o v : is_equals o = true -> proper v -> op_test o v v = Some true.
Proof. intros Ho Hv. apply (equals_true_iff o v v Ho). apply canon_proper in Hv. destruct Hv as [n Hn]. exists n. auto. Qed.
Theorem equals_sym o a b : is_equals o = true -> op_test o b a = Some true -> op_test o a b = Some true.
Proof. intros Ho. rewrite !(equals_true_iff o) by exact Ho. intros (n & H1 & H2). exists n. auto. Qed.
Theorem equals_trans o a b c : is_equals o = true ->
  op_test o b a = Some true -> op_test o c b = Some true -> op_test o c a = Some true.
Proof.
  intros Ho. rewrite !(equals_true_iff o) by exact Ho. intros (n & H1 & H2) (m & H3 & H4). exists n. split; [exact H1|]. congruence.
Qed.
Theorem equals_text o (p c : str) : is_equals o = true ->
  op_test o (CStr p) (CStr c) = Some (str_eqb c p) /\ (op_test o (CStr p) (CStr c) = Some true <-> c = p).
Proof.
  intros Ho. rewrite (equals_sem fold o _ _ Ho). split; [reflexivity|]. cbn. rewrite some_true_iff. apply str_eqb_spec.
Qed.

Theorem equals_equivalence o : is_equals o = true ->
  (forall v, v <> CAbsent /\ v <> COther /\ v <> CFn -> op_test o v v = Some true) /\
  (forall a b, op_test o b a = Some true -> op_test o a b = Some true) /\
  (forall a b c, op_test o b a = Some true -> op_test o c b = Some true -> op_test o c a = Some true) /\
  (forall p c : str, op_test o (CStr p) (CStr c) = Some (str_eqb c p) /\ (op_test o (CStr p) (CStr c) = Some true <-> c = p)).
Proof.
  intros Ho. split; [exact (fun v => equals_refl o v Ho)|]. split; [exact (fun a b => equals_sym o a b Ho)|].
  split; [exact (fun a b c => equals_trans o a b c Ho)|]. exact (fun p c => equals_text o p c Ho).
Qed.

Theorem ic_sem p c :
  op_test OStringEqualsIgnoreCase p c = Some true <-> exists ps cs, p = CStr ps /\ c = CStr cs /\ fold cs = fold ps.
Proof.
  split.
  - destruct p; try discriminate; destruct c; try discriminate. intros H. eexists _, _. repeat split.
    apply ignorecase_correct. exact H.
  - intros (ps & cs & -> & -> & H). apply ignorecase_correct. exact H.
Qed.
Theorem ic_refl (s : str) : op_test OStringEqualsIgnoreCase (CStr s) (CStr s) = Some true.
Proof. apply ic_sem. exists s, s. auto. Qed.

(* StringLike is the glob match of Glob/Glob.v (C08), case-sensitive *)
Theorem like_sem p c :
  op_test OStringLike p c = match p, c with CStr ps, CStr cs => Some (glob_cs ps cs) | _, _ => None end.
Proof. destruct p; reflexivity. Qed.

(* only a wildcard-free pattern: one with a wildcard matches a text different from itself (every wildcard replaced by 'a') *)
Definition unwild (ps : str) : str := map (fun ch => if (N.eqb ch STAR || N.eqb ch QM)%bool then 97%N else ch) ps.
Lemma unwild_matches ps : glob_cs ps (unwild ps) = true.
Proof.
  unfold glob_cs, glob_match. apply (gmb_ok N N.eqb N.eqb_eq). induction ps as [|ch ps IH]; simpl; [constructor|].
  unfold tok_of. destruct (N.eqb ch STAR) eqn:E1; simpl.
  - apply gm_star1. apply gm_star0. exact IH.
  - destruct (N.eqb ch QM) eqn:E2; simpl; constructor; exact IH.
Qed.
Lemma unwild_fixed ps : unwild ps = ps -> no_wild N STAR QM ps.
Proof.
  induction ps as [|ch ps IH]; simpl; intros H; [constructor|]. injection H as H1 H2. constructor; [|exact (IH H2)].
  destruct (N.eqb_spec ch STAR) as [->|E1]; [discriminate|]. destruct (N.eqb_spec ch QM) as [->|E2]; [discriminate|]. auto.
Qed.

(* IpAddress p c: the request network c lies within the policy network p (ip_sem, ip_full_sem in Iam/OpsFacts.v) *)
Lemma ip_true_iff p c :
  op_test OIpAddress p c = Some true <-> exists pn cn, p = CNet pn /\ c = CNet cn /\ subnet_of cn pn = true.
Proof.
  rewrite (proj1 (ip_full_sem fold p c)). split.
  - destruct p; try discriminate. destruct c; try discriminate. rewrite some_true_iff. intros H.
    eexists _, _. repeat split. exact H.
  - intros (pn & cn & -> & -> & H). rewrite H. reflexivity.
Qed.
Theorem not_ip_true_iff (p c : net) :
  op_test ONotIpAddress (CNet p) (CNet c) = Some true <-> subnet_of c p = false.
Proof. rewrite (proj2 (ip_sem fold p c)), some_true_iff. apply negb_true_iff. Qed.

Theorem ip_refl (p : net) : op_test OIpAddress (CNet p) (CNet p) = Some true.
Proof. rewrite (proj1 (ip_sem fold p p)), subnet_of_refl. reflexivity. Qed.
Theorem ip_trans a b c :
  op_test OIpAddress b a = Some true -> op_test OIpAddress c b = Some true -> op_test OIpAddress c a = Some true.
Proof.
  rewrite !ip_true_iff. intros (bn & an & -> & -> & H1) (cn & bn' & -> & [= <-] & H2).
  exists cn, an. repeat split. apply (subnet_of_trans an bn cn H1 H2).
Qed.
Lemma subnet_of_antisym (a b : net) :
  (Z.of_N (n_plen a) <= width (n_ver a))%Z -> (Z.of_N (n_plen b) <= width (n_ver b))%Z ->
  subnet_of a b = true -> subnet_of b a = true -> a = b.
Proof.
  unfold subnet_of, hi, lo, blk. rewrite !andb_true_iff, !ipver_eqb_eq, !Z.leb_le.
  destruct a as [va xa la], b as [vb xb lb]; simpl. intros Hla Hlb [[Hv H1] H2] [[_ H3] H4]. subst vb.
  assert (Hx : xa = xb) by lia. subst xb.
  assert (Hp : (2 ^ (width va - Z.of_N la) = 2 ^ (width va - Z.of_N lb))%Z) by lia.
  apply Z.pow_inj_r in Hp; try lia. f_equal. lia.
Qed.
Theorem ip_antisym (p c : net) :
  (Z.of_N (n_plen p) <= width (n_ver p))%Z -> (Z.of_N (n_plen c) <= width (n_ver c))%Z ->
  op_test OIpAddress (CNet p) (CNet c) = Some true -> op_test OIpAddress (CNet c) (CNet p) = Some true -> c = p.
Proof.
  intros Hp Hc. rewrite (proj1 (ip_sem fold p c)), (proj1 (ip_sem fold c p)), !some_true_iff. intros H1 H2.
  apply subnet_of_antisym; assumption.
Qed.

(* [net_at v x l] is the /l network that contains the address x -- the arithmetic masking mk_net of Net/Arith.v
   (= ipaddress.ip_network((x, l), strict=False), C17) at the width of the version *)
Definition wbits (v : ipver) : N := match v with V4 => 32 | V6 => 128 end.
Definition net_at (v : ipver) (x l : N) : net := Net v (fst (Net.Arith.mk_net (wbits v) x l)) l.

Lemma width_wbits v : width v = Z.of_N (wbits v). Proof. destruct v; reflexivity. Qed.
Lemma blk_bridge v l : (l <= wbits v)%N -> blk v l = Z.of_N (Net.Arith.blk (wbits v) l).
Proof.
  intros H. unfold blk, Net.Arith.blk. rewrite N2Z.inj_pow, N2Z.inj_sub by exact H. rewrite width_wbits. reflexivity.
Qed.
(* the two notions of well-formed network (Z intervals here, N arithmetic in Net/Arith.v) agree *)
Lemma wf_bridge (n : net) : wf_net n <-> Net.Arith.wf (wbits (n_ver n)) (n_addr n, n_plen n).
Proof.
  unfold wf_net, Net.Arith.wf, lo. rewrite width_wbits. split.
  - intros (Hl & Ha & Hm). assert (Hl' : (n_plen n <= wbits (n_ver n))%N) by lia.
    rewrite (blk_bridge _ _ Hl') in Hm. rewrite <- N2Z.inj_mod in Hm.
    change 2%Z with (Z.of_N 2) in Ha. rewrite <- N2Z.inj_pow in Ha. repeat split; lia.
  - intros (Hl & Ha & Hm). rewrite (blk_bridge _ _ Hl), <- N2Z.inj_mod, Hm.
    change 2%Z with (Z.of_N 2). rewrite <- N2Z.inj_pow. repeat split; lia.
Qed.
Lemma wf_net_fits (c : net) : wf_net c -> (hi c <= 2 ^ width (n_ver c))%Z.
Proof.
  intros H. pose proof (proj1 (wf_bridge c) H) as Hw. destruct H as (Hl & _). rewrite width_wbits in Hl.
  pose proof (Net.Arith.blk_pos (wbits (n_ver c)) (n_plen c)) as Hb.
  pose proof (Net.Arith.in_net_bound _ (n_addr c + Net.Arith.blk (wbits (n_ver c)) (n_plen c) - 1) _ Hw) as Hx.
  unfold hi, lo. rewrite blk_bridge, width_wbits by lia.
  change 2%Z with (Z.of_N 2). rewrite <- N2Z.inj_pow. unfold Net.Arith.in_net in Hx. lia.
Qed.
Lemma wf_default_route (v : ipver) : wf_net (Net v 0 0).
Proof. destruct v; vm_compute; repeat split; discriminate. Qed.
Theorem ip_default_route (v : ipver) (c : net) : wf_net c -> n_ver c = v ->
  op_test OIpAddress (CNet (Net v 0 0)) (CNet c) = Some true.
Proof.
  intros Hwf <-. rewrite (proj1 (ip_sem fold _ c)). f_equal.
  apply (subnet_of_iff _ _ Hwf (wf_default_route _)). split; [reflexivity|]. intros x Hx. apply slash_zero_all.
  pose proof (wf_net_fits c Hwf). unfold in_net, lo in Hx. lia.
Qed.

Lemma net_at_wf v x l : (l <= wbits v)%N -> (x < 2 ^ wbits v)%N -> wf_net (net_at v x l).
Proof.
  intros Hl Hx. apply wf_bridge. unfold net_at. cbn [n_ver n_addr n_plen].
  pose proof (Net.Arith.mk_net_wf (wbits v) x l Hl Hx) as H. unfold Net.Arith.mk_net in *. exact H.
Qed.
Lemma net_at_contains v x l : (l <= wbits v)%N -> in_net (Z.of_N x) (net_at v x l).
Proof.
  intros Hl. pose proof (Net.Arith.mk_net_contains (wbits v) x l) as H.
  unfold in_net, hi, lo, net_at. cbn [n_ver n_addr n_plen]. rewrite (blk_bridge v l Hl).
  unfold Net.Arith.in_net, Net.Arith.mk_net in *. cbn [fst] in *.
  set (B := Net.Arith.blk (wbits v) l) in *. set (a := (x / B * B)%N) in *. lia.
Qed.

(* a /l block is 2^(k-l) consecutive /k blocks, so the /k block of x lies inside the /l block of x (l <= k) *)
Lemma mk_net_mono W x l k : (l <= k)%N -> (k <= W)%N ->
  (fst (Net.Arith.mk_net W x l) <= fst (Net.Arith.mk_net W x k))%N /\
  (fst (Net.Arith.mk_net W x k) + Net.Arith.blk W k <= fst (Net.Arith.mk_net W x l) + Net.Arith.blk W l)%N.
Proof.
  intros Hlk HkW. unfold Net.Arith.mk_net. cbn [fst].
  pose proof (Net.Arith.blk_pos W k) as Bk. set (B := Net.Arith.blk W k) in *.
  set (m := (2 ^ (k - l))%N).
  assert (Hm : (0 < m)%N) by (apply N.neq_0_lt_0; apply N.pow_nonzero; discriminate).
  assert (HB : Net.Arith.blk W l = (B * m)%N).
  { unfold B, m, Net.Arith.blk. rewrite <- N.pow_add_r. f_equal. lia. }
  rewrite HB. rewrite <- (N.div_div x B m) by lia. set (q := (x / B)%N).
  assert (H1 : (m * (q / m) <= q)%N) by (apply N.mul_div_le; lia).
  assert (H2 : (q < m * N.succ (q / m))%N) by (apply N.mul_succ_div_gt; lia).
  set (r := (q / m)%N) in *. split; nia.
Qed.
Theorem net_at_mono v x l k : (l <= k)%N -> (k <= wbits v)%N ->
  subnet_of (net_at v x k) (net_at v x l) = true.
Proof.
  intros Hlk Hk. destruct (mk_net_mono (wbits v) x l k Hlk Hk) as [H1 H2].
  unfold subnet_of, hi, lo, net_at. cbn [n_ver n_addr n_plen].
  rewrite (blk_bridge v k Hk), (blk_bridge v l) by lia.
  rewrite !andb_true_iff, ipver_eqb_eq, !Z.leb_le. repeat split; lia.
Qed.
Theorem net_at_mono_strict v x l k : (l < k)%N -> (k <= wbits v)%N ->
  subnet_of (net_at v x l) (net_at v x k) = false.
Proof.
  intros Hlk Hk. apply not_true_is_false. intros H.
  assert (E : net_at v x l = net_at v x k).
  { apply subnet_of_antisym; cbn [net_at n_plen n_ver]; rewrite ?width_wbits; try lia; [exact H|].
    apply net_at_mono; [lia|exact Hk]. }
  apply (f_equal n_plen) in E. cbn in E. lia.
Qed.
Theorem ip_prefix_monotone v x l k c : (l <= k)%N -> (k <= wbits v)%N ->
  op_test OIpAddress (CNet (net_at v x k)) c = Some true -> op_test OIpAddress (CNet (net_at v x l)) c = Some true.
Proof.
  intros Hlk Hk H. apply (ip_trans c (CNet (net_at v x k)) (CNet (net_at v x l)) H).
  rewrite (proj1 (ip_sem fold _ _)), (net_at_mono v x l k Hlk Hk). reflexivity.
Qed.

(* WHEN IS THE ANSWER UNDEFINED?  The 27 operators fall in six classes *)

Inductive opclass := KEq | KOrd | KText | KIp | KBool | KNull.
Definition op_class (o : base_op) : opclass :=
  match o with
  | OStringEquals | OStringNotEquals | ONumericEquals | ONumericNotEquals | ODateEquals | ODateNotEquals
  | OBinaryEquals | OArnEquals | OArnNotEquals => KEq
  | ONumericLessThan | ONumericLessThanEquals | ONumericGreaterThan | ONumericGreaterThanEquals
  | ODateLessThan | ODateLessThanEquals | ODateGreaterThan | ODateGreaterThanEquals => KOrd
  | OStringEqualsIgnoreCase | OStringNotEqualsIgnoreCase | OStringLike | OStringNotLike | OArnLike | OArnNotLike => KText
  | OIpAddress | ONotIpAddress => KIp
  | OBool => KBool
  | ONull => KNull
  end.

Lemma none_eq o p c : op_class o = KEq \/ op_class o = KBool -> (op_test o p c = None <-> p = CFn \/ c = CAbsent).
Proof. intros Hk. destruct o; try (destruct Hk; discriminate); apply guarded_none. Qed.
Lemma none_ord o p c : op_class o = KOrd -> (op_test o p c = None <-> ~ comparable c p).
Proof.
  intros Hk. assert (exists r, op_test o p c = by_view r p c) as [r ->]; [|apply by_view_none].
  destruct o; try discriminate; eexists;
    [apply lt_by_view | apply le_by_view | apply gt_by_view | apply ge_by_view
    | apply lt_by_view | apply le_by_view | apply gt_by_view | apply ge_by_view].
Qed.
Lemma text_sem o p c : op_class o = KText ->
  exists g : str -> str -> bool, op_test o p c = match p, c with CStr ps, CStr cs => Some (g ps cs) | _, _ => None end.
Proof.
  intros Hk. destruct o; try discriminate;
    [exists (fun ps cs => str_eqb (fold cs) (fold ps)) | exists (fun ps cs => negb (str_eqb (fold cs) (fold ps)))
    | exists glob_cs | exists (fun ps cs => negb (glob_cs ps cs)) | exists glob_cs | exists (fun ps cs => negb (glob_cs ps cs))];
    destruct p; try reflexivity; destruct c; reflexivity.
Qed.
Lemma none_text o p c : op_class o = KText ->
  (op_test o p c = None <-> ~ exists ps cs, p = CStr ps /\ c = CStr cs).
Proof.
  intros Hk. destruct (text_sem o p c Hk) as [g ->].
  destruct p as [| |bp|zp|sp|ap up|pn|bsp| |];
      try (split; [intros _ (ps & cs & H1 & H2); discriminate | reflexivity]);
    destruct c as [| |bc|zc|sc|ac uc|cn|bsc| |];
      try (split; [intros _ (ps & cs & H1 & H2); discriminate | reflexivity]).
  split; [discriminate | intros H; exfalso; apply H; eexists; eexists; split; reflexivity].
Qed.
Lemma none_ip o p c : op_class o = KIp ->
  (op_test o p c = None <-> p = CFn \/ ((exists pn, p = CNet pn) /\ ~ exists cn, c = CNet cn)).
Proof.
  intros Hk. destruct o; try discriminate.
  (* IpAddress is undefined exactly when NotIpAddress is; [ip_full_sem] is its answer by cases on p and c, which are walked
     through: None exactly for p a function object, or p a network and c not one *)
  1: rewrite (dual_same_domain fold OIpAddress ONotIpAddress p c eq_refl).
  all: rewrite (proj2 (ip_full_sem fold p c));
       destruct p as [| |bp|zp|sp|ap up|pn|bsp| |];
         try (split; [discriminate | intros [H|[[n H] _]]; discriminate]); try (split; auto; fail);
       destruct c as [| |bc|zc|sc|ac uc|cn|bsc| |];
         try (split; [intros _; right; split; [eexists; reflexivity | intros [n H]; discriminate] | reflexivity]);
       (split; [discriminate | intros [H|[_ H]]; [discriminate | exfalso; apply H; eexists; reflexivity]]).
Qed.
Lemma none_null o p c : op_class o = KNull -> (op_test o p c = None <-> p = CFn).
Proof. intros Hk. destruct o; try discriminate. destruct p; cbn; split; congruence. Qed.

(* holds of every function; it records only that the answer of the model depends on nothing but (fold, o, p, c) *)
Theorem deterministic o p c r1 r2 : op_test o p c = r1 -> op_test o p c = r2 -> r1 = r2.
Proof. congruence. Qed.

End Algebra.
