(* Names of the base operators and the name-stripping rule of build_root_evaluator:
     if function.endswith("IfExists"):        new = function.replace("IfExists", "")        (suffix tested FIRST)
     elif function.startswith("ForAllValues"): new = function.replace("ForAllValues", "")
     elif function.startswith("ForAnyValue"):  new = function.replace("ForAnyValue", "")
   applied again to `new` by the recursive call, until build_evaluator sees a base name. *)
From Coq Require Import List NArith String.
From PV Require Import Base.Str Iam.Ops.
Import ListNotations.
Local Open Scope string_scope.

Definition base_name_raw (o : base_op) : string :=
  match o with
  | OStringEquals => "StringEquals" | OStringNotEquals => "StringNotEquals"
  | OStringEqualsIgnoreCase => "StringEqualsIgnoreCase" | OStringNotEqualsIgnoreCase => "StringNotEqualsIgnoreCase"
  | OStringLike => "StringLike" | OStringNotLike => "StringNotLike"
  | ONumericEquals => "NumericEquals" | ONumericNotEquals => "NumericNotEquals"
  | ONumericLessThan => "NumericLessThan" | ONumericLessThanEquals => "NumericLessThanEquals"
  | ONumericGreaterThan => "NumericGreaterThan" | ONumericGreaterThanEquals => "NumericGreaterThanEquals"
  | ODateEquals => "DateEquals" | ODateNotEquals => "DateNotEquals"
  | ODateLessThan => "DateLessThan" | ODateLessThanEquals => "DateLessThanEquals"
  | ODateGreaterThan => "DateGreaterThan" | ODateGreaterThanEquals => "DateGreaterThanEquals"
  | OBool => "Bool" | OBinaryEquals => "BinaryEquals"
  | OIpAddress => "IpAddress" | ONotIpAddress => "NotIpAddress"
  | OArnEquals => "ArnEquals" | OArnLike => "ArnLike" | OArnNotEquals => "ArnNotEquals" | OArnNotLike => "ArnNotLike"
  | ONull => "Null"
  end.
Definition base_name (o : base_op) : str := of_string (base_name_raw o).
Definition base_of_name (s : str) : option base_op := find (fun o => str_eqb (base_name o) s) all_base_ops.

Definition IFEXISTS : str := of_string "IfExists".
Definition FORALL : str := of_string "ForAllValues".
Definition FORANY : str := of_string "ForAnyValue".

Definition ends_with (suf s : str) : bool := starts_with (rev suf) (rev s).
(* s.replace(d, "") for a non-empty d: leftmost, non-overlapping occurrences *)
Definition remove_all (d s : str) : str := List.concat (split d s).

(* one application of the rule: Some (what was recognised, remaining name), None when no rule applies *)
Inductive affix := AIfExists | AForAll | AForAny.
Definition strip_step (f : str) : option (affix * str) :=
  if ends_with IFEXISTS f then Some (AIfExists, remove_all IFEXISTS f)
  else if starts_with FORALL f then Some (AForAll, remove_all FORALL f)
  else if starts_with FORANY f then Some (AForAny, remove_all FORANY f)
  else None.

(* the reading the evaluator gives a field name: optional IfExists (outermost), optional qualifier, base operator.
   None when the name is not read that way (e.g. a qualifier met twice, or an unknown base name). *)
Definition parse_name (f : str) : option (qual * base_op * bool) :=
  let '(ifx, f1) := match strip_step f with Some (AIfExists, r) => (true, r) | _ => (false, f) end in
  let '(q, f2) := match strip_step f1 with
                  | Some (AForAll, r) => (QAll, r) | Some (AForAny, r) => (QAny, r)
                  | Some (AIfExists, r) => (QNone, []) (* ends with IfExists again, which only a removal that joined two halves leaves: not a name of the table *)
                  | None => (QNone, f1) end in
  match strip_step f2, base_of_name f2 with
  | None, Some o => Some (q, o, ifx)
  | _, _ => None
  end.

(* key.replace(":", "") of StatementCondition.remove_colon *)
Definition COLON : N := 58%N.
Definition norm_name (n : str) : str := filter (fun c => negb (N.eqb c COLON)) n.
Lemma norm_name_idem n : norm_name (norm_name n) = norm_name n.
Proof.
  unfold norm_name. induction n as [|c n IH]; simpl; [reflexivity|].
  destruct (negb (N.eqb c COLON)) eqn:E; simpl; [rewrite E, IH|]; auto.
Qed.

(* what block evaluation needs from an operator table: names pairwise different and free of colons *)
Definition table_ok (tbl : list op_entry) : Prop :=
  NoDup (map e_name tbl) /\ Forall (fun e => norm_name (e_name e) = e_name e) tbl.

Example parse_ex1 : parse_name (of_string "ForAllValuesStringNotLikeIfExists") = Some (QAll, OStringNotLike, true).
Proof. vm_compute. reflexivity. Qed.
Example parse_ex2 : parse_name (of_string "NotIpAddress") = Some (QNone, ONotIpAddress, false).
Proof. vm_compute. reflexivity. Qed.
Example parse_ex3 : parse_name (of_string "ForAnyValueNull") = Some (QAny, ONull, false).
Proof. vm_compute. reflexivity. Qed.
(* [remove_all] removes every occurrence, so a doubled IfExists is read as one *)
Example parse_ex4 : parse_name (of_string "StringEqualsIfExistsIfExists") = Some (QNone, OStringEquals, true).
Proof. vm_compute. reflexivity. Qed.
Example norm_ex : norm_name (of_string "ForAllValues:StringLike") = of_string "ForAllValuesStringLike".
Proof. vm_compute. reflexivity. Qed.
