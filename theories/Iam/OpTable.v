(* Finite facts about the GENERATED operator table gen/Operators.v (= the fields of the live StatementCondition class,
   in declaration order), re-proved by the kernel on every run with vm_compute. *)
From Coq Require Import List Bool Lia.
From Coq Require FinFun.
From PV Require Import Base.Str Iam.Ops Iam.OpNames.
From PVGen Require Import Operators.
Import ListNotations.

(* one row: the family is the one its base operator requires; the field NAME alone, read with the stripping rule of
   build_root_evaluator, gives back exactly (qualifier, base operator, IfExists); the name holds no colon *)
Definition entry_ok (e : op_entry) : bool :=
  fam_eqb (e_fam e) (family (e_base e))
  && match parse_name (e_name e) with
     | Some (q, o, i) => qual_eqb q (e_qual e) && base_op_eqb o (e_base e) && Bool.eqb i (e_ifx e)
     | None => false
     end
  && str_eqb (norm_name (e_name e)) (e_name e).

(* the (qualifier, operator, IfExists) a row stands for *)
Definition combo (e : op_entry) : qual * base_op * bool := (e_qual e, e_base e, e_ifx e).
Definition combo_dec (a b : qual * base_op * bool) : {a = b} + {a <> b}.
Proof. decide equality; [apply bool_dec|]. decide equality; [apply base_op_eq_dec|]. decide equality. Defined.

Lemma qual_eqb_eq a b : qual_eqb a b = true <-> a = b.
Proof. destruct a, b; simpl; split; congruence. Qed.
Lemma fam_eqb_eq a b : fam_eqb a b = true <-> a = b.
Proof. destruct a, b; simpl; split; congruence. Qed.
Lemma combo_listed tbl q o i :
  (exists e, In e tbl /\ e_qual e = q /\ e_base e = o /\ e_ifx e = i) <-> count_occ combo_dec (map combo tbl) (q, o, i) > 0.
Proof.
  rewrite <- count_occ_In, in_map_iff. split.
  - intros (e & He & <- & <- & <-). exists e. split; [reflexivity | exact He].
  - intros (e & [= <- <- <-] & He). exists e. auto.
Qed.

Lemma entries_ok_b : forallb entry_ok OPERATORS = true.
Proof. vm_compute. reflexivity. Qed.

Theorem Operators_rows_ok : forall e, In e OPERATORS ->
  e_fam e = family (e_base e)
  /\ parse_name (e_name e) = Some (e_qual e, e_base e, e_ifx e)
  /\ norm_name (e_name e) = e_name e.
Proof.
  intros e He. pose proof (proj1 (forallb_forall _ _) entries_ok_b e He) as H.
  unfold entry_ok in H. rewrite !andb_true_iff in H. destruct H as [[H1 H2] H3].
  apply fam_eqb_eq in H1. apply str_eqb_spec in H3.
  destruct (parse_name (e_name e)) as [[[q o] i]|]; [|discriminate].
  rewrite !andb_true_iff, qual_eqb_eq, base_op_eqb_eq, eqb_true_iff in H2. destruct H2 as [[-> ->] ->].
  auto.
Qed.

(* which (qualifier, operator, IfExists) combinations exist: ALL of them, except that Null has no IfExists variant
   (Null keeps its three qualifier forms) -- and each exactly once *)
Theorem Operators_combos : forall q o i,
  count_occ combo_dec (map combo OPERATORS) (q, o, i) = if (base_op_eqb o ONull && i)%bool then 0 else 1.
Proof. intros q o i. destruct o, q, i; vm_compute; reflexivity. Qed.

(* the names are pairwise different BECAUSE each is read back as its own (qualifier, operator, IfExists) and no
   combination occurs twice: no name is compared with another *)
Theorem Operators_names_nodup : NoDup (map e_name OPERATORS).
Proof.
  apply (NoDup_map_inv parse_name). rewrite map_map.
  rewrite (map_ext_in _ (fun e => Some (combo e))) by (intros e He; apply (Operators_rows_ok e He)).
  rewrite <- (map_map combo Some). apply FinFun.Injective_map_NoDup; [intros x y [= ->]; reflexivity|].
  apply (NoDup_count_occ combo_dec). intros [[q o] i]. rewrite Operators_combos. destruct (_ && _); auto.
Qed.

Theorem Operators_count : length OPERATORS = 159.
Proof. vm_compute. reflexivity. Qed.

(* the statement asked for: every one of the 27 base operators occurs bare; every listed combination has the family
   its base operator requires and its name parses back to it; names are pairwise different; a combination is
   listed iff it is not Null+IfExists *)
Theorem Operators_complete :
  (forall o, exists e, In e OPERATORS /\ e_qual e = QNone /\ e_base e = o /\ e_ifx e = false)
  /\ (forall e, In e OPERATORS ->
        e_fam e = family (e_base e) /\ parse_name (e_name e) = Some (e_qual e, e_base e, e_ifx e))
  /\ NoDup (map e_name OPERATORS)
  /\ (forall q o i, (exists e, In e OPERATORS /\ e_qual e = q /\ e_base e = o /\ e_ifx e = i) <-> ~ (o = ONull /\ i = true))
  /\ length OPERATORS = 159.
Proof.
  split; [|split; [|split; [|split]]].
  - intros o. apply combo_listed. rewrite Operators_combos, andb_false_r. auto.
  - intros e He. destruct (Operators_rows_ok e He) as (H1 & H2 & _). auto.
  - exact Operators_names_nodup.
  - intros q o i. rewrite combo_listed, Operators_combos.
    destruct (base_op_eqb o ONull) eqn:E; simpl.
    + apply base_op_eqb_eq in E. destruct i; split; try lia. intros H. exfalso. apply H. auto.
    + split; [|lia]. intros _ [H _]. apply base_op_eqb_eq in H. congruence.
  - exact Operators_count.
Qed.

(* what Block.v needs from a table *)
Theorem Operators_table_ok : table_ok OPERATORS.
Proof.
  split; [exact Operators_names_nodup|]. apply Forall_forall. intros e He. apply (Operators_rows_ok e He).
Qed.
