(* Python's all() and any() over members whose evaluation may raise are ONE loop: go through the members from the
   left until one answers [Some d] -- the verdict that decides: False for all(), True for any() -- and answer that;
   answer [Some (negb d)] when no member does; a member that cannot be evaluated (None) aborts the loop.
   [sc d] is that loop and [seq d] its binary step:  Block.all_sc = sc false,  Block.any_sc = sc true.
   Every law is proved once, for [d].
   Resolver/ShortCircuit.v defines the same loop under the same names [sc], [sc_app] for results of type [res bool]
   (Fn::And / Fn::Or); this one is over [option bool], for IAM condition blocks.  Neither file uses the other. *)
From Coq Require Import List Permutation.
From PV Require Import Base.ListFacts Iam.Block.
Import ListNotations.

Definition seq (d : bool) (x y : option bool) : option bool :=
  match x with Some b => if Bool.eqb b d then x else y | None => None end.
Fixpoint sc {A} (d : bool) (f : A -> option bool) (l : list A) : option bool :=
  match l with [] => Some (negb d) | x :: xs => seq d (f x) (sc d f xs) end.

Lemma all_sc_sc {A} (f : A -> option bool) l : all_sc f l = sc false f l.
Proof. induction l as [|x l IH]; simpl; [reflexivity|]. rewrite <- IH. destruct (f x) as [[|]|]; reflexivity. Qed.
Lemma any_sc_sc {A} (f : A -> option bool) l : any_sc f l = sc true f l.
Proof. induction l as [|x l IH]; simpl; [reflexivity|]. rewrite <- IH. destruct (f x) as [[|]|]; reflexivity. Qed.

Lemma stop_neq d : Some d <> Some (negb d).
Proof. destruct d; discriminate. Qed.

(* the step passes on to [y] exactly when [x] is the verdict that does not decide *)
Lemma seq_spec d x y r : seq d x y = r <-> (x = Some (negb d) /\ y = r) \/ (x <> Some (negb d) /\ x = r).
Proof.
  destruct x as [[|]|], d; simpl; split; try (intros <-); auto;
    try (right; split; [discriminate | reflexivity]); intros [[E H]|[E H]]; congruence.
Qed.
Lemma seq_assoc d x y z : seq d (seq d x y) z = seq d x (seq d y z).
Proof. destruct x as [[|]|], d; reflexivity. Qed.
Lemma seq_stop_l d y : seq d (Some d) y = Some d.
Proof. destruct d; reflexivity. Qed.
Lemma seq_idem d x y : seq d x (seq d x y) = seq d x y.
Proof. destruct x as [[|]|], d; reflexivity. Qed.

(* two verdicts that agree on one of the three values may only differ in the other two *)
Lemma iff_weak b (x y : option bool) : (x = Some b <-> y = Some b) -> x = y \/ (x <> Some b /\ y <> Some b).
Proof.
  intros H. destruct x as [[|]|], y as [[|]|], b; auto; try (right; split; discriminate);
    first [discriminate (proj1 H eq_refl) | discriminate (proj2 H eq_refl)].
Qed.
Lemma decided_eq b (x y : option bool) : x <> None -> y <> None -> (x = Some b <-> y = Some b) -> x = y.
Proof. intros Hx Hy H. destruct (iff_weak b x y H) as [E|[]]; [exact E|]. destruct x as [[|]|], y as [[|]|], b; congruence. Qed.

Section Laws.
Context {A : Type}.
Variables (d : bool) (f : A -> option bool).

Lemma sc_app l1 l2 : sc d f (l1 ++ l2) = seq d (sc d f l1) (sc d f l2).
Proof.
  induction l1 as [|x l1 IH]; simpl; [destruct d; reflexivity|]. rewrite IH. symmetry. apply seq_assoc.
Qed.

(* [Some (negb d)] needs every member ... *)
Lemma sc_through l : sc d f l = Some (negb d) <-> forall x, In x l -> f x = Some (negb d).
Proof.
  induction l as [|x l IH]; simpl; [split; [intros _ x [] | reflexivity]|]. rewrite seq_spec, IH. split.
  - intros [[Hx Hl]|[Hn Hx]]; [|contradiction]. intros y [<-|Hy]; auto.
  - intros H. left. split; [|intros y Hy]; apply H; auto.
Qed.
(* ... any other verdict is the verdict of one member *)
Lemma sc_found l r : r <> Some (negb d) -> sc d f l = r -> exists x, In x l /\ f x = r.
Proof.
  intros Hr. induction l as [|x l IH]; simpl; [congruence|]. rewrite seq_spec. intros [[_ H]|[_ H]].
  - destruct (IH H) as (y & Hy & E). exists y. auto.
  - exists x. auto.
Qed.

(* every member can be evaluated *)
Definition defined (l : list A) : Prop := forall x, In x l -> f x <> None.

Lemma sc_defined l : defined l -> sc d f l <> None.
Proof. intros Hd H. apply sc_found in H; [|discriminate]. destruct H as (x & Hx & E). exact (Hd x Hx E). Qed.
(* with every member defined, ONE deciding member decides, wherever it stands *)
Lemma sc_stop_total l : defined l -> (sc d f l = Some d <-> exists x, In x l /\ f x = Some d).
Proof.
  intros Hd. split; [apply sc_found, stop_neq|]. intros (x & Hx & E).
  (* the loop answers (sc_defined), and it answers [Some (negb d)] only if f x = Some (negb d) (sc_through), which E excludes *)
  apply (decided_eq (negb d)); [apply sc_defined, Hd | discriminate |].
  rewrite sc_through. split; intros H; [|exfalso; exact (stop_neq d H)].
  rewrite (H x Hx) in E. exfalso. exact (stop_neq d (eq_sym E)).
Qed.

(* sub-lists (as sets) *)
Lemma sc_through_incl l l' : incl l' l -> sc d f l = Some (negb d) -> sc d f l' = Some (negb d).
Proof. rewrite !sc_through. intros Hi H x Hx. apply H, Hi, Hx. Qed.
Lemma sc_stop_incl l l' : incl l l' -> defined l' -> sc d f l = Some d -> sc d f l' = Some d.
Proof.
  intros Hi Hd H. apply sc_found in H; [|apply stop_neq]. destruct H as (x & Hx & E).
  apply sc_stop_total; [exact Hd|]. exists x. split; [apply Hi, Hx | exact E].
Qed.

(* same members (any order, any multiplicity), every member defined: the same three-valued verdict *)
Lemma sc_same_set l l' : (forall x, In x l <-> In x l') -> defined l -> sc d f l = sc d f l'.
Proof.
  intros Hs Hd. apply (decided_eq (negb d)).
  - apply sc_defined, Hd.
  - apply sc_defined. intros x Hx. apply Hd, Hs, Hx.
  - split; apply sc_through_incl; intros x Hx; apply Hs, Hx.
Qed.

(* permutations: [Some (negb d)] is order-free; the rest may only trade [Some d] for None *)
Lemma sc_perm_through l l' : Permutation l l' -> (sc d f l = Some (negb d) <-> sc d f l' = Some (negb d)).
Proof. intros Hp. split; apply sc_through_incl; intros x Hx; apply (Permutation_same_set l l' Hp), Hx. Qed.
Lemma sc_perm l l' : Permutation l l' -> defined l -> sc d f l = sc d f l'.
Proof. intros Hp. apply sc_same_set, Permutation_same_set, Hp. Qed.
Lemma sc_perm_weak l l' : Permutation l l' ->
  sc d f l = sc d f l' \/ (sc d f l <> Some (negb d) /\ sc d f l' <> Some (negb d)).
Proof. intros Hp. apply iff_weak, sc_perm_through, Hp. Qed.
End Laws.

Lemma all_sc_true_iff {A} (f : A -> option bool) l : all_sc f l = Some true <-> forall x, In x l -> f x = Some true.
Proof. rewrite all_sc_sc. apply (sc_through false). Qed.

Lemma sc_ext_in {A} d (f g : A -> option bool) l : (forall x, In x l -> f x = g x) -> sc d f l = sc d g l.
Proof.
  induction l as [|x l IH]; simpl; intros H; [reflexivity|]. rewrite (H x), IH; auto.
Qed.
(* "True" survives a change of the members that keeps True and leaves every new verdict defined *)
Lemma sc_true_mono {A} d (f g : A -> option bool) l :
  (forall x, In x l -> f x = Some true -> g x = Some true) -> (forall x, In x l -> g x <> None) ->
  sc d f l = Some true -> sc d g l = Some true.
Proof.
  intros H Hd. destruct d.
  - intros E. apply sc_found in E; [|discriminate]. destruct E as (x & Hx & E).
    apply sc_stop_total; [exact Hd|]. exists x. auto.
  - intros E. apply (sc_through false). intros x Hx. apply (H x Hx). revert x Hx. apply (sc_through false), E.
Qed.
