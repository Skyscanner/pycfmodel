(* Condition blocks (Iam/Block.v eval_block) against their declarative reading [block_sat]: exactly when the block is True,
   when it is undetermined, and the plain reading without evaluation order -- for all blocks, all contexts, any leaf
   comparison [test], any operator table. *)
From Coq Require Import List Bool.
From PV Require Import Base.Str Base.ListFacts Iam.Ops Iam.OpNames Iam.Block Iam.ShortCircuit.
Import ListNotations.

(* "P holds for some member, and Q for every member before it" *)
Definition first_with {A} (P Q : A -> Prop) (l : list A) : Prop :=
  exists l1 x l2, l = l1 ++ x :: l2 /\ P x /\ Forall Q l1.

Lemma first_with_here {A} (P Q : A -> Prop) x l : P x -> first_with P Q (x :: l).
Proof. intros H. exists [], x, l. auto. Qed.
Lemma first_with_later {A} (P Q : A -> Prop) x l : Q x -> first_with P Q l -> first_with P Q (x :: l).
Proof. intros H (l1 & y & l2 & -> & Hy & Hl). exists (x :: l1), y, l2. auto. Qed.
Lemma first_with_inv {A} (P Q : A -> Prop) x l : first_with P Q (x :: l) -> P x \/ (Q x /\ first_with P Q l).
Proof.
  intros (l1 & y & l2 & E & Hy & Hl). destruct l1 as [|z l1]; simpl in E; inversion E; subst.
  - left; exact Hy.
  - right. inversion Hl; subst. split; [assumption|]. exists l1, y, l2. auto.
Qed.
Lemma first_with_nil {A} (P Q : A -> Prop) : ~ first_with P Q [].
Proof. intros (l1 & y & l2 & E & _). destruct l1; discriminate. Qed.
Lemma first_with_Exists {A} (P Q : A -> Prop) l : first_with P Q l -> Exists P l.
Proof. intros (l1 & y & l2 & -> & Hy & _). apply Exists_app. right. left. exact Hy. Qed.

(* the two verdicts of the loop [sc d], read through predicates: D = "decides", N = "does not" *)
Section ScRel.
Context {A : Type}.
Variables (d : bool) (f : A -> option bool) (D N : A -> Prop).
Hypothesis HD : forall x, f x = Some d <-> D x.
Hypothesis HN : forall x, f x = Some (negb d) <-> N x.

Lemma sc_through_rel l : sc d f l = Some (negb d) <-> Forall N l.
Proof. rewrite sc_through, Forall_forall. split; intros H x Hx; apply HN, H, Hx. Qed.
Lemma sc_stop_rel l : sc d f l = Some d <-> first_with D N l.
Proof.
  induction l as [|x l IH]; simpl.
  - split; [intros H; destruct (stop_neq d (eq_sym H)) | intros H; destruct (first_with_nil _ _ H)].
  - rewrite seq_spec, IH. split.
    + intros [[Hx H]|[_ Hx]]; [apply first_with_later; [apply HN, Hx | exact H] | apply first_with_here, HD, Hx].
    + intros H. apply first_with_inv in H. destruct H as [Hx|[Hx H]].
      * apply HD in Hx. right. split; [rewrite Hx; apply stop_neq | exact Hx].
      * left. split; [apply HN, Hx | exact H].
Qed.
End ScRel.

Lemma all_sc_defined {A} (f : A -> option bool) l : (forall x, In x l -> f x <> None) -> all_sc f l <> None.
Proof. rewrite all_sc_sc. apply sc_defined. Qed.
Lemma any_sc_defined {A} (f : A -> option bool) l : (forall x, In x l -> f x <> None) -> any_sc f l <> None.
Proof. rewrite any_sc_sc. apply sc_defined. Qed.

Section Spec.
Variable test : base_op -> cval -> cval -> option bool.
Notation value_ok := (value_ok test).
Notation eval_inner := (eval_inner test).
Notation eval_key := (eval_key test).
Notation eval_entry := (eval_entry test).
Notation eval_block := (eval_block test).

(* Specification: the declarative reading of the property. *)

(* context value c matches / is comparable with but does not match policy value p under operator o *)
Definition t_true (o : base_op) (c p : cval) : Prop := test o p c = Some true.
Definition t_false (o : base_op) (c p : cval) : Prop := test o p c = Some false.

(* one context value against the policy values listed under the key:
   positive operator -- the values are ALTERNATIVES: some value matches (those before it were comparable and did not);
   negated operator  -- the values are JOINTLY EXCLUDED: the test holds for every one of them *)
Definition value_sat (o : base_op) (ps : list cval) (c : cval) : Prop :=
  if negated o then Forall (t_true o c) ps else first_with (t_true o c) (t_false o c) ps.
Definition value_unsat (o : base_op) (ps : list cval) (c : cval) : Prop :=
  if negated o then first_with (t_false o c) (t_true o c) ps else Forall (t_false o c) ps.

Definition inner_sat (q : qual) (o : base_op) (k : str) (pv : pvals) (ctx : context) : Prop :=
  match q, pv with
  | QNone, POne p => test o p (leaf_of (ctx_get ctx k)) = Some true        (* the key's own context value *)
  | QAll, _ =>                                                              (* ForAllValues: EVERY context value *)
      exists x, ctx_get ctx k = Some x /\ Forall (value_sat o (plist pv)) (as_list x)
  | _, _ =>                                                                 (* ForAnyValue / value list: AT LEAST ONE *)
      exists x, ctx_get ctx k = Some x /\
                first_with (value_sat o (plist pv)) (value_unsat o (plist pv)) (as_list x)
  end.

(* IfExists: satisfied when the key is absent (missing or None) *)
Definition key_sat (e : op_entry) (k : str) (pv : pvals) (ctx : context) : Prop :=
  (e_ifx e = true /\ present ctx k = false) \/ inner_sat (e_qual e) (e_base e) k pv ctx.

(* operator e of the table is set in block b with groups g *)
Definition is_set (ord : list op_entry) (b : block) (e : op_entry) (g : groups) : Prop :=
  In e ord /\ find_last (e_name e) (norm_block b) = Some g.

Definition no_fn (ord : list op_entry) (b : block) : Prop :=
  forall e g k pv, is_set ord b e g -> In (k, pv) g -> ~ In CFn (plist pv).

(* satisfied exactly when EVERY operator in it is satisfied for EVERY one of its keys *)
Definition block_sat (ord : list op_entry) (b : block) (ctx : context) : Prop :=
  no_fn ord b /\ forall e g k pv, is_set ord b e g -> In (k, pv) g -> key_sat e k pv ctx.

(* the values listed under a key are walked by [sc d], where [Some d] is the verdict ONE value can force:
   True for a positive operator, False for a negated one *)
Lemma value_ok_sc d o ps c : negated o = negb d -> value_ok o ps c = sc d (fun p => test o p c) ps.
Proof. unfold Block.value_ok. intros ->. destruct d; [apply any_sc_sc | apply all_sc_sc]. Qed.
Lemma value_ok_sc_o o ps c : value_ok o ps c = sc (negb (negated o)) (fun p => test o p c) ps.
Proof. apply value_ok_sc. symmetry. apply negb_involutive. Qed.

Lemma value_ok_true o ps c : value_ok o ps c = Some true <-> value_sat o ps c.
Proof.
  unfold value_sat. destruct (negated o) eqn:E.
  - rewrite (value_ok_sc false o ps c E). apply (sc_through_rel false). reflexivity.
  - rewrite (value_ok_sc true o ps c E). apply (sc_stop_rel true); reflexivity.
Qed.
Lemma value_ok_false o ps c : value_ok o ps c = Some false <-> value_unsat o ps c.
Proof.
  unfold value_unsat. destruct (negated o) eqn:E.
  - rewrite (value_ok_sc false o ps c E). apply (sc_stop_rel false); reflexivity.
  - rewrite (value_ok_sc true o ps c E). apply (sc_through_rel true). reflexivity.
Qed.

(* a verdict computed from the value found under the key *)
Lemma on_key_true {X} (v : option X) (F : X -> option bool) (P : X -> Prop) :
  (forall x, F x = Some true <-> P x) ->
  (match v with None => None | Some x => F x end = Some true <-> exists x, v = Some x /\ P x).
Proof.
  intros H. destruct v as [x|]; [rewrite H|]; split; try discriminate.
  - eauto.
  - intros (y & [= <-] & Hy). exact Hy.
  - intros (y & E & _). discriminate.
Qed.

Lemma eval_inner_true q o k pv ctx : eval_inner q o k pv ctx = Some true <-> inner_sat q o k pv ctx.
Proof.
  unfold Block.eval_inner, inner_sat.
  destruct q, pv; try reflexivity; apply on_key_true; intros x; rewrite ?any_sc_sc, ?all_sc_sc;
    first [ apply (sc_stop_rel true); intros c; [apply value_ok_true | apply value_ok_false]
          | apply (sc_through_rel false); intros c; apply value_ok_true ].
Qed.

Lemma eval_key_true e k pv ctx : eval_key e k pv ctx = Some true <-> key_sat e k pv ctx.
Proof.
  unfold Block.eval_key, key_sat. destruct (e_ifx e), (present ctx k); simpl; rewrite ?eval_inner_true; intuition congruence.
Qed.

Lemma in_active ord b e g : In (e, g) (active ord b) <-> is_set ord b e g.
Proof.
  unfold active, is_set. rewrite in_flat_map. split.
  - intros (e' & He' & Hin). destruct (find_last (e_name e') (norm_block b)) as [g'|] eqn:E; [|contradiction].
    destruct Hin as [Hin|[]]. inversion Hin; subst. auto.
  - intros [He Hg]. exists e. split; [exact He|]. rewrite Hg. left. reflexivity.
Qed.

Lemma pv_has_fn_false pv : pv_has_fn pv = false <-> ~ In CFn (plist pv).
Proof.
  unfold pv_has_fn. rewrite existsb_false_iff. split.
  - intros H Hin. discriminate (H CFn Hin).
  - intros H p Hp. destruct p; try reflexivity. contradiction.
Qed.
Lemma has_fn_false ord b : has_fn (active ord b) = false <-> no_fn ord b.
Proof.
  unfold has_fn, no_fn. rewrite existsb_false_iff. split.
  - intros H e g k pv Hs Hk. apply in_active in Hs. apply pv_has_fn_false.
    specialize (H (e, g) Hs). rewrite existsb_false_iff in H. exact (H (k, pv) Hk).
  - intros H [e g] Hs. apply in_active in Hs. apply existsb_false_iff. intros [k pv] Hk.
    apply pv_has_fn_false. exact (H e g k pv Hs Hk).
Qed.

(* C12_true_iff *)
Theorem block_true_iff ord b ctx : eval_block ord b ctx = Some true <-> block_sat ord b ctx.
Proof.
  unfold Block.eval_block, block_sat. rewrite <- has_fn_false.
  destruct (has_fn (active ord b)); [split; [discriminate | intros [H _]; discriminate]|].
  rewrite all_sc_true_iff. split.
  - intros H. split; [reflexivity|]. intros e g k pv Hs Hk. apply in_active in Hs. specialize (H _ Hs).
    unfold Block.eval_entry in H. rewrite all_sc_true_iff in H. apply eval_key_true. exact (H _ Hk).
  - intros [_ H] [e g] Hs. unfold Block.eval_entry. rewrite all_sc_true_iff. intros [k pv] Hk.
    apply eval_key_true. apply in_active in Hs. exact (H e g k pv Hs Hk).
Qed.

(* C12_total: the verdict is True, False or None; there is no fourth outcome (no exception escapes __call__) *)
Theorem block_total ord b ctx :
  eval_block ord b ctx = Some true \/ eval_block ord b ctx = Some false \/ eval_block ord b ctx = None.
Proof. destruct (eval_block ord b ctx) as [[|]|]; auto. Qed.

(* the context values a (qualifier, key, policy value) group looks at *)
Definition seen (q : qual) (pv : pvals) (ctx : context) (k : str) : list cval :=
  match q, pv with
  | QNone, POne _ => [leaf_of (ctx_get ctx k)]
  | _, _ => match ctx_get ctx k with Some x => as_list x | None => [] end
  end.

Lemma value_ok_none o ps c : value_ok o ps c = None -> exists p, In p ps /\ test o p c = None.
Proof.
  rewrite value_ok_sc_o. apply sc_found. discriminate.
Qed.

Lemma eval_inner_none q o k pv ctx : eval_inner q o k pv ctx = None ->
  ctx_get ctx k = None \/ exists p c, In p (plist pv) /\ In c (seen q pv ctx k) /\ test o p c = None.
Proof.
  unfold Block.eval_inner, seen.
  assert (HA : forall d x, sc d (value_ok o (plist pv)) (as_list x) = None ->
               exists p c, In p (plist pv) /\ In c (as_list x) /\ test o p c = None).
  { intros d x H. apply sc_found in H; [|discriminate]. destruct H as (c & Hc & H). apply value_ok_none in H.
    destruct H as (p & Hp & H). exists p, c. auto. }
  destruct q, pv;
    try (destruct (ctx_get ctx k) as [x|]; [rewrite ?any_sc_sc, ?all_sc_sc; intros H; right; exact (HA _ x H) | left; reflexivity]).
  intros H. right. exists p, (leaf_of (ctx_get ctx k)). simpl. auto.
Qed.

(* C12_none_only_if: None only if a policy value is still a function object, or a REQUIRED key (no IfExists) is missing,
   or some comparison between a listed policy value and a context value of that key cannot be made *)
Theorem block_none_only_if ord b ctx : eval_block ord b ctx = None ->
  ~ no_fn ord b \/
  exists e g k pv, is_set ord b e g /\ In (k, pv) g /\
    ((e_ifx e = false /\ ctx_get ctx k = None) \/
     exists p c, In p (plist pv) /\ In c (seen (e_qual e) pv ctx k) /\ test (e_base e) p c = None).
Proof.
  unfold Block.eval_block. destruct (has_fn (active ord b)) eqn:Hf.
  - intros _. left. intros H. apply has_fn_false in H. congruence.
  - intros H. right. rewrite all_sc_sc in H. apply sc_found in H; [|discriminate]. destruct H as ([e g] & Hs & H).
    unfold Block.eval_entry in H. rewrite all_sc_sc in H. apply sc_found in H; [|discriminate]. destruct H as ([k pv] & Hk & H).
    simpl in H. exists e, g, k, pv. apply in_active in Hs. split; [exact Hs|]. split; [exact Hk|].
    unfold Block.eval_key in H. destruct (e_ifx e) eqn:Ei; simpl in H.
    + destruct (present ctx k) eqn:Ep; simpl in H; [|discriminate].
      apply eval_inner_none in H. destruct H as [H|H]; [|right; exact H].
      unfold present in Ep. rewrite H in Ep. discriminate.
    + apply eval_inner_none in H. destruct H as [H|H]; [left; auto | right; exact H].
Qed.

Lemma ctx_get_other k k2 v ctx : k2 <> k -> ctx_get ((k2, v) :: ctx) k = ctx_get ctx k.
Proof. intros Hne. unfold ctx_get. simpl. rewrite (proj2 (str_eqb_neq k k2)); [reflexivity | congruence]. Qed.

(* IfExists: satisfied when the key is absent *)
Theorem ifexists_absent e k pv ctx : e_ifx e = true -> present ctx k = false -> eval_key e k pv ctx = Some true.
Proof. unfold Block.eval_key. intros -> ->. reflexivity. Qed.

Lemma norm_block_idem b : norm_block (norm_block b) = norm_block b.
Proof.
  unfold norm_block. rewrite map_map. apply map_ext. intros [n g]. simpl. rewrite norm_name_idem. reflexivity.
Qed.
(* C12_colon *)
Theorem colon_irrelevant ord b ctx : eval_block ord (norm_block b) ctx = eval_block ord b ctx.
Proof. unfold Block.eval_block, active. rewrite norm_block_idem. reflexivity. Qed.

Lemma is_set_single ord e g e' g' : table_ok ord -> In e ord ->
  (is_set ord [(e_name e, g)] e' g' <-> e' = e /\ g' = g).
Proof.
  intros [Hnd Hnorm] He. unfold is_set, find_last, norm_block. simpl. rewrite (proj1 (Forall_forall _ _) Hnorm e He).
  destruct (str_eqb (e_name e') (e_name e)) eqn:E.
  - apply str_eqb_spec in E. split.
    + intros [He' [= <-]]. split; [exact (NoDup_map_inj e_name ord e' e Hnd He' He E) | reflexivity].
    + intros [-> ->]. auto.
  - split; [intros [_ H]; discriminate|]. intros [-> _]. rewrite str_eqb_refl in E. discriminate.
Qed.

(* C12_conjunction *)
Lemma single_true ord e k pv ctx : table_ok ord -> In e ord ->
  (eval_block ord [(e_name e, [(k, pv)])] ctx = Some true <-> ~ In CFn (plist pv) /\ key_sat e k pv ctx).
Proof.
  intros Hok He. rewrite block_true_iff. unfold block_sat, no_fn. split.
  - intros [Hf H]. assert (Hs : is_set ord [(e_name e, [(k, pv)])] e [(k, pv)]) by (apply is_set_single; auto).
    split; [apply (Hf _ _ k pv Hs) | apply (H _ _ k pv Hs)]; left; reflexivity.
  - intros [Hf H]. split; intros e' g' k' pv' Hs Hk; apply (is_set_single ord e _ e' g' Hok He) in Hs;
      destruct Hs as [-> ->]; destruct Hk as [[= <- <-]|[]]; assumption.
Qed.

(* The plain reading (no evaluation order), valid when every comparison the block can make is defined. *)
Definition value_sat_plain (o : base_op) (ps : list cval) (c : cval) : Prop :=
  if negated o then Forall (t_true o c) ps else Exists (t_true o c) ps.
Definition inner_sat_plain (q : qual) (o : base_op) (k : str) (pv : pvals) (ctx : context) : Prop :=
  match q, pv with
  | QNone, POne p => test o p (leaf_of (ctx_get ctx k)) = Some true
  | QAll, _ => exists x, ctx_get ctx k = Some x /\ Forall (value_sat_plain o (plist pv)) (as_list x)
  | _, _ => exists x, ctx_get ctx k = Some x /\ Exists (value_sat_plain o (plist pv)) (as_list x)
  end.
Definition key_sat_plain (e : op_entry) (k : str) (pv : pvals) (ctx : context) : Prop :=
  (e_ifx e = true /\ present ctx k = false) \/ inner_sat_plain (e_qual e) (e_base e) k pv ctx.
Definition block_sat_plain (ord : list op_entry) (b : block) (ctx : context) : Prop :=
  no_fn ord b /\ forall e g k pv, is_set ord b e g -> In (k, pv) g -> key_sat_plain e k pv ctx.
(* every policy value of the block can be compared with every context value of its key *)
Definition comparable (ord : list op_entry) (b : block) (ctx : context) : Prop :=
  forall e g k pv p x c, is_set ord b e g -> In (k, pv) g -> In p (plist pv) -> ctx_get ctx k = Some x -> In c (as_list x) ->
    test (e_base e) p c <> None.

Lemma value_sat_weaken o ps c : value_sat o ps c -> value_sat_plain o ps c.
Proof. unfold value_sat, value_sat_plain. destruct (negated o); [auto | apply first_with_Exists]. Qed.
Lemma value_sat_strengthen o ps c : (forall p, In p ps -> test o p c <> None) -> value_sat_plain o ps c -> value_sat o ps c.
Proof.
  unfold value_sat, value_sat_plain. destruct (negated o); [auto|]. intros Hd H.
  apply (sc_stop_rel true (fun p => test o p c)); try reflexivity.
  apply sc_stop_total; [exact Hd | apply Exists_exists, H].
Qed.

Lemma inner_sat_weaken q o k pv ctx : inner_sat q o k pv ctx -> inner_sat_plain q o k pv ctx.
Proof.
  unfold inner_sat, inner_sat_plain.
  destruct q, pv; try exact (fun H => H); intros (x & Hx & H); exists x; (split; [exact Hx|]);
    try apply first_with_Exists in H; revert H; first [apply Exists_impl | apply Forall_impl]; intros c; apply value_sat_weaken.
Qed.
(* the converse needs every comparison the group can make to be defined *)
Lemma inner_sat_strengthen q o k pv ctx :
  (forall x c p, ctx_get ctx k = Some x -> In c (as_list x) -> In p (plist pv) -> test o p c <> None) ->
  inner_sat_plain q o k pv ctx -> inner_sat q o k pv ctx.
Proof.
  intros Hc. unfold inner_sat, inner_sat_plain.
  assert (Hstr : forall x c, ctx_get ctx k = Some x -> In c (as_list x) ->
                 value_sat_plain o (plist pv) c -> value_sat o (plist pv) c).
  { intros x c Hx Hin. apply value_sat_strengthen. intros p. exact (Hc x c p Hx Hin). }
  assert (HE : forall x, ctx_get ctx k = Some x -> Exists (value_sat_plain o (plist pv)) (as_list x) ->
               first_with (value_sat o (plist pv)) (value_unsat o (plist pv)) (as_list x)).
  { intros x Hx H. apply (sc_stop_rel true _ _ _ (value_ok_true o (plist pv)) (value_ok_false o (plist pv))).
    apply sc_stop_total.
    - intros c Hin E. apply value_ok_none in E. destruct E as (p & Hp & E). exact (Hc x c p Hx Hin Hp E).
    - apply Exists_exists in H. destruct H as (c & Hin & Hv). exists c. split; [exact Hin|].
      apply value_ok_true. exact (Hstr x c Hx Hin Hv). }
  destruct q, pv; try exact (fun H => H); intros (x & Hx & H); exists x; (split; [exact Hx|]);
    try (apply (HE x Hx H)); rewrite Forall_forall in *; intros c Hin; apply (Hstr x c Hx Hin), H, Hin.
Qed.

End Spec.
