(* C11 -- what each class of operators computes, for ALL operands (no bounds), and what that comes to on two operands of
   the operator's type.  The ordering operators are in Iam/OpsAlgebra.v. *)
From Coq Require Import List Bool ZArith.
From PV Require Import Base.Str Iam.IpNet Iam.Ops.
Import ListNotations.

Definition is_equals (o : base_op) : bool :=
  match o with OStringEquals | OArnEquals | OBinaryEquals | ONumericEquals | ODateEquals => true | _ => false end.
Definition is_not_equals (o : base_op) : bool :=
  match o with OStringNotEquals | OArnNotEquals | ONumericNotEquals | ODateNotEquals => true | _ => false end.

(* Python == on two operands of one family is equality of the values *)
Lemma py_eq_typed f p c : has_fam f p = true -> has_fam f c = true -> (py_eq c p = true <-> c = p).
Proof.
  destruct f, p; simpl; try discriminate; intros _; destruct c; simpl; try discriminate; intros _; unfold py_eq; simpl.
  1,2,7: rewrite str_eqb_spec; split; congruence.
  - rewrite Z.eqb_eq; split; congruence.
  - rewrite andb_true_iff, eqb_true_iff, Z.eqb_eq. split; [intros [-> ->]; reflexivity | intros H; inversion H; auto].
  - destruct b, b0; simpl; split; congruence.
  - destruct b, b0; simpl; split; congruence.
  - rewrite net_eqb_eq; split; congruence.
Qed.

Lemma some_true_iff (b : bool) : Some b = Some true <-> b = true.
Proof. split; congruence. Qed.

(* The shape of the Equals, NotEquals and Bool operators: the answer is b -- unless the policy value is a function object
   (building the evaluator raises) or the key is missing (KeyError) *)
Definition guarded (p c : cval) (b : bool) : option bool :=
  match p with CFn => None | _ => on_present c (Some b) end.

Lemma guarded_cases p c b :
  (p = CFn \/ c = CAbsent) /\ guarded p c b = None \/ (p <> CFn /\ c <> CAbsent) /\ guarded p c b = Some b.
Proof.
  destruct p; try (left; split; [left|]; reflexivity); destruct c; try (left; split; [right|]; reflexivity);
    right; (split; [split; discriminate | reflexivity]).
Qed.
Lemma guarded_some p c b r : guarded p c b = Some r <-> p <> CFn /\ c <> CAbsent /\ b = r.
Proof.
  destruct (guarded_cases p c b) as [[H ->]|[[Hp Hc] ->]].
  - split; [discriminate | intros (Hp & Hc & _); destruct H; contradiction].
  - split; [intros E; injection E; auto | intros (_ & _ & ->); reflexivity].
Qed.
Lemma guarded_none p c b : guarded p c b = None <-> p = CFn \/ c = CAbsent.
Proof.
  destruct (guarded_cases p c b) as [[H ->]|[[Hp Hc] ->]]; [tauto|].
  split; [discriminate | intros [E|E]; contradiction].
Qed.
Lemma guarded_negb p c b : guarded p c (negb b) = option_map negb (guarded p c b).
Proof. destruct p; try reflexivity; destruct c; reflexivity. Qed.
Lemma guarded_typed f p c b : has_fam f p = true -> has_fam f c = true -> guarded p c b = Some b.
Proof. destruct f, p; try discriminate; intros _; destruct c; try discriminate; reflexivity. Qed.

Section Facts.
Variable fold : str -> str.
Notation op_test := (op_test fold).

Theorem equals_sem o p c : is_equals o = true -> op_test o p c = guarded p c (py_eq c p).
Proof. destruct o; try discriminate; reflexivity. Qed.
Theorem not_equals_sem o p c : is_not_equals o = true -> op_test o p c = guarded p c (negb (py_eq c p)).
Proof. destruct o; try discriminate; reflexivity. Qed.

Theorem equals_correct o p c :
  is_equals o = true -> has_fam (family o) p = true -> has_fam (family o) c = true ->
  exists b, op_test o p c = Some b /\ (b = true <-> c = p).
Proof.
  intros Ho Hp Hc. exists (py_eq c p). rewrite (equals_sem o p c Ho).
  split; [apply (guarded_typed _ _ _ _ Hp Hc) | apply (py_eq_typed _ _ _ Hp Hc)].
Qed.

Theorem ignorecase_correct (p c : str) :
  op_test OStringEqualsIgnoreCase (CStr p) (CStr c) = Some (str_eqb (fold c) (fold p)) /\
  (op_test OStringEqualsIgnoreCase (CStr p) (CStr c) = Some true <-> fold c = fold p).
Proof. split; [reflexivity|]. cbn. rewrite some_true_iff. apply str_eqb_spec. Qed.

(* two networks always compare: one of the other IP version is simply outside (subnet_of is false across versions) *)
Theorem ip_sem (p c : net) :
  op_test OIpAddress (CNet p) (CNet c) = Some (subnet_of c p) /\
  op_test ONotIpAddress (CNet p) (CNet c) = Some (negb (subnet_of c p)).
Proof.
  cbn [Ops.op_test test_ip]. destruct (ipver_eqb (n_ver c) (n_ver p)) eqn:E.
  - rewrite xorb_false_l, xorb_true_l. split; reflexivity.
  - unfold subnet_of. rewrite E. split; reflexivity.
Qed.
Theorem ip_full_sem p c :
  op_test OIpAddress p c =
    match p with
    | CFn => None
    | CNet pn => match c with CNet cn => Some (subnet_of cn pn) | _ => None end
    | _ => Some false
    end /\
  op_test ONotIpAddress p c =
    match p with
    | CFn => None
    | CNet pn => match c with CNet cn => Some (negb (subnet_of cn pn)) | _ => None end
    | _ => Some false
    end.
Proof.
  destruct p as [| |bp|zp|sp|ap up|pn|bsp| |]; try (split; reflexivity).
  destruct c as [| |bc|zc|sc|ac uc|cn|bsc| |]; try (split; reflexivity). apply ip_sem.
Qed.

Theorem bool_sem p c :
  op_test OBool p c = guarded p c (match p, c with CBool pb, CBool cb => Bool.eqb cb pb | _, _ => false end).
Proof. reflexivity. Qed.

Theorem null_presence (b : bool) (c : cval) :
  op_test ONull (CBool b) c = Some (Bool.eqb (is_present c) b) /\
  (is_present c = true <-> c <> CAbsent /\ c <> CNone).
Proof.
  split; [reflexivity|]. destruct c; simpl; split; try tauto; try discriminate; intros; repeat split; discriminate.
Qed.

(* every negated operator is the negation of its positive counterpart, for ALL operands (absent and ill-typed ones
   included: both raise together) -- with ONE exception: IpAddress / NotIpAddress on a policy value that is not a network,
   where the code answers False for both *)
Theorem negation_dual_all o o' p c : neg_of o = Some o' ->
  (o = OIpAddress -> p = CFn \/ exists n, p = CNet n) ->
  op_test o' p c = option_map negb (op_test o p c).
Proof.
  intros Hn Hip. destruct o; inversion Hn; subst o'; clear Hn.
  1,4,5,7: apply guarded_negb.
  1,2,4: destruct p; reflexivity.
  destruct (Hip eq_refl) as [->|[n ->]]; [reflexivity|]. destruct c; try reflexivity.
  rewrite (proj1 (ip_sem _ _)), (proj2 (ip_sem _ _)). reflexivity.
Qed.

Theorem dual_same_domain o o' p c : neg_of o = Some o' -> (op_test o p c = None <-> op_test o' p c = None).
Proof.
  intros Hn. destruct (base_op_eq_dec o OIpAddress) as [->|Ho].
  - injection Hn as <-. rewrite (proj1 (ip_full_sem p c)), (proj2 (ip_full_sem p c)).
    destruct p; try tauto; try (split; discriminate). destruct c; try tauto; split; discriminate.
  - rewrite (negation_dual_all o o' p c Hn) by contradiction. destruct (op_test o p c); simpl; split; congruence.
Qed.
End Facts.
