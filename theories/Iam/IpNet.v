(* IP networks as (version, network address, prefix length), modelled ARITHMETICALLY: a /l network of a
   W-bit address space is the interval [a, a + 2^(W-l)), with the version (W = 32 | 128) explicit.  That Python's
   ipaddress computes the same interval with int(addr) & int(netmask) is ipaddress' business (a trusted leaf).
   This is the representation the IAM operators use (Iam/Ops.v); Net/Arith.v has another one for C17 (there: a pair
   of N with a width argument; here: a record with a version tag and intervals in Z) and defines the same names
   (net, blk, in_net, subnet_of, ...).  The two are related in Iam/OpsAlgebra.v: [blk_bridge] (the block sizes are
   equal for prefixes l <= width) and [wf_bridge] (wf_net n <-> Net.Arith.wf of the same address and prefix).
   For l > width [blk] is 0 here (2 ^ negative in Z) and 1 there (truncated subtraction), which is why
   blk_pos carries the prefix hypothesis. *)
From Coq Require Import ZArith Lia Bool.
Local Open Scope Z_scope.

Inductive ipver := V4 | V6.
Definition ipver_eqb (a b : ipver) : bool :=
  match a, b with V4, V4 | V6, V6 => true | _, _ => false end.
Lemma ipver_eqb_eq a b : ipver_eqb a b = true <-> a = b.
Proof. destruct a, b; simpl; split; congruence. Qed.

Definition width (v : ipver) : Z := match v with V4 => 32 | V6 => 128 end.

Record net := Net { n_ver : ipver; n_addr : N; n_plen : N }.

(* number of addresses of a /l network *)
Definition blk (v : ipver) (l : N) : Z := 2 ^ (width v - Z.of_N l).
Definition lo (n : net) : Z := Z.of_N (n_addr n).
Definition hi (n : net) : Z := lo n + blk (n_ver n) (n_plen n).       (* exclusive upper end *)

(* well-formed: prefix within the width, address within the space, host bits zero *)
Definition wf_net (n : net) : Prop :=
  Z.of_N (n_plen n) <= width (n_ver n) /\ lo n < 2 ^ width (n_ver n) /\ lo n mod blk (n_ver n) (n_plen n) = 0.

Definition same_ver (a b : net) : Prop := n_ver a = n_ver b.
(* x is an address of network n *)
Definition in_net (x : Z) (n : net) : Prop := lo n <= x < hi n.

(* Python: a.subnet_of(b) for two networks of the SAME version
   (b.network_address <= a.network_address and b.broadcast_address >= a.broadcast_address);
   for different versions Python raises TypeError; here the version test is the first conjunct, and the caller
   (Ops.test_ip) tests the versions before it calls. *)
Definition subnet_of (a b : net) : bool :=
  ipver_eqb (n_ver a) (n_ver b) && (lo b <=? lo a) && (hi a <=? hi b).

Definition net_eqb (a b : net) : bool :=
  ipver_eqb (n_ver a) (n_ver b) && N.eqb (n_addr a) (n_addr b) && N.eqb (n_plen a) (n_plen b).
Lemma net_eqb_eq a b : net_eqb a b = true <-> a = b.
Proof.
  destruct a as [v x l], b as [v' x' l']; unfold net_eqb; simpl.
  rewrite !andb_true_iff, ipver_eqb_eq, !N.eqb_eq. split.
  - intros [[-> ->] ->]. reflexivity.
  - intros H. inversion H. auto.
Qed.

Lemma blk_pos v l : Z.of_N l <= width v -> 0 < blk v l.
Proof. intros. unfold blk. apply Z.pow_pos_nonneg; lia. Qed.

(* containment as SETS OF ADDRESSES *)
Theorem subnet_of_iff a b : wf_net a -> wf_net b ->
  (subnet_of a b = true <-> same_ver a b /\ forall x, in_net x a -> in_net x b).
Proof.
  unfold wf_net, subnet_of, same_ver, in_net, hi.
  intros (Hl & Ha & _) (Hk & Hb & _).
  pose proof (blk_pos _ _ Hl) as Pa. pose proof (blk_pos _ _ Hk) as Pb.
  rewrite !andb_true_iff, ipver_eqb_eq, !Z.leb_le. split.
  - intros [[Hv H1] H2]. split; [exact Hv|]. intros x Hx. lia.
  - intros [Hv Hx]. pose proof (Hx (lo a)) as X1. pose proof (Hx (lo a + blk (n_ver a) (n_plen a) - 1)) as X2.
    split; [split; [exact Hv|]|]; lia.
Qed.

Lemma subnet_of_refl a : subnet_of a a = true.
Proof.
  unfold subnet_of. rewrite !andb_true_iff, !Z.leb_le. repeat split; try lia.
  apply ipver_eqb_eq; reflexivity.
Qed.
Lemma subnet_of_trans a b c : subnet_of a b = true -> subnet_of b c = true -> subnet_of a c = true.
Proof.
  unfold subnet_of. rewrite !andb_true_iff, !ipver_eqb_eq, !Z.leb_le.
  intros [[-> ?] ?] [[-> ?] ?]. repeat split; lia.
Qed.

Lemma slash_zero_all v x : 0 <= x < 2 ^ width v -> in_net x (Net v 0 0).
Proof. unfold in_net, hi, lo, blk; simpl. rewrite Z.sub_0_r. lia. Qed.
