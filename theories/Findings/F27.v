(* F27 (repaired): CFModel.resolve rendered the NAME in a resource's Condition attribute like any other text, so a condition
   called "True" was referred to as "true" in the resolved model; resolving the resolved model again then gated the resource on
   another condition (or on none).  The model-level fixed point (Resolver/ModelFix.v) needs that rendering does not rewrite
   the name; the witness below shows it failing for the code before the repair.
   This file keeps the model of that code (only the Type is put back) and the refutation of the fixed point for it. *)
From Coq Require Import List.
From PV Require Import Base.Str Base.Value Resolver.Consts Resolver.Resolve Resolver.Template Resolver.ModelFix.
Import ListNotations.

Definition keep_type_found (orig resolved : value) : value :=
  match orig, resolved with
  | VDict o, VDict d => VDict (keep_key K_Type o d)
  | _, _ => resolved
  end.
Definition resolve_resource_found (e : env) (r : value) : res value := r' <- resolve e r ;; Ok (keep_type_found r r').

Definition e_none : env := {| params := []; mappings := []; conds := fun _ => Ok false |}.
Definition resolved_tt : list (str * bool) := [(S_True, true); (S_true, false)].
Definition res_true : value := VDict [(K_Type, VStr s_Bucket); (K_Condition, VStr S_True)].

(* before the repair: the gate of the definition is open, the gate of its resolved form is closed *)
Example F27_as_found :
  gate resolved_tt res_true = Ok true /\
  exists r', resolve_resource_found e_none res_true = Ok r' /\ gate resolved_tt r' = Ok false.
Proof. split; [vm_compute; reflexivity|]. eexists. split; vm_compute; reflexivity. Qed.
(* repaired: both gates are open, and the resolved form is the definition itself *)
Example F27_repaired :
  resolve_resource e_none res_true = Ok res_true /\ gate resolved_tt res_true = Ok true.
Proof. split; vm_compute; reflexivity. Qed.
