(* Documentation of two REPAIRED findings (F11, F13; table in DESIGN.md 7.3): faithful models of the code before
   the repair commits a48b8e2 / d8cc80f, and the witnesses on which the cleanliness theorem of C19 fails for
   them.  Nothing here is used by the property theorems. *)
From Coq Require Import List Bool ZArith.
From PV Require Import Base.Str Base.Value Resolver.Resolve Robust.Validators Robust.ValidatorsFacts.
Import ListNotations.
Local Open Scope N_scope.

(* F13: GenericResource.check_type tested `value in existing_resource_types` (a set) on the raw value:
   hashing a list or a dict raises TypeError; every other non-string falls through to pydantic's str check *)
Definition check_type_pre (strict : bool) (modelled : list str) (v : value) : res value :=
  match v with
  | VList _ | VDict _ => Err EType
  | VStr s => if mem_str s modelled && strict then Err EValue else Ok (VStr s)
  | _ => Ok v
  end.

(* F11: validate_binary handed whatever it got to base64.b64decode: a non-text, non-bytes value raises
   TypeError; bytes (its own output, when a dumped model is validated again) were decoded a second time *)
Definition validate_binary_pre (v : value) : res value :=
  match v with
  | VStr s => match b64decode s with Some b => Ok (VBytes b) | None => Err EValue end
  | VBytes b => match b64dec_go b 0 0 0 [] with Some b' => Ok (VBytes b') | None => Err EValue end
  | _ => Err EType
  end.
(* F11, resolver side: bytes had no branch in resolve() and reached `raise ValueError("Not supported type")` *)
Definition resolve_leaf_pre (ps : list (str * value)) (v : value) : res value :=
  match v with
  | VBytes _ => Err EValue
  | _ => match render_leaf ps v with Some r => Ok r | None => Err EUndefined end
  end.

Definition s_a : str := [97].
Example F13_check_type_refuted : ~ (forall strict modelled v, clean (check_type_pre strict modelled v)).
Proof. intros H. exact (H true [] (VList [VStr s_a])). Qed.
Example F13_witness_list : check_type_pre true [] (VList [VStr s_a]) = Err EType.
Proof. reflexivity. Qed.
Example F13_witness_dict : check_type_pre true [] (VDict [(s_a, VInt 1)]) = Err EType.
Proof. reflexivity. Qed.
Example F13_repaired : check_type true [] (VList [VStr s_a]) = Err EValue /\ check_type true [] (VDict [(s_a, VInt 1)]) = Err EValue.
Proof. split; reflexivity. Qed.

Example F11_validate_binary_refuted : ~ (forall v, clean (validate_binary_pre v)).
Proof. intros H. exact (H (VInt 5)). Qed.
Example F11_witness_number : validate_binary_pre (VInt 5) = Err EType.
Proof. reflexivity. Qed.
Example F11_witness_null_list : validate_binary_pre VNull = Err EType /\ validate_binary_pre (VDict []) = Err EType.
Proof. split; reflexivity. Qed.
Example F11_repaired : validate_binary (VInt 5) = Err EValue /\ pydantic_wrap (validate_binary (VInt 5)) = Err EValidation.
Proof. split; reflexivity. Qed.
(* "YQ==" decodes to "a"; decoding the result again fails (one data character): dump -> validate broke *)
Example F11_witness_roundtrip :
  validate_binary_pre (VStr [89; 81; 61; 61]) = Ok (VBytes [97]) /\ validate_binary_pre (VBytes [97]) = Err EValue /\
  validate_binary (VBytes [97]) = Ok (VBytes [97]).
Proof. repeat split; reflexivity. Qed.
Example F11_witness_resolve : resolve_leaf_pre [] (VBytes [97]) = Err EValue /\
  resolve {| params := []; mappings := []; conds := fun _ => Ok false |} (VBytes [97]) = Ok (VStr [89; 81; 61; 61]).
Proof. split; reflexivity. Qed.
