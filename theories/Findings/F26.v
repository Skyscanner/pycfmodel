(* Documentation of finding F26 (pycfmodel tree c71460c, repaired by e16c1a8):
   pydantic 2.7.3 accepts the TEXT of a year-0 date ("0000-01-01", "0000-06-15T12:00:00Z") in its date / datetime parser and
   then lets `ValueError: year 0 is out of range` of datetime.date escape UNWRAPPED.  In the typed fields of pycfmodel
   (AWSTemplateFormatVersion, PolicyDocument.Version, the Date* condition operators) that ValueError left pycfmodel.parse as it is:
   neither a model nor a ValidationError.  (The same text inside a generic resource was already handled by c71460c.) *)
From Coq Require Import List ZArith.
From PV Require Import Base.Str Base.Value Robust.Validators Robust.ValidatorsFacts.
Import ListNotations.
Local Open Scope N_scope.

(* before the repair the field was pydantic's parser itself *)
Definition date_field_pre (std : value -> res value) (v : value) : res value := std v.

(* a parser that behaves like pydantic's on the witness *)
Definition year0 : str := [48; 48; 48; 48; 45; 48; 49; 45; 48; 49].           (* "0000-01-01" *)
Definition std_witness (v : value) : res value :=
  match v with VStr s => if str_eqb s year0 then Err EValue else Ok v | _ => Err EValidation end.

Example F26_date_field_refuted : ~ (forall std v, (clean (std v) \/ std v = Err EValidation) -> parse_clean (date_field_pre std v)).
Proof. intros H. exact (H std_witness (VStr year0) (or_introl I)). Qed.
Example F26_witness : date_field_pre std_witness (VStr year0) = Err EValue.
Proof. reflexivity. Qed.
Example F26_repaired : safe_date std_witness (VStr year0) = Err EValidation /\ safe_date std_witness (VStr [50]) = Ok (VStr [50]).
Proof. split; reflexivity. Qed.
