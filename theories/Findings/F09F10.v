(* theories/Findings/ models four groups of pycfmodel's repaired defects as they stood before the repair: F09 and F10
   (this file), F11 and F13 (F11F13.v), F26 (F26.v), F27 (F27.v).  The ids F01..F31 cited in comments all over theories/ are
   the rows of the table of findings in DESIGN.md 7.3; most of them have no model of the defective code.

   Findings 9 and 10 (both repaired in statement_condition.build_root_evaluator): faithful models of the DEFECTIVE
   behaviour, and the laws of C12 they refute.  Documentation only -- nothing here is used by the property theorems.

   F09  late-binding closures: inside `for arg_a, arg_b in arguments:` the lambdas of the IfExists / ForAllValues /
        ForAnyValue / value-list branches referred to the loop variables, so after the loop EVERY such group tested the
        LAST key (modelled here for the homogeneous case: all keys of the operator take the same branch).
   F10  a negated operator with a value list combined the values with any(): "differs from SOME listed value". *)
From Coq Require Import List ZArith.
From PV Require Import Base.Str Iam.Ops Iam.OpNames Iam.Block Iam.BlockFacts.
Import ListNotations.
Local Open Scope N_scope.

Section Defects.
Variable test : base_op -> cval -> cval -> option bool.

(* F10: any() whatever the operator *)
Definition value_ok_d (o : base_op) (ps : list cval) (c : cval) : option bool := any_sc (fun p => test o p c) ps.

(* F09: every group of the operator is the group of its last key *)
Definition eval_entry_d (ctx : context) (eg : op_entry * groups) : option bool :=
  match rev (snd eg) with
  | [] => Some true
  | (kl, pvl) :: _ => all_sc (fun _ : str * pvals => eval_key test (fst eg) kl pvl ctx) (snd eg)
  end.
End Defects.

Definition idf (s : str) : str := s.
Definition T := op_test idf.
Definition S (c : N) : cval := CStr [c].
Definition k1 : str := [107; 49].
Definition k2 : str := [107; 50].
Definition e_StringEquals : op_entry :=
  {| e_name := base_name OStringEquals; e_qual := QNone; e_ifx := false; e_base := OStringEquals; e_fam := FStr |}.

(* F10 witness: {"StringNotEquals": {k: ["a","b"]}} on k = "a": the defective combination says True, the specified one
   False, and the specification (value_sat: the test holds for EVERY listed value) is indeed not met *)
Example F10_witness :
  value_ok_d T OStringNotEquals [S 97; S 98] (S 97) = Some true
  /\ value_ok T OStringNotEquals [S 97; S 98] (S 97) = Some false.
Proof. split; vm_compute; reflexivity. Qed.
Example F10_refuted : ~ value_sat T OStringNotEquals [S 97; S 98] (S 97).
Proof.
  intros H. apply (proj2 (value_ok_true T OStringNotEquals [S 97; S 98] (S 97))) in H. vm_compute in H. discriminate.
Qed.

(* F09 witness: {"StringEquals": {"k1": ["a","c"], "k2": ["b"]}} on {k1: "x", k2: "b"} *)
Definition g09 : groups := [(k1, PMany [S 97; S 99]); (k2, PMany [S 98])].
Definition ctx09 : context := [(k1, XOne (S 120)); (k2, XOne (S 98))].
Example F09_witness :
  eval_entry_d T ctx09 (e_StringEquals, g09) = Some true
  /\ eval_entry T ctx09 (e_StringEquals, g09) = Some false.
Proof. split; vm_compute; reflexivity. Qed.
(* Two contexts that differ in k2 only: the defective verdict of the ENTRY differs while the k1 group's own verdict is the
   same.  The specified [eval_entry] gives the same two answers on these inputs (its k2 group reads k2), so this example
   does not tell the defect from the specification; only F09_witness does. *)
Example F09_refutes_key_independence :
  eval_entry_d T ((k2, XOne (S 120)) :: ctx09) (e_StringEquals, [(k1, PMany [S 120]); (k2, PMany [S 98])]) = Some false
  /\ eval_entry_d T ctx09 (e_StringEquals, [(k1, PMany [S 120]); (k2, PMany [S 98])]) = Some true
  /\ eval_key T e_StringEquals k1 (PMany [S 120]) ((k2, XOne (S 120)) :: ctx09)
     = eval_key T e_StringEquals k1 (PMany [S 120]) ctx09.
Proof. vm_compute. repeat split. Qed.
